(* C06 -- property theorems.  Pins_C06.v, compiled on every run of the check, repeats each statement and prints its
   assumptions. *)
From Coq Require Import List Arith Bool.
From SV Require Import gen.Gen_C06 c06.Model_C06 c06.ProofsBound_C06.
Import ListNotations.

(* Generated fact: the recycler's scan covers every op code whose payload the interner turns into a global slot ... *)
Theorem scan_covers_refs : forall o, In o interned_ops -> In o scanned_ops.
Proof. exact interned_ops_scanned. Qed.

(* ... it looks through the JIT header, follows referenced shadowed slots, starts its walk through the heap from
   cleared mark bits, and a failed build restores the map (all five read from /repo into gen/Gen_C06.v by the
   translator on every run) *)
Theorem C06_config_now_sound : config_sound cfg_now.
Proof. exact config_now_sound. Qed.

(* The invariant holds initially and is preserved by one top-level evaluation, whatever it is (defines,
   redefinitions, set!, calls, a unit rejected by the expander, a failed build with roll-back, a run-time error,
   a recycling round), for any amount of fuel. *)
Theorem C06_bound_step : forall c fuel e u, config_sound c -> Bound e -> Bound (fst (run_unit c fuel e u)).
Proof. exact Bound_run_unit. Qed.

(* Any history, of any length, under [cfg_now], the configuration gen/Gen_C06.v reads from /repo's source. *)
Theorem C06_bound_history : forall fuel h, Bound (fst (run_history cfg_now fuel eng_new h)).
Proof. intros. apply Bound_history; [exact config_now_sound | exact Bound_new]. Qed.

(* Building a unit -- any number of defines and redefinitions -- changes no stored value (hence no instruction
   of any earlier closure), takes no slot away from a live binding, and the slots its defines will write were
   owned by no binding before. *)
Theorem C06_redefine_local : forall c e fs, Bound e -> c_snapshot c = true ->
  globals (fst (build c e fs)) = globals e /\ heap (fst (build c e fs)) = heap e /\
  (forall s b, owner_of e s = Some b -> owner_of (fst (build c e fs)) s = Some b) /\
  Forall (slot_unowned e) (snd (first_pass e fs)).
Proof.
  intros c e fs B SN. destruct (build c e fs) as [e1 r] eqn:EB.
  destruct (build_Bound c e fs e1 r B SN EB) as [_ [[L1 [G1 [H1 _]]] _]].
  split; [exact G1|]. split; [exact H1|]. split; [exact L1|].
  destruct (first_pass e fs) as [e0 slots] eqn:EF. apply (first_pass_Bound fs e e0 slots B EF).
Qed.

(* set! writes exactly the slot of the binding (and yields the old value) *)
Theorem C06_set_visible : forall fuel g hp s b n, s < length g ->
  eval fuel (g, hp) (RSet s b (RConst n)) = ((set_nth s (VInt n) g, hp), Some (nth s g VVoid)) /\
  nth s (set_nth s (VInt n) g) VVoid = VInt n /\
  (forall t, t <> s -> nth t (set_nth s (VInt n) g) VVoid = nth t g VVoid).
Proof.
  intros fuel g hp s b n L. simpl. assert (LT : Nat.ltb s (length g) = true) by (apply Nat.ltb_lt; exact L).
  rewrite LT. split; [reflexivity|]. split.
  - rewrite nth_set_nth, Nat.eqb_refl, LT. reflexivity.
  - intros t NE. rewrite nth_set_nth. apply Nat.eqb_neq in NE. rewrite NE. reflexivity.
Qed.

(* a unit that fails before or during the build leaves the whole engine state as it was *)
Theorem C06_rollback_restores : forall c fuel e u, c_snapshot c = true ->
  snd (run_unit c fuel e u) = None ->
  u_expand_fails u = true \/ snd (build c e (u_forms u)) = None ->
  fst (run_unit c fuel e u) = e.
Proof.
  intros c fuel e u SN _ H. unfold run_unit. destruct (u_expand_fails u); [reflexivity|].
  destruct H as [H|H]; [discriminate|]. unfold build in *.
  destruct (first_pass e (u_forms u)) as [e1 slots].
  destruct (second_pass e1 (defined_names (u_forms u)) [] (u_forms u) slots); [discriminate|].
  rewrite SN. reflexivity.
Qed.

(* Configurations with one field off: cfg_truncate (a failed build calls SymbolMap::roll_back) is the code before /repo
   fdfd1615 and loses a binding; cfg_no_set, cfg_no_header, cfg_no_follow are the recycler's scan before /repo c5f91feb,
   00bbd019, c0c6ca81 and each has a history after which [Bound] fails.  The regression corpus replays the witnesses
   on the engine. *)
Theorem C06_rollback_truncate_refuted :
  exists e fs x s, sm_get (sm e) x = Some s /\ snd (build cfg_truncate e fs) = None /\
                   sm_get (sm (fst (build cfg_truncate e fs))) x = None.
Proof.
  exists st_x5, [FDefine 0 (EConst 6); FExpr (EGlobal 77)], 0, 0.
  vm_compute. repeat split; reflexivity.
Qed.

Theorem C06_scan_without_SET_refuted : exists h, ~ Bound (fst (run_history cfg_no_set 10 eng_new h)).
Proof. exists h_no_set. apply (slot_bad_not_Bound _ 1). rewrite <- run_history_bits_eq. vm_compute. reflexivity. Qed.

Theorem C06_scan_without_header_refuted : exists h, ~ Bound (fst (run_history cfg_no_header 10 eng_new h)).
Proof. exists h_no_header. apply (slot_bad_not_Bound _ 1). rewrite <- run_history_bits_eq. vm_compute. reflexivity. Qed.

Theorem C06_scan_without_follow_refuted : exists h, ~ Bound (fst (run_history cfg_no_follow 10 eng_new h)).
Proof. exists h_no_follow. apply (slot_bad_not_Bound _ 1). rewrite <- run_history_bits_eq. vm_compute. reflexivity. Qed.

(* the recycler's walk uses the heap mark bits as its visited set: started from stale (set) bits, a closure held only
   in a box is never scanned *)
Theorem C06_scan_with_stale_marks_refuted : exists h, ~ Bound (fst (run_history cfg_stale_marks 10 eng_new h)).
Proof. exists h_stale_marks. apply (cell_bad_not_Bound _ 2 0). rewrite <- run_history_bits_eq. vm_compute. reflexivity. Qed.

(* [Bound] covers the heap: the contents of every cell a stored value mentions are well bound *)
Theorem C06_bound_cells : forall e s a, Bound e -> In a (cells_in (nth s (globals e) VVoid)) -> a < length (heap e) ->
  val_ok e (nth a (heap e) VVoid).
Proof. exact Bound_cell. Qed.

Example C06_heap_nonvacuous :
  let e := fst (run_history cfg_now 10 eng_new h_stale_marks) in
  threshold (fl (sm e)) <> initial_threshold /\ free (fl (sm e)) <> [] /\
  nth 2 (globals e) VVoid = VRef 0 /\ val_okb e (nth 0 (heap e) VVoid) = true /\
  (exists h b c, nth 0 (heap e) VVoid = VClo h b c /\ b <> []).
Proof.
  rewrite <- run_history_bits_eq. vm_compute. split; [discriminate|]. split; [discriminate|]. split; [reflexivity|]. split; [reflexivity|].
  eexists. eexists. eexists. split; [reflexivity | discriminate].
Qed.

(* non-vacuity: a history with a recycling round after which a stored closure still refers to a shadowed binding *)
Example C06_nonvacuous :
  let e := fst (run_history cfg_now 10 eng_new h_no_follow) in
  threshold (fl (sm e)) <> initial_threshold /\
  free (fl (sm e)) <> [] /\ val_okb e (nth 2 (globals e) VVoid) = true /\
  (exists h b c, nth 2 (globals e) VVoid = VClo h b c /\ b <> []).
Proof.
  rewrite <- run_history_bits_eq. vm_compute. split; [discriminate|]. split; [discriminate|]. split; [reflexivity|].
  eexists. eexists. eexists. split; [reflexivity | discriminate].
Qed.
