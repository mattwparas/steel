(* C06 -- the invariant [Bound] is preserved by every evaluation step (add, the two interner passes, roll-back of a
   failed build, slot recycling with its walk through the heap, running the unit), for every configuration that
   satisfies [config_sound]; and the configurations with one field off, their witness histories and the boolean tests
   [slot_badb] / [cell_badb] that recognise a broken state (the refutations, evaluated through [run_history_bits],
   are in Properties_C06.v). *)
From Coq Require Import List Arith Bool Lia.
From SV Require Import lib.ListFacts gen.Gen_C06 c06.Model_C06.
Import ListNotations.

Lemma mem_op_In : forall o l, mem_op o l = true <-> In o l.
Proof. exact (existsb_eqb_In _ op_eqb_eq). Qed.

Lemma interned_ops_scanned : forall o, In o interned_ops -> In o scanned_ops.
Proof.
  intros o H.
  assert (A : forallb (fun x => mem_op x scanned_ops) interned_ops = true) by (vm_compute; reflexivity).
  rewrite forallb_forall in A. apply mem_op_In. apply A. exact H.
Qed.

(* the generated facts (Gen_C06.v is written from /repo on every run) make [cfg_now], the configuration read from
   the code, sound *)
Lemma config_now_sound : config_sound cfg_now.
Proof.
  unfold config_sound. split; [|repeat split; reflexivity].
  intros o H. unfold refs_global in H. apply mem_op_In in H.
  unfold scanned, cfg_now; cbn [c_scanned]. apply mem_op_In. apply interned_ops_scanned. exact H.
Qed.

Lemma nth_set_nth : forall {A} (l : list A) n m x d,
  nth m (set_nth n x l) d = if Nat.eqb m n then (if Nat.ltb n (length l) then x else nth m l d) else nth m l d.
Proof.
  induction l as [|y r IH]; intros n m x d.
  - destruct n; destruct m as [|m]; simpl; try reflexivity; destruct (Nat.eqb m n); reflexivity.
  - destruct n as [|n]; destruct m as [|m]; simpl; try reflexivity.
    rewrite IH. destruct (Nat.eqb m n) eqn:E; try reflexivity.
Qed.

Lemma length_set_nth : forall {A} (l : list A) n x, length (set_nth n x l) = length l.
Proof. induction l; intros [|n] x; simpl; auto. Qed.

Lemma nth_set_nth_pad : forall {A} (d : A) n m x l,
  nth m (set_nth_pad d n x l) d = if Nat.eqb m n then x else nth m l d.
Proof.
  intros A d n. induction n as [|n IH]; intros m x l.
  - destruct l; destruct m; simpl; try reflexivity. destruct m; reflexivity.
  - destruct l as [|y r]; destruct m as [|m]; simpl; try reflexivity.
    + rewrite IH. destruct (Nat.eqb m n); try reflexivity. destruct m; reflexivity.
    + rewrite IH. reflexivity.
Qed.

Lemma length_set_nth_pad : forall {A} (d : A) n x l,
  length (set_nth_pad d n x l) = Nat.max (length l) (S n).
Proof.
  intros A d n. induction n as [|n IH]; intros x l.
  - destruct l; simpl; try reflexivity. lia.
  - destruct l as [|y r]; simpl; rewrite IH; simpl; lia.
Qed.

Lemma mem_slot_In : forall s l, mem_slot s l = true <-> In s l.
Proof. exact (existsb_eqb_In _ Nat.eqb_eq). Qed.

Lemma mem_slot_false : forall s l, mem_slot s l = false <-> ~ In s l.
Proof. exact (existsb_eqb_notIn _ Nat.eqb_eq). Qed.

Lemma lookup_remove_name : forall m x y,
  lookup (remove_name x m) y = if Nat.eqb y x then None else lookup m y.
Proof.
  induction m as [|[z s] r IH]; intros x y; simpl.
  - destruct (Nat.eqb y x); reflexivity.
  - destruct (Nat.eqb x z) eqn:E; simpl.
    + apply Nat.eqb_eq in E. subst z. rewrite IH. destruct (Nat.eqb y x) eqn:E2; reflexivity.
    + rewrite IH. destruct (Nat.eqb y z) eqn:E2; [|reflexivity].
      apply Nat.eqb_eq in E2. subst z. rewrite Nat.eqb_sym. rewrite E. reflexivity.
Qed.

Lemma lookup_add : forall m x idx y,
  lookup ((x, idx) :: remove_name x m) y = if Nat.eqb y x then Some idx else lookup m y.
Proof.
  intros. simpl. rewrite lookup_remove_name. destruct (Nat.eqb y x); reflexivity.
Qed.

Definition owner_le (e1 e2 : eng) : Prop := forall s b, owner_of e1 s = Some b -> owner_of e2 s = Some b.

Lemma owner_le_refl : forall e, owner_le e e.
Proof. intros e s b H; exact H. Qed.

Lemma owner_le_trans : forall a b c, owner_le a b -> owner_le b c -> owner_le a c.
Proof. intros a b c H1 H2 s x H. apply H2, H1, H. Qed.

Section Scan.
Variable c : config.
Hypothesis COVER : forall o, refs_global o = true -> scanned c o = true.
Hypothesis HDR : c_header c = true.
Variables (e e' : eng) (K : slot -> Prop).
Hypothesis KEEP : forall s b, K s -> owner_of e s = Some b -> owner_of e' s = Some b.

Lemma body_ok_keep : forall h b idx, body_ok e h idx b -> Forall K (scan_body c h idx b) -> body_ok e' h idx b.
Proof.
  intros h b. induction b as [|i r IH]; intros idx B S; cbn [body_ok scan_body] in B, S |- *; [exact I|].
  destruct B as [B1 B2]. apply Forall_app in S as [S1 S2]. split; [|apply IH; assumption].
  intros R. destruct (B1 R) as [b [G O]]. exists b. split; [exact G|]. apply KEEP; [|exact O].
  unfold scan_op in S1. rewrite HDR, (COVER _ R) in S1. exact (Forall_inv S1).
Qed.

Lemma val_ok_keep : forall v, val_ok e v -> Forall K (refs_of c v) -> val_ok e' v.
Proof.
  induction v; simpl; intros V S; auto.
  - destruct V as [V1 V2]. apply Forall_app in S as [S1 S2]. split; [eapply body_ok_keep; eauto | auto].
  - destruct V as [V1 V2]. apply Forall_app in S as [S1 S2]. split; auto.
Qed.
End Scan.

(* every slot kept: which payloads the scan matches is immaterial, so take the scan for just the interned op codes *)
Lemma val_ok_le : forall e1 e2 v, owner_le e1 e2 -> val_ok e1 v -> val_ok e2 v.
Proof.
  intros e1 e2 v L V.
  apply (val_ok_keep (mkCfg interned_ops true true true true) (fun o H => H) eq_refl e1 e2 (fun _ => True) (fun s b _ => L s b) v V).
  apply Forall_forall. intros t _. exact I.
Qed.

Lemma vgood_le : forall e1 e2 hp G v, owner_le e1 e2 -> vgood e1 hp G v -> vgood e2 hp G v.
Proof. intros e1 e2 hp G v L [H1 H2]. split; [eapply val_ok_le; eauto | exact H2]. Qed.

Lemma sok_le : forall e1 e2 G g hp, owner_le e1 e2 -> sok e1 G g hp -> sok e2 G g hp.
Proof.
  intros e1 e2 G g hp L [H1 H2]. split.
  - intros s. eapply vgood_le; eauto.
  - intros a Ha. eapply vgood_le; eauto.
Qed.

(* the order on run-time states is defined by its only use: what was good stays good *)
Definition ext (e : eng) (hp : list val) (G : list nat) (hp' : list val) (G' : list nat) : Prop :=
  forall w, vgood e hp G w -> vgood e hp' G' w.

Lemma vgood_atom : forall e hp G v, cells_in v = [] -> val_ok e v -> vgood e hp G v.
Proof. intros e hp G v C V. split; [exact V | intros a Ha; rewrite C in Ha; destruct Ha]. Qed.

Lemma vgood_void : forall e hp G, vgood e hp G VVoid.
Proof. intros. apply vgood_atom; [reflexivity | exact I]. Qed.

Lemma vgood_pair : forall e hp G a b, vgood e hp G (VPair a b) <-> vgood e hp G a /\ vgood e hp G b.
Proof.
  intros e hp G a b. unfold vgood, cells_ok. simpl. split.
  - intros [[V1 V2] C]. split; (split; [assumption|]); intros x Hx; apply C; apply in_or_app; [left|right]; exact Hx.
  - intros [[V1 C1] [V2 C2]]. split; [split; assumption|]. intros x Hx. apply in_app_or in Hx. destruct Hx; [apply C1 | apply C2]; assumption.
Qed.

Lemma vgood_clo_caps : forall e hp G h b c, vgood e hp G (VClo h b c) -> vgood e hp G c.
Proof. intros e hp G h b c [[V1 V2] C]. split; [exact V2 | exact C]. Qed.

Lemma vgood_ref : forall e hp G a, vgood e hp G (VRef a) <-> (a < length hp -> In a G).
Proof.
  intros e hp G a. unfold vgood, cells_ok. simpl. split.
  - intros [_ C]. apply C. left. reflexivity.
  - intros H. split; [exact I|]. intros x [Hx|[]]. subst. exact H.
Qed.

Lemma vgood_cell_content : forall e hp G vec v, vgood e hp G v -> vgood e hp G (cell_content vec v).
Proof.
  intros e hp G vec v V. destruct vec; [|exact V].
  apply vgood_pair. split; [exact V | apply vgood_atom; [reflexivity | exact I]].
Qed.

Lemma sok_cell : forall e G g hp a, sok e G g hp -> vgood e hp G (VRef a) -> vgood e hp G (nth a hp VVoid).
Proof.
  intros e G g hp a [S1 S2] V. destruct (lt_dec a (length hp)) as [L|L].
  - apply S2. apply (proj1 (vgood_ref e hp G a) V L).
  - rewrite nth_overflow; [apply vgood_void | lia].
Qed.

Lemma sok_set_glob : forall e G g hp n v, sok e G g hp -> vgood e hp G v -> sok e G (set_nth n v g) hp.
Proof.
  intros e G g hp n v [S1 S2] V. split; [|exact S2]. intros s. rewrite nth_set_nth.
  destruct (Nat.eqb s n); [destruct (Nat.ltb n (length g)); [exact V | apply S1] | apply S1].
Qed.

Lemma sok_define_idx : forall e G g hp n v, sok e G g hp -> vgood e hp G v -> sok e G (define_idx n v g) hp.
Proof.
  intros e G g hp n v [S1 S2] V. split; [|exact S2]. intros s. unfold define_idx. rewrite nth_set_nth_pad.
  destruct (Nat.eqb s n); [exact V | apply S1].
Qed.

Lemma ext_set_cell : forall e hp G a v, ext e hp G (set_nth a v hp) G.
Proof.
  intros e hp G a v w [W1 W2]. split; [exact W1|]. intros x Hx Hl. rewrite length_set_nth in Hl. apply W2; assumption.
Qed.

Lemma sok_set_cell : forall e G g hp a v, sok e G g hp -> vgood e hp G v -> sok e G g (set_nth a v hp).
Proof.
  intros e G g hp a v [S1 S2] V. pose proof (ext_set_cell e hp G a v) as K. split.
  - intros s. apply K, S1.
  - intros b Hb. rewrite nth_set_nth. destruct (Nat.eqb b a); [destruct (Nat.ltb a (length hp))|]; apply K; auto.
Qed.

Lemma ext_alloc : forall e hp G v, ext e hp G (hp ++ [v]) (length hp :: G).
Proof.
  intros e hp G v w [W1 W2]. split; [exact W1|]. intros a Ha Hl. rewrite app_length in Hl. simpl in Hl.
  destruct (Nat.eq_dec a (length hp)) as [->|Q]; [left; reflexivity | right; apply W2; [exact Ha | lia]].
Qed.

Lemma sok_alloc : forall e G g hp v, sok e G g hp -> vgood e hp G v -> sok e (length hp :: G) g (hp ++ [v]).
Proof.
  intros e G g hp v [S1 S2] V. pose proof (ext_alloc e hp G v) as E. split.
  - intros s. apply E, S1.
  - intros a Ha. apply E. destruct (Nat.eq_dec a (length hp)) as [->|Q]; [rewrite nth_middle; exact V|].
    destruct Ha as [Ha|Ha]; [congruence|]. destruct (lt_dec a (length hp)) as [L|L].
    + rewrite app_nth1; [apply S2; exact Ha | exact L].
    + rewrite nth_overflow; [apply vgood_void | rewrite app_length; simpl; lia].
Qed.

Lemma dig_void : forall f hp, dig f hp VVoid = VVoid.
Proof. intros [|f] hp; reflexivity. Qed.

Lemma dig_good : forall e G g hp, sok e G g hp -> forall f v, vgood e hp G v -> vgood e hp G (dig f hp v).
Proof.
  intros e G g hp S. induction f as [|f IH]; intros v V; simpl; [exact V|].
  destruct v; try exact V.
  - apply IH. apply (proj1 (vgood_pair _ _ _ _ _) V).
  - apply IH. eapply sok_cell; eauto.
Qed.

Definition good_opt (e : eng) (hp : list val) (G : list nat) (o : option val) : Prop :=
  match o with Some v => vgood e hp G v | None => True end.

Definition call_post (e : eng) (G : list nat) (hp g : list val) (r : list val * option val) : Prop :=
  sok e G (fst r) hp /\ good_opt e hp G (snd r) /\ length (fst r) = length g.

Definition callf_ok (e : eng) (G : list nat) (hp : list val) (callf : list val -> val -> nat -> list val * option val) : Prop :=
  forall g f arg, sok e G g hp -> vgood e hp G f -> call_post e G hp g (callf g f arg).

Definition step_post (e : eng) (G : list nat) (hp g : list val) (r : list val * option (option val)) : Prop :=
  call_post e G hp g (fst r, match snd r with Some o => o | None => None end).

Lemma step_post_same : forall e G hp g r, sok e G g hp ->
  (forall v, r = Some (Some v) -> vgood e hp G v) -> step_post e G hp g (g, r).
Proof.
  intros e G hp g r SK V. split; [exact SK|]. split; [|reflexivity].
  destruct r as [[v|]|]; [exact (V v eq_refl) | exact I | exact I].
Qed.

Lemma step_post_call : forall e G hp callf g f a, callf_ok e G hp callf -> sok e G g hp -> vgood e hp G f ->
  step_post e G hp g (let '(g', r) := callf g f a in (g', option_map Some r)).
Proof.
  intros e G hp callf g f a CF SK V. pose proof (CF g f a SK V) as C.
  destruct (callf g f a) as [g' [r|]]; exact C.
Qed.

Lemma call_ok : forall e G hp fuel, callf_ok e G hp (call fuel hp).
Proof.
  intros e G hp. induction fuel as [|fuel IH]; intros g f arg SK V.
  - split; [exact SK|]. split; [exact I | reflexivity].
  - destruct f; try (split; [exact SK|]; split; [exact I | reflexivity]).
    assert (VC : forall g, sok e G g hp -> vgood e hp G (dig fuel hp f)).
    { intros g' S'. eapply dig_good; [exact S'|]. eapply vgood_clo_caps; exact V. }
    clear V. cbn [call]. generalize 0 as idx. revert g SK. induction body as [|i rest IHb]; intros g SK idx.
    + split; [exact SK|]. split; [apply vgood_atom; [reflexivity | exact I] | reflexivity].
    + (* one instruction, then the rest of the body from the global vector it leaves; X is the instruction's outcome
         (the if-chain over its op code in the body loop of [call]) *)
      match goal with |- call_post _ _ _ _ (let '(g1, r1) := ?X in _) =>
        assert (T : step_post e G hp g X); [|destruct X as [g1 [out|]]; destruct T as [T1 [T2 T3]]; cbn [fst snd] in T1, T2, T3] end.
      * set (o := true_op hdr idx i). set (a := match i_imm i with Some k => k | None => arg end).
        assert (ERR : step_post e G hp g (g, None)) by (apply step_post_same; [exact SK | discriminate]).
        destruct (op_eqb o Op_PUSH).
        { apply step_post_same; [exact SK|]. intros v Hv.
          destruct (Nat.ltb (i_pay i) (length g)); inversion Hv. apply (proj1 SK). }
        destruct (op_eqb o Op_SET).
        { destruct (Nat.ltb (i_pay i) (length g)); [|exact ERR].
          split; [apply sok_set_glob; [exact SK | apply vgood_atom; [reflexivity | exact I]]|].
          split; [apply (proj1 SK) | apply length_set_nth]. }
        destruct (is_call_op o).
        { destruct (Nat.ltb (i_pay i) (length g)); [|exact ERR].
          apply step_post_call; [exact IH | exact SK | apply (proj1 SK)]. }
        destruct (op_eqb o Op_READCAPTURED).
        { pose proof (VC g SK) as VD.
          destruct (dig fuel hp f); try (apply step_post_same; [exact SK | intros v [= <-]; exact VD]).
          apply step_post_call; assumption. }
        apply step_post_same; [exact SK | discriminate].
      * destruct (IHb g1 T1 (S idx)) as [I1 [I2 I3]].
        (* Y: the body loop on the remaining instructions *)
        match goal with |- call_post _ _ _ _ (let '(g2, r2) := ?Y in _) => destruct Y as [g2 r2] end. cbn [fst snd] in I1, I2, I3.
        split; [exact I1|]. split; [|simpl; lia].
        destruct out as [w|]; [|exact I2]. destruct r2 as [v|]; [|exact I].
        apply vgood_pair. split; [exact T2 | exact I2].
      * split; [exact T1|]. split; [exact I | exact T3].
Qed.

(* what running code needs of an instruction inside a lambda body *)
Definition instr_run_ok (e : eng) (i : instr) : Prop :=
  refs_global (i_op i) = true -> exists b, i_ghost i = Some b /\ owner_of e (i_pay i) = Some b.

Fixpoint rexpr_ok (e : eng) (r : rexpr) : Prop :=
  match r with
  | RLam _ _ body cap => Forall (instr_run_ok e) body /\ rexpr_ok e cap
  | RPair a b => rexpr_ok e a /\ rexpr_ok e b
  | RSetCell _ a b => rexpr_ok e a /\ rexpr_ok e b
  | RBox _ a => rexpr_ok e a
  | RUnbox a => rexpr_ok e a
  | RCar a => rexpr_ok e a
  | RCdr a => rexpr_ok e a
  | RCall a _ => rexpr_ok e a
  | RSet _ _ a => rexpr_ok e a
  | _ => True
  end.

Definition rform_ok (e : eng) (L : nat) (f : rform) : Prop :=
  match f with
  | RDefine s a => s < L /\ rexpr_ok e a
  | RExpr a => rexpr_ok e a
  end.

(* away from an entry instruction that the JIT overwrote, the VM executes the op code the instruction shows *)
Lemma Forall_body_ok : forall e h b idx, (idx = 0 -> h = None) -> Forall (instr_run_ok e) b -> body_ok e h idx b.
Proof.
  intros e h b. induction b as [|i r IH]; intros idx Z H; simpl; [exact I|].
  inversion H; subst. split; [|apply IH; [discriminate | assumption]].
  unfold instr_ok. replace (true_op h idx i) with (i_op i); [assumption|].
  destruct idx; [rewrite Z by reflexivity|]; reflexivity.
Qed.

Lemma mk_closure_good : forall e hp G jit body caps,
  Forall (instr_run_ok e) body -> vgood e hp G caps -> vgood e hp G (mk_closure jit body caps).
Proof.
  intros e hp G jit body caps B [C1 C2]. unfold mk_closure.
  destruct jit; [destruct B as [|i r Bi Br]|]; (split; [|exact C2]); simpl.
  - split; [exact I | exact C1].
  - (* the header keeps the op code of the entry instruction, its payload and ghost stay *)
    split; [split; [exact Bi | apply Forall_body_ok; [discriminate | exact Br]] | exact C1].
  - split; [apply Forall_body_ok; [reflexivity | exact B] | exact C1].
Qed.

Definition eval_post (e : eng) (G : list nat) (g hp : list val) (r : st * option val) : Prop :=
  exists G', ext e hp G (snd (fst r)) G' /\ sok e G' (fst (fst r)) (snd (fst r)) /\
             good_opt e (snd (fst r)) G' (snd r) /\ length (fst (fst r)) = length g.

Lemma eval_post_here : forall e G g hp g' c, sok e G g' hp -> length g' = length g -> good_opt e hp G c ->
  eval_post e G g hp ((g', hp), c).
Proof. intros e G g hp g' c SK L V. exists G. split; [exact (fun w W => W)|]. split; [exact SK|]. split; [exact V | exact L]. Qed.

(* sequencing: a failed first evaluation fails the whole; else the continuation starts from whatever good set the
   first evaluation arrived at, which only grew *)
Lemma eval_post_let : forall e G g hp (r1 : st * option val) (k : st -> option val -> st * option val),
  eval_post e G g hp r1 -> (forall s1, k s1 None = (s1, None)) ->
  (forall G1 g1 hp1 v, ext e hp G hp1 G1 -> sok e G1 g1 hp1 -> vgood e hp1 G1 v -> eval_post e G1 g1 hp1 (k (g1, hp1) (Some v))) ->
  eval_post e G g hp (let '(s1, c) := r1 in k s1 c).
Proof.
  intros e G g hp [[g1 hp1] c] k [G1 [E1 [S1 [V1 L1]]]] N K. simpl in *.
  destruct c as [v|]; [|rewrite N; exists G1; auto].
  destruct (K G1 g1 hp1 v E1 S1 V1) as [G2 [E2 [S2 [V2 L2]]]].
  exists G2. split; [exact (fun w W => E2 w (E1 w W))|]. split; [exact S2|]. split; [exact V2 | lia].
Qed.

Lemma eval_post_alloc : forall e G g hp v w, sok e G g hp -> vgood e hp G v ->
  vgood e (hp ++ [v]) (length hp :: G) w -> eval_post e G g hp ((g, hp ++ [v]), Some w).
Proof.
  intros e G g hp v w SK V W. exists (length hp :: G).
  split; [apply ext_alloc|]. split; [apply sok_alloc; assumption|]. split; [exact W | reflexivity].
Qed.

Lemma vgood_new_cell : forall e hp G v, vgood e (hp ++ [v]) (length hp :: G) (VRef (length hp)).
Proof. intros. apply vgood_ref. intros _. left. reflexivity. Qed.

Lemma eval_ok : forall e fuel x G g hp, sok e G g hp -> rexpr_ok e x ->
  eval_post e G g hp (eval fuel (g, hp) x).
Proof.
  intros e fuel x.
  induction x; intros G g hp SK R; cbn [rexpr_ok] in R; cbn [eval].
  - apply eval_post_here; [exact SK | reflexivity | apply vgood_atom; [reflexivity | exact I]].
  - apply eval_post_here; [exact SK | reflexivity | apply vgood_atom; [reflexivity | exact I]].
  - apply eval_post_here; [exact SK | reflexivity|]. cbn [fst].
    destruct (Nat.ltb s (length g)); [apply (proj1 SK) | exact I].
  - (* RLam *)
    apply eval_post_let; [exact (IHx _ _ _ SK (proj2 R)) | reflexivity | intros G1 g1 hp1 c _ S1 V1; cbn [fst snd]].
    destruct hc.
    + apply eval_post_alloc; [exact S1 | exact V1|].
      apply mk_closure_good; [exact (proj1 R) | apply vgood_new_cell].
    + apply eval_post_here; [exact S1 | reflexivity|]. apply mk_closure_good; [exact (proj1 R) | exact V1].
  - (* RBox *)
    apply eval_post_let; [exact (IHx _ _ _ SK R) | reflexivity | intros G1 g1 hp1 c _ S1 V1; cbn [fst snd]].
    apply eval_post_alloc; [exact S1 | apply vgood_cell_content, V1 | apply vgood_new_cell].
  - (* RUnbox *)
    apply eval_post_let; [exact (IHx _ _ _ SK R) | reflexivity | intros G1 g1 hp1 c _ S1 V1; cbn [fst snd]].
    apply eval_post_here; [exact S1 | reflexivity|].
    destruct c as [| | | | |a]; try exact I.
    destruct (Nat.ltb a (length hp1)); [|exact I].
    eapply sok_cell; [exact S1 | exact V1].
  - (* RSetCell *)
    apply eval_post_let; [exact (IHx1 _ _ _ SK (proj1 R)) | reflexivity | intros G1 g1 hp1 c _ S1 V1; cbn [fst snd]].
    destruct c as [| | | | |a]; try (apply eval_post_here; [exact S1 | reflexivity | exact I]).
    apply eval_post_let; [exact (IHx2 _ _ _ S1 (proj2 R)) | reflexivity | intros G2 g2 hp2 vb _ S2 V2; cbn [fst snd]].
    destruct (Nat.ltb a (length hp2)); [|apply eval_post_here; [exact S2 | reflexivity | exact I]].
    exists G2. split; [apply ext_set_cell|]. split; [apply sok_set_cell, vgood_cell_content, V2; exact S2|].
    split; [apply vgood_atom; [reflexivity | exact I] | reflexivity].
  - (* RPair *)
    apply eval_post_let; [exact (IHx1 _ _ _ SK (proj1 R)) | reflexivity | intros G1 g1 hp1 va _ S1 V1; cbn [fst snd]].
    apply eval_post_let; [exact (IHx2 _ _ _ S1 (proj2 R)) | reflexivity | intros G2 g2 hp2 vb E2 S2 V2].
    apply eval_post_here; [exact S2 | reflexivity|].
    apply vgood_pair. split; [exact (E2 _ V1) | exact V2].
  - (* RCar *)
    apply eval_post_let; [exact (IHx _ _ _ SK R) | reflexivity | intros G1 g1 hp1 c _ S1 V1; cbn [fst snd]].
    apply eval_post_here; [exact S1 | reflexivity|].
    destruct c as [| | | |p q|]; try exact I.
    apply (proj1 (vgood_pair _ _ _ _ _) V1).
  - (* RCdr *)
    apply eval_post_let; [exact (IHx _ _ _ SK R) | reflexivity | intros G1 g1 hp1 c _ S1 V1; cbn [fst snd]].
    apply eval_post_here; [exact S1 | reflexivity|].
    destruct c as [| | | |p q|]; try exact I.
    apply (proj1 (vgood_pair _ _ _ _ _) V1).
  - (* RCall *)
    apply eval_post_let; [exact (IHx _ _ _ SK R) | reflexivity | intros G1 g1 hp1 vf _ S1 V1; cbn [fst snd]].
    destruct (call_ok e G1 hp1 fuel g1 vf arg S1 V1) as [C1 [C2 C3]].
    destruct (call fuel hp1 g1 vf arg) as [g' r]. apply eval_post_here; assumption.
  - (* RSet *)
    apply eval_post_let; [exact (IHx _ _ _ SK R) | reflexivity | intros G1 g1 hp1 v _ S1 V1; cbn [fst snd]].
    destruct (Nat.ltb s (length g1)); [|apply eval_post_here; [exact S1 | reflexivity | exact I]].
    apply eval_post_here; [apply sok_set_glob; [exact S1 | exact V1] | apply length_set_nth|].
    apply (proj1 S1).
  - apply eval_post_here; [exact SK | reflexivity | exact I].
Qed.

Definition forms_post (e : eng) (L : nat) (s : st) : Prop := exists G', sok e G' (fst s) (snd s) /\ length (fst s) <= L.

Lemma run_forms_ok : forall e fuel L code G g hp, sok e G g hp -> length g <= L ->
  Forall (rform_ok e L) code -> forms_post e L (fst (run_forms fuel (g, hp) code)).
Proof.
  intros e fuel L code. induction code as [|f r IH]; intros G g hp SK Len F; cbn [run_forms].
  - exists G. split; assumption.
  - inversion F as [|? ? F1 F2]; subst.
    assert (RA : rexpr_ok e match f with RDefine _ a | RExpr a => a end) by (destruct f; apply F1).
    destruct (eval_ok e fuel _ G g hp SK RA) as [G1 [_ [S1 [V1 L1]]]].
    destruct f as [s a|a]; destruct (eval fuel (g, hp) a) as [[g1 hp1] [v|]]; cbn [fst snd] in S1, V1, L1 |- *.
    + (* RDefine: the slot written lies below L *)
      assert (J : forms_post e L (fst (run_forms fuel (define_idx s v g1, hp1) r))).
      { apply (IH G1); [apply sok_define_idx; [exact S1 | exact V1] | | exact F2].
        unfold define_idx. rewrite length_set_nth_pad, L1. apply Nat.max_lub; [exact Len | apply F1]. }
      destruct (run_forms fuel (define_idx s v g1, hp1) r) as [s2 vs]. exact J.
    + exists G1. split; [exact S1 | cbn [fst]; rewrite L1; exact Len].
    + assert (J : forms_post e L (fst (run_forms fuel (g1, hp1) r))) by (apply (IH G1); [exact S1 | rewrite L1; exact Len | exact F2]).
      destruct (run_forms fuel (g1, hp1) r) as [s2 vs]. exact J.
    + exists G1. split; [exact S1 | cbn [fst]; rewrite L1; exact Len].
Qed.

(* what [Bound] says about the symbol map and the ghost owners, apart from the stored values *)
Record MapOK (m : symmap) (ow : list (option bid)) : Prop := mkMapOK {
  m_owned : forall x s, lookup (smap m) x = Some s -> nth s ow None <> None;
  m_inj : forall x y s, lookup (smap m) x = Some s -> lookup (smap m) y = Some s -> x = y;
  m_not_shadowed : forall x s, lookup (smap m) x = Some s -> ~ In s (shadowed (fl m));
  m_shadowed_owned : forall s, In s (shadowed (fl m)) -> nth s ow None <> None;
  m_free_unowned : forall s, In s (free (fl m)) -> nth s ow None = None;
  m_free_nodup : NoDup (free (fl m));
  m_free_lt : forall s, In s (free (fl m)) -> s < length (values m);
  m_fresh_unowned : forall s, length (values m) <= s -> nth s ow None = None
}.

Lemma Bound_map : forall e, Bound e -> MapOK (sm e) (owner e).
Proof. intros e [_ Bmo Bmi Bns Bso Bfu Bfn Bfl Bfr _ _]. constructor; assumption. Qed.

(* the stored values are well bound because the state is good *)
Lemma Bound_intro : forall e G, MapOK (sm e) (owner e) -> length (globals e) <= length (values (sm e)) ->
  sok e G (globals e) (heap e) -> Bound e.
Proof.
  intros e G [Mo Mi Mns Mso Mfu Mfn Mfl Mfr] L SK. constructor; try assumption.
  - intros s. apply (proj1 SK s).
  - exists G. exact SK.
Qed.

Lemma sm_add_facts : forall m ow x m' idx, MapOK m ow -> sm_add m x = (m', idx) ->
  nth idx ow None = None /\ length (values m') = Nat.max (length (values m)) (S idx) /\
  (forall s, In s (free (fl m')) <-> In s (free (fl m)) /\ s <> idx) /\ NoDup (free (fl m')) /\
  smap m' = (x, idx) :: remove_name x (smap m) /\
  (forall s, In s (shadowed (fl m')) <-> In s (shadowed (fl m)) \/ lookup (smap m) x = Some s).
Proof.
  intros m ow x m' idx [_ _ _ _ Mfu Mfn Mfl Mfr]. unfold sm_add.
  assert (SH : forall s, In s (match lookup (smap m) x with Some prev => shadowed (fl m) ++ [prev] | None => shadowed (fl m) end)
                 <-> In s (shadowed (fl m)) \/ lookup (smap m) x = Some s).
  { intros s. destruct (lookup (smap m) x) as [p|]; [|split; [auto | intros [H|H]; [exact H | discriminate]]].
    rewrite in_app_iff. simpl. split; [intros [H|[H|[]]]; [left; exact H | right; subst; reflexivity] | intros [H|H]; [left; exact H | right; left; congruence]]. }
  destruct (free (fl m)) as [|s0 r0]; intros [= <- <-]; simpl.
  - rewrite Nat.eqb_refl. simpl. rewrite app_length. simpl.
    split; [apply Mfr; lia|]. split; [lia|]. split; [intros s; split; [intros [] | intros [[] _]]|].
    split; [constructor|]. split; [reflexivity | exact SH].
  - assert (LT : s0 < length (values m)) by (apply Mfl; left; reflexivity).
    assert (NE : Nat.eqb s0 (length (values m)) = false) by (apply Nat.eqb_neq; lia).
    rewrite NE. simpl. rewrite length_set_nth. inversion Mfn; subst.
    split; [apply Mfu; left; reflexivity|]. split; [lia|]. split.
    + intros s. split; [intros H; split; [right; exact H | intros ->; contradiction] | intros [[->|H] N]; [congruence | exact H]].
    + split; [assumption|]. split; [reflexivity | exact SH].
Qed.

Lemma sm_add_MapOK : forall m ow x b m' idx, MapOK m ow -> sm_add m x = (m', idx) ->
  MapOK m' (set_nth_pad None idx (Some b) ow) /\
  nth idx ow None = None /\ idx < length (values m') /\ length (values m) <= length (values m').
Proof.
  intros m ow x b m' idx M EA. destruct (sm_add_facts m ow x m' idx M EA) as [UN [LEN [FR [ND [MAP SH]]]]].
  destruct M as [Mo Mi Mns Mso Mfu Mfn Mfl Mfr].
  assert (OW : forall s, nth s (set_nth_pad None idx (Some b) ow) None = if Nat.eqb s idx then Some b else nth s ow None)
    by (intros s; apply nth_set_nth_pad).
  assert (LK : forall y, lookup (smap m') y = if Nat.eqb y x then Some idx else lookup (smap m) y)
    by (intros y; rewrite MAP; apply lookup_add).
  split; [|split; [exact UN | lia]]. constructor.
  - intros y s. rewrite LK, OW. destruct (Nat.eqb y x).
    + intros [= <-]. rewrite Nat.eqb_refl. discriminate.
    + intros H. destruct (Nat.eqb s idx); [discriminate | eapply Mo; eauto].
  - (* no other name maps to idx: its slot was unowned *)
    intros y z s. rewrite !LK. destruct (Nat.eqb y x) eqn:E1; destruct (Nat.eqb z x) eqn:E2; intros H1 H2.
    + apply Nat.eqb_eq in E1, E2. congruence.
    + injection H1 as <-. exfalso. eapply Mo; eauto.
    + injection H2 as <-. exfalso. eapply Mo; eauto.
    + eapply Mi; eauto.
  - intros y s. rewrite LK, SH. destruct (Nat.eqb y x) eqn:E; intros H [HI|HI].
    + injection H as <-. eapply Mso; eauto.
    + injection H as <-. eapply Mo; eauto.
    + eapply Mns; eauto.
    + apply Nat.eqb_neq in E. apply E. eapply Mi; eauto.
  - intros s. rewrite SH, OW. intros HI. destruct (Nat.eqb s idx); [discriminate|].
    destruct HI; [apply Mso | eapply Mo]; eauto.
  - intros s. rewrite FR, OW. intros [H N]. apply Nat.eqb_neq in N. rewrite N. apply Mfu, H.
  - exact ND.
  - intros s. rewrite FR. intros [H _]. apply Mfl in H. lia.
  - intros s H. rewrite OW. destruct (Nat.eqb s idx) eqn:E; [apply Nat.eqb_eq in E; lia | apply Mfr; lia].
Qed.

(* what building a unit may do to the state *)
Definition grows (e e' : eng) : Prop :=
  owner_le e e' /\ globals e' = globals e /\ heap e' = heap e /\ length (values (sm e)) <= length (values (sm e')).

Lemma grows_refl : forall e, grows e e.
Proof. intros e. split; [apply owner_le_refl | auto]. Qed.

Lemma grows_trans : forall a b c, grows a b -> grows b c -> grows a c.
Proof.
  intros a b c [O1 [G1 [H1 L1]]] [O2 [G2 [H2 L2]]].
  split; [eapply owner_le_trans; eauto|]. split; [congruence|]. split; [congruence | lia].
Qed.

Lemma add_define_Bound : forall e x e' idx, Bound e -> add_define e x = (e', idx) ->
  Bound e' /\ grows e e' /\ idx < length (values (sm e')) /\ owner_of e idx = None.
Proof.
  intros e x e' idx B E. unfold add_define in E. destruct (sm_add (sm e) x) as [m' i] eqn:ES. injection E as <- <-.
  destruct (sm_add_MapOK (sm e) (owner e) x (nextb e) m' i (Bound_map e B) ES) as [M [UN [LT LEN]]].
  set (e' := mkE _ _ _ _ _).
  assert (LE : owner_le e e').
  { intros s b H. unfold owner_of, e'; cbn [owner]. rewrite nth_set_nth_pad.
    destruct (Nat.eqb s i) eqn:E; [|exact H]. apply Nat.eqb_eq in E. subst s. unfold owner_of in H. congruence. }
  split; [|unfold grows; auto 6]. destruct (b_heap e B) as [G SK].
  apply Bound_intro with G; [exact M | pose proof (b_glob_len e B); simpl; lia | eapply sok_le; eauto].
Qed.

Definition slot_lt (L : nat) (o : option slot) : Prop := match o with Some s => s < L | None => True end.

Definition slot_unowned (e : eng) (o : option slot) : Prop :=
  match o with Some s => owner_of e s = None | None => True end.

Lemma first_pass_Bound : forall fs e e' slots, Bound e -> first_pass e fs = (e', slots) ->
  Bound e' /\ grows e e' /\ Forall (slot_lt (length (values (sm e')))) slots /\ Forall (slot_unowned e) slots.
Proof.
  induction fs as [|f r IH]; intros e e' slots B E; simpl in E.
  - injection E as <- <-. split; [exact B|]. split; [apply grows_refl|]. split; constructor.
  - destruct f as [x a|a].
    + destruct (add_define e x) as [e1 idx] eqn:E1. destruct (first_pass e1 r) as [e2 l] eqn:E2. injection E as <- <-.
      destruct (add_define_Bound e x e1 idx B E1) as [B1 [G1 [S1 U1]]].
      destruct (IH e1 e2 l B1 E2) as [B2 [G2 [S2 U2]]].
      split; [exact B2|]. split; [eapply grows_trans; eauto|]. split; constructor; try assumption.
      * destruct G2 as [_ [_ [_ L2]]]. simpl. lia.
      * (* a slot unowned after the add was unowned before it *)
        eapply Forall_impl; [|exact U2]. intros [s|] H; [|exact I]. simpl in *.
        destruct (owner_of e s) as [b|] eqn:E; [|reflexivity]. apply (proj1 G1) in E. congruence.
    + destruct (first_pass e r) as [e2 l] eqn:E2. injection E as <- <-.
      destruct (IH e e2 l B E2) as [B2 [G2 [S2 U2]]].
      split; [exact B2|]. split; [exact G2|]. split; constructor; (exact I || assumption).
Qed.

Lemma both_Some : forall {A B C} (f : A -> B -> C) o1 o2 r,
  match o1, o2 with Some a, Some b => Some (f a b) | _, _ => None end = Some r ->
  exists a b, o1 = Some a /\ o2 = Some b /\ r = f a b.
Proof. intros A B C f [a|] [b|] r H; try discriminate. injection H as <-. exists a, b. auto. Qed.

(* what a recycling round guarantees to code built before it: every slot that is not shadowed keeps its owner *)
Definition keeps (e e' : eng) : Prop := forall s, ~ In s (shadowed (fl (sm e))) -> owner_of e' s = owner_of e s.

Section Resolve.
Variables e e' : eng.
Hypothesis B : Bound e.
Hypothesis KEEP : keeps e e'.

Lemma resolve_instr_ok : forall si i, resolve_instr e si = Some i -> instr_run_ok e' i.
Proof.
  intros si i H. destruct si as [op x imm|op p imm]; simpl in H.
  - unfold sm_get in H. destruct (lookup (smap (sm e)) x) as [s|] eqn:E; [|discriminate].
    inversion H; subst. intros _. simpl. rewrite (KEEP s (b_map_not_shadowed e B x s E)).
    pose proof (b_map_owned e B x s E) as O. destruct (owner_of e s) as [b|]; [|congruence].
    exists b. split; reflexivity.
  - destruct (refs_global op) eqn:R; [discriminate|]. inversion H; subst.
    intros R2. simpl in R2. congruence.
Qed.

Lemma resolve_body_ok : forall b l, resolve_body e b = Some l -> Forall (instr_run_ok e') l.
Proof.
  induction b as [|si r IH]; intros l H; simpl in H.
  - inversion H. constructor.
  - apply both_Some in H as [i [l' [E1 [E2 ->]]]].
    constructor; [eapply resolve_instr_ok; eauto | apply IH; auto].
Qed.

Lemma resolve_expr_ok : forall defs passed x r, resolve_expr e defs passed x = Some r -> rexpr_ok e' r.
Proof.
  intros defs passed x. induction x; intros r H; simpl in H;
    (* one subexpression under a constructor *)
    try (apply option_map_Some in H as [a [E ->]]; exact (IHx a E)).
  - inversion H; exact I.
  - inversion H; exact I.
  - destruct (resolve0 e defs passed x); inversion H; exact I.
  - apply both_Some in H as [b [c [E1 [E2 ->]]]]. split; [eapply resolve_body_ok; eauto | exact (IHx c E2)].
  - apply both_Some in H as [a [b [E1 [E2 ->]]]]. split; [exact (IHx1 a E1) | exact (IHx2 b E2)].
  - apply both_Some in H as [a [b [E1 [E2 ->]]]]. split; [exact (IHx1 a E1) | exact (IHx2 b E2)].
  - apply both_Some in H as [s [a [_ [E2 ->]]]]. exact (IHx a E2).
  - inversion H; exact I.
Qed.

Lemma second_pass_ok : forall defs L fs passed slots code, Forall (slot_lt L) slots ->
  second_pass e defs passed fs slots = Some code -> Forall (rform_ok e' L) code.
Proof.
  intros defs L fs. induction fs as [|f r IH]; intros passed slots code S H; simpl in H.
  - inversion H. constructor.
  - destruct f as [x a|a]; destruct slots as [|o sl]; try discriminate; inversion S as [|? ? So Ssl]; subst.
    + destruct o as [s|]; [|discriminate]. apply both_Some in H as [a' [l [E1 [E2 ->]]]].
      constructor; [split; [exact So | eapply resolve_expr_ok; eauto] | eapply IH; eauto].
    + apply both_Some in H as [a' [l [E1 [E2 ->]]]].
      constructor; [eapply resolve_expr_ok; eauto | eapply IH; eauto].
Qed.
End Resolve.

Lemma build_Bound : forall c e fs e1 r, Bound e -> c_snapshot c = true -> build c e fs = (e1, r) ->
  Bound e1 /\ grows e e1 /\
  match r with
  | Some code => forall e', keeps e1 e' -> Forall (rform_ok e' (length (values (sm e1)))) code
  | None => e1 = e
  end.
Proof.
  intros c e fs e1 r B SN E. unfold build in E.
  destruct (first_pass e fs) as [e0 slots] eqn:EF.
  destruct (first_pass_Bound fs e e0 slots B EF) as [B1 [G1 [S1 _]]].
  destruct (second_pass e0 (defined_names fs) [] fs slots) as [code|] eqn:E2.
  - injection E as <- <-. split; [exact B1|]. split; [exact G1|]. intros e' K. eapply second_pass_ok; eauto.
  - rewrite SN in E. injection E as <- <-. split; [exact B|]. split; [apply grows_refl | reflexivity].
Qed.

(* the scan removed every payload of [v] that it matches -- [P] holds of them -- and visited the cells [v] mentions *)
Definition covered (c : config) (hp : list val) (P : slot -> Prop) (V : list nat) (v : val) : Prop :=
  (forall t, In t (refs_of c v) -> P t) /\ cells_ok hp V v.

(* the cells one level of the walk marks *)
Definition fresh_cells (hp : list val) (visited : list nat) (work : list val) : list nat :=
  nodup Nat.eq_dec (filter (fun a => Nat.ltb a (length hp) && negb (mem_slot a visited)) (flat_map cells_in work)).

Lemma fresh_cells_In : forall hp visited work a,
  In a (fresh_cells hp visited work) <->
  (exists v, In v work /\ In a (cells_in v)) /\ a < length hp /\ ~ In a visited.
Proof.
  intros hp visited work a. unfold fresh_cells.
  rewrite nodup_In, filter_In, in_flat_map, andb_true_iff, Nat.ltb_lt, negb_true_iff, mem_slot_false. tauto.
Qed.

Lemma heap_walk_S : forall c hp f visited work,
  heap_walk c hp (S f) visited work =
  match fresh_cells hp visited work with
  | [] => (flat_map (refs_of c) work, visited)
  | _ => let '(r, vis) := heap_walk c hp f (fresh_cells hp visited work ++ visited)
                                    (map (fun a => nth a hp VVoid) (fresh_cells hp visited work)) in
         (flat_map (refs_of c) work ++ r, vis)
  end.
Proof. reflexivity. Qed.

(* [P] and [Vf] are handed down by the caller: the walk only adds to R and V and [rounds] is tail recursive, so facts
   about the final payloads and visited set hold at every level as they stand.  [U] counts the levels: it holds every
   cell not yet visited, and each level visits at least one. *)
Lemma heap_walk_spec : forall c hp (P : slot -> Prop) Vf fuel visited work U,
  (forall a, a < length hp -> ~ In a visited -> In a U) -> length U < fuel ->
  let R := fst (heap_walk c hp fuel visited work) in
  let V := snd (heap_walk c hp fuel visited work) in
  (forall t, In t R -> P t) -> incl V Vf ->
  incl visited V /\
  (forall v, In v work -> covered c hp P Vf v) /\
  (forall a, In a V -> ~ In a visited -> covered c hp P Vf (nth a hp VVoid)).
Proof.
  intros c hp P Vf. induction fuel as [|f IH]; intros visited work U UN FU; [inversion FU|].
  rewrite heap_walk_S. pose proof (fresh_cells_In hp visited work) as FR.
  (* what the work list mentions is visited already or fresh *)
  assert (WK : forall v, In v work -> incl (fresh_cells hp visited work ++ visited) Vf -> cells_ok hp Vf v).
  { intros v Hv I1 a Ha Hl. apply I1, in_or_app. destruct (in_dec Nat.eq_dec a visited) as [K|K]; [right; exact K|].
    left. apply FR. split; [exists v; split; assumption | split; assumption]. }
  destruct (fresh_cells hp visited work) as [|a0 fr] eqn:EF.
  - simpl. intros PR IV. split; [apply incl_refl|]. split.
    + intros v Hv. split; [|apply WK; assumption].
      intros t Ht. apply PR, in_flat_map. exists v. split; assumption.
    + intros a Ha Hn. contradiction.
  - set (fresh := a0 :: fr) in *.
    destruct (proj1 (FR a0) (or_introl eq_refl)) as [_ [F1 F2]].
    specialize (IH (fresh ++ visited) (map (fun a => nth a hp VVoid) fresh) (remove Nat.eq_dec a0 U)).
    destruct (heap_walk c hp f (fresh ++ visited) (map (fun a => nth a hp VVoid) fresh)) as [r vis]. cbn [fst snd] in IH |- *.
    intros PR IV. destruct IH as [I1 [I4 I5]].
    + intros a Hl Hn. apply in_in_remove; [intros -> | apply UN; [exact Hl | intros K]]; apply Hn, in_or_app; [left; left; reflexivity | right; exact K].
    + pose proof (remove_length_lt Nat.eq_dec U a0 (UN a0 F1 F2)). lia.
    + intros t Ht. apply PR, in_or_app. right. exact Ht.
    + exact IV.
    + split; [intros x Hx; apply I1, in_or_app; right; exact Hx|]. split.
      * intros v Hv. split; [|apply WK; [exact Hv | eapply incl_tran; eauto]].
        intros t Ht. apply PR, in_or_app. left. apply in_flat_map. exists v. split; assumption.
      * intros a Ha Hn. destruct (in_dec Nat.eq_dec a fresh) as [K|K].
        -- apply I4. apply (in_map (fun a => nth a hp VVoid)), K.
        -- apply I5; [exact Ha|]. intros Q. apply in_app_or in Q. tauto.
Qed.

(* Whatever the rounds visit or keep mentions no slot that is left over. *)
Lemma rounds_spec : forall c g hp, c_follow c = true ->
  forall fuel visited work cands, length cands < fuel ->
  let left := rounds c g hp fuel visited work cands in
  exists V, incl visited V /\
    (forall s, In s left -> In s cands) /\
    (forall v, In v work -> covered c hp (fun t => ~ In t left) V v) /\
    (forall s, In s cands -> ~ In s left -> covered c hp (fun t => ~ In t left) V (nth s g VVoid)) /\
    (forall a, In a V -> ~ In a visited -> covered c hp (fun t => ~ In t left) V (nth a hp VVoid)).
Proof.
  intros c g hp FOL. induction fuel as [|f IH]; intros visited work cands LT; [exfalso; inversion LT|].
  cbn [rounds].
  pose proof (fun P Vf => heap_walk_spec c hp P Vf (S (length hp)) visited work (seq 0 (length hp))
                ltac:(intros a Hl _; apply in_seq; lia) ltac:(rewrite seq_length; lia)) as W.
  destruct (heap_walk c hp (S (length hp)) visited work) as [refs vis]. cbn [fst snd] in W.
  set (rest := filter (fun s => negb (mem_slot s refs)) cands).
  assert (REST : forall s, In s rest <-> In s cands /\ ~ In s refs).
  { intros s. unfold rest. rewrite filter_In, negb_true_iff, mem_slot_false. tauto. }
  destruct (filter (fun s => mem_slot s refs) cands) as [|k0 kr] eqn:EK.
  - (* no candidate is referenced: all are left, and [refs] holds none of them *)
    destruct (W (fun t => ~ In t cands) vis) as [W1 [W4 W5]]; [|apply incl_refl|].
    { intros t Ht HIn. assert (K : In t []) by (rewrite <- EK; apply filter_In; split; [exact HIn | apply mem_slot_In, Ht]). exact K. }
    exists vis. split; [exact W1|]. split; [auto|]. split; [exact W4|]. split; [|exact W5].
    intros s Hs Hn. contradiction.
  - rewrite FOL. set (kept := k0 :: kr) in *.
    assert (LR : length rest < f).
    { pose proof (filter_length_split (fun s => mem_slot s refs) cands) as P.
      rewrite EK in P. fold rest in P. simpl in P. lia. }
    destruct (IH vis (map (fun s => nth s g VVoid) kept) rest LR) as [V [R0 [R1 [R2 [R3 R4]]]]].
    set (left := rounds c g hp f vis (map (fun s => nth s g VVoid) kept) rest) in *.
    destruct (W (fun t => ~ In t left) V) as [W1 [W4 W5]]; [|exact R0|].
    { intros t Ht HL. apply R1 in HL. apply REST in HL. tauto. }
    exists V. split; [eapply incl_tran; eauto|]. split; [|split; [exact W4|split]].
    + intros s Hs. apply R1 in Hs. apply REST in Hs. tauto.
    + intros s Hs Hn. destruct (mem_slot s refs) eqn:M.
      * apply R2. apply (in_map (fun s => nth s g VVoid)). rewrite <- EK. apply filter_In. split; assumption.
      * apply R3; [|exact Hn]. apply REST. split; [exact Hs | apply mem_slot_false; exact M].
    + intros a Ha Hn. destruct (in_dec Nat.eq_dec a vis) as [K|K]; [apply W5 | apply R4]; assumption.
Qed.

Lemma rounds_NoDup : forall c g hp fuel visited work cands, NoDup cands -> NoDup (rounds c g hp fuel visited work cands).
Proof.
  intros c g hp. induction fuel as [|f IH]; intros visited work cands ND; cbn [rounds]; [exact ND|].
  destruct (heap_walk c hp (S (length hp)) visited work) as [refs vis].
  destruct (filter (fun s => mem_slot s refs) cands) eqn:EK; [exact ND|].
  destruct (c_follow c); [apply IH|]; apply NoDup_filter; exact ND.
Qed.

Lemma index_filter_In : forall p g i s, s < length g -> p (i + s) = true ->
  In (nth s g VVoid) (index_filter p i g).
Proof.
  intros p g. induction g as [|v r IH]; intros i s L P; simpl in *; [lia|].
  destruct s as [|s].
  - rewrite Nat.add_0_r in P. rewrite P. left. reflexivity.
  - apply in_or_app. right. apply IH; [lia|]. replace (S i + s) with (i + S s) by lia. exact P.
Qed.

Lemma void_slots_nth : forall dead g i s,
  nth s (void_slots dead i g) VVoid = if mem_slot (i + s) dead then VVoid else nth s g VVoid.
Proof.
  intros dead g. induction g as [|v r IH]; intros i s; simpl.
  - destruct s; destruct (mem_slot _ dead); reflexivity.
  - destruct s as [|s].
    + rewrite Nat.add_0_r. reflexivity.
    + rewrite IH. replace (S i + s) with (i + S s) by lia. reflexivity.
Qed.

Lemma void_slots_length : forall dead g i, length (void_slots dead i g) = length g.
Proof. intros dead g. induction g; intros i; simpl; auto. Qed.

Lemma clear_owner_nth : forall dead o i s,
  nth s (clear_owner dead i o) None = if mem_slot (i + s) dead then None else nth s o None.
Proof.
  intros dead o. induction o as [|v r IH]; intros i s; simpl.
  - destruct s; destruct (mem_slot _ dead); reflexivity.
  - destruct s as [|s].
    + rewrite Nat.add_0_r. reflexivity.
    + rewrite IH. replace (S i + s) with (i + S s) by lia. reflexivity.
Qed.

Lemma incr_gen_shadowed : forall f, shadowed (increment_generation f) = shadowed f.
Proof. intros f. unfold increment_generation. destruct (Nat.eqb (epoch f) epoch_reset_at); reflexivity. Qed.

Lemma incr_gen_free : forall f, free (increment_generation f) = free f.
Proof. intros f. unfold increment_generation. destruct (Nat.eqb (epoch f) epoch_reset_at); reflexivity. Qed.

(* freeing any shadowed slots, each once, keeps the map well formed *)
Lemma free_dead_MapOK : forall m ow dead, MapOK m ow -> NoDup dead ->
  (forall s, In s dead -> In s (shadowed (fl m)) /\ s < length (values m)) ->
  MapOK (mkSM (values m) (smap m)
              (increment_generation (mkFL [] (rev dead ++ free (fl m)) (threshold (fl m)) (epoch (fl m)))))
        (clear_owner dead 0 ow).
Proof.
  intros m ow dead [Mo Mi Mns Mso Mfu Mfn Mfl Mfr] ND DEAD.
  assert (OW : forall s, nth s (clear_owner dead 0 ow) None = if mem_slot s dead then None else nth s ow None)
    by (intros s; apply clear_owner_nth).
  constructor; cbn [values smap fl]; rewrite ?incr_gen_shadowed, ?incr_gen_free; cbn [shadowed free].
  - intros x s H. rewrite OW. destruct (mem_slot s dead) eqn:MD; [|eapply Mo; eauto].
    apply mem_slot_In, DEAD in MD. exfalso. eapply Mns; [exact H | apply MD].
  - exact Mi.
  - intros x s _ [].
  - intros s [].
  - intros s H. rewrite OW. destruct (mem_slot s dead) eqn:MD; [reflexivity|].
    apply Mfu. apply in_app_or in H as [H|H]; [|exact H]. apply in_rev, mem_slot_In in H. congruence.
  - apply NoDup_app_intro; [apply NoDup_rev, ND | exact Mfn|].
    intros s H1 H2. apply in_rev, DEAD in H1. apply (Mso s (proj1 H1)), Mfu, H2.
  - intros s H. apply in_app_or in H as [H|H]; [apply in_rev, DEAD in H; tauto | apply Mfl, H].
  - intros s H. rewrite OW. destruct (mem_slot s dead); [reflexivity | apply Mfr, H].
Qed.

Lemma recycle_Bound : forall c e, config_sound c -> Bound e ->
  Bound (recycle c e) /\ keeps e (recycle c e) /\ values (sm (recycle c e)) = values (sm e).
Proof.
  intros c e [COVER [HDR [FOL [SNAP CLR]]]] B. destruct (b_heap e B) as [G [SK1 SK2]].
  unfold recycle. rewrite CLR.
  set (f := fl (sm e)).
  set (cands := nodup Nat.eq_dec (shadowed f)).
  set (roots := index_filter (fun i => negb (mem_slot i cands)) 0 (globals e)).
  set (left := rounds c (globals e) (heap e) (S (length cands)) [] roots cands).
  set (dead := filter (fun s => Nat.ltb s (length (globals e))) left).
  destruct (rounds_spec c (globals e) (heap e) FOL (S (length cands)) [] roots cands (Nat.lt_succ_diag_r _))
    as [V [_ [R1 [R2 [R3 R4]]]]].
  fold left in R1, R2, R3, R4.
  assert (DEAD : forall s, In s dead -> In s left /\ s < length (globals e)).
  { intros s H. apply filter_In in H. rewrite Nat.ltb_lt in H. exact H. }
  assert (DEAD_SH : forall s, In s dead -> In s (shadowed f)).
  { intros s H. apply (nodup_In Nat.eq_dec), R1, DEAD, H. }
  assert (ND_DEAD : NoDup dead) by apply NoDup_filter, rounds_NoDup, NoDup_nodup.
  set (e' := mkE _ _ _ _ _).
  assert (OWK : forall s, ~ In s dead -> owner_of e' s = owner_of e s).
  { intros s H. unfold owner_of, e'; cbn [owner]. rewrite clear_owner_nth. apply mem_slot_false in H. simpl. rewrite H. reflexivity. }
  (* a value the rounds covered survives the freeing of the left-over slots; of the good cells, those visited stay good *)
  set (G' := filter (fun a => mem_slot a G) V).
  assert (KEEP : forall v, vgood e (heap e) G v -> covered c (heap e) (fun t => ~ In t left) V v -> vgood e' (heap e) G' v).
  { intros v [V1 V2] [C1 C2]. split.
    - apply (val_ok_keep c COVER HDR e e' (fun s => ~ In s dead) (fun s b H O => eq_trans (OWK s H) O) v V1). apply Forall_forall. intros t Ht HD. apply (C1 t Ht), DEAD, HD.
    - intros a Ha Hl. apply filter_In. split; [apply C2 | apply mem_slot_In, V2]; assumption. }
  split; [|split; [|reflexivity]].
  - apply Bound_intro with G'.
    + apply (free_dead_MapOK (sm e) (owner e) dead (Bound_map e B) ND_DEAD).
      intros s H. split; [apply DEAD_SH, H | pose proof (b_glob_len e B); apply DEAD in H; lia].
    + simpl. rewrite void_slots_length. exact (b_glob_len e B).
    + split.
      * (* a slot that stays is a root or a candidate the rounds found referenced *)
        intros s. cbn [globals e']. rewrite void_slots_nth. simpl.
        destruct (mem_slot s dead) eqn:MD; [apply vgood_void|]. apply mem_slot_false in MD.
        destruct (lt_dec s (length (globals e))) as [LT|LT]; [|rewrite nth_overflow; [apply vgood_void | lia]].
        apply KEEP; [apply SK1|]. destruct (mem_slot s cands) eqn:MC.
        -- apply R3; [apply mem_slot_In, MC|]. intros HL. apply MD, filter_In. split; [exact HL | apply Nat.ltb_lt, LT].
        -- apply R2, (index_filter_In _ (globals e) 0 s LT). simpl. rewrite MC. reflexivity.
      * intros a Ha. apply filter_In in Ha as [Ha HG]. apply mem_slot_In in HG.
        apply KEEP; [apply SK2, HG | apply R4; [exact Ha | intros []]].
  - intros s H. apply OWK. intros HD. apply H, DEAD_SH, HD.
Qed.

Lemma Bound_new : Bound eng_new.
Proof.
  apply Bound_intro with (G := []); [| simpl; lia | split; [intros [|s]; apply vgood_void | intros a []]].
  constructor; simpl.
  - discriminate.
  - discriminate.
  - discriminate.
  - intros s [].
  - intros s [].
  - constructor.
  - intros s [].
  - intros [|s] _; reflexivity.
Qed.

Lemma maybe_recycle_Bound : forall c e, config_sound c -> Bound e ->
  Bound (maybe_recycle c e) /\ keeps e (maybe_recycle c e) /\ values (sm (maybe_recycle c e)) = values (sm e).
Proof.
  intros c e CS B. unfold maybe_recycle.
  destruct (should_collect (fl (sm e))); [exact (recycle_Bound c e CS B)|].
  split; [exact B|]. split; [intros s _|]; reflexivity.
Qed.

Theorem Bound_run_unit : forall c fuel e u, config_sound c -> Bound e -> Bound (fst (run_unit c fuel e u)).
Proof.
  intros c fuel e u CS B. unfold run_unit.
  destruct (u_expand_fails u); [exact B|].
  pose proof CS as [COVER [HDR [FOL [SNAP CLR]]]].
  destruct (build c e (u_forms u)) as [e1 r] eqn:EB.
  destruct (build_Bound c e _ e1 r B SNAP EB) as [B1 [_ CODE]]. destruct r as [code|]; [|exact B1].
  destruct (maybe_recycle_Bound c e1 CS B1) as [B2 [K2 V2]].
  set (e2 := maybe_recycle c e1) in *.
  destruct (b_heap e2 B2) as [G SK].
  destruct (run_forms_ok e2 fuel (length (values (sm e1))) code G (globals e2) (heap e2) SK) as [G3 [S3 L3]].
  - rewrite <- V2. apply (b_glob_len e2 B2).
  - exact (CODE e2 K2).
  - destruct (run_forms fuel (globals e2, heap e2) code) as [[g hp] r]. cbn [fst snd] in S3, L3 |- *.
    (* only the values changed; the owners are those of e2 *)
    apply Bound_intro with G3; [exact (Bound_map e2 B2) | simpl; rewrite V2; exact L3|].
    eapply sok_le; [|exact S3]. intros s b H. exact H.
Qed.

Theorem Bound_history : forall c fuel h e, config_sound c -> Bound e -> Bound (fst (run_history c fuel e h)).
Proof.
  intros c fuel h. induction h as [|u r IH]; intros e CS B; simpl; [exact B|].
  pose proof (Bound_run_unit c fuel e u CS B) as B1.
  destruct (run_unit c fuel e u) as [e1 o]. simpl in *.
  pose proof (IH e1 CS B1) as B2.
  destruct (run_history c fuel e1 r) as [e2 os]. simpl in *. exact B2.
Qed.

Definition cfg_truncate : config := mkCfg scanned_ops true true false true.

Definition st_x5 : eng := fst (run_history cfg_truncate 10 eng_new [mkU false [FDefine 0 (EConst 5)]]).

Definition instr_okb (e : eng) (h : option opcode) (idx : nat) (i : instr) : bool :=
  if refs_global (true_op h idx i)
  then match i_ghost i, owner_of e (i_pay i) with
       | Some b, Some b' => Nat.eqb b b'
       | _, _ => false
       end
  else true.

Fixpoint body_okb (e : eng) (h : option opcode) (idx : nat) (b : list instr) : bool :=
  match b with
  | [] => true
  | i :: r => instr_okb e h idx i && body_okb e h (S idx) r
  end.

Fixpoint val_okb (e : eng) (v : val) : bool :=
  match v with
  | VClo h body caps => body_okb e h 0 body && val_okb e caps
  | VPair a b => val_okb e a && val_okb e b
  | _ => true
  end.

Lemma Bound_cell : forall e s a, Bound e -> In a (cells_in (nth s (globals e) VVoid)) -> a < length (heap e) ->
  val_ok e (nth a (heap e) VVoid).
Proof.
  intros e s a B Ha Hl. destruct (b_heap e B) as [G [S1 S2]].
  destruct (S1 s) as [_ C]. apply (proj1 (S2 a (C a Ha Hl))).
Qed.

Lemma instr_okb_sound : forall e h idx i, instr_ok e h idx i -> instr_okb e h idx i = true.
Proof.
  intros e h idx i H. unfold instr_okb. destruct (refs_global (true_op h idx i)) eqn:R; [|reflexivity].
  destruct (H R) as [b [G O]]. rewrite G, O. apply Nat.eqb_refl.
Qed.

Lemma body_okb_sound : forall e h b idx, body_ok e h idx b -> body_okb e h idx b = true.
Proof.
  intros e h b. induction b as [|i r IH]; intros idx H; simpl in *; [reflexivity|].
  destruct H as [H1 H2]. rewrite (instr_okb_sound _ _ _ _ H1), (IH _ H2). reflexivity.
Qed.

Lemma val_okb_sound : forall e v, val_ok e v -> val_okb e v = true.
Proof.
  intros e v. induction v; simpl; intros H; auto.
  - destruct H as [H1 H2]. rewrite (body_okb_sound _ _ _ _ H1), (IHv H2). reflexivity.
  - destruct H as [H1 H2]. rewrite (IHv1 H1), (IHv2 H2). reflexivity.
Qed.

(* The refutations (Properties_C06.v) are closed by evaluation, which coqchk replays with the kernel's lazy machine:
   that shares the final state only where it is bound to one variable, so each test is a single boolean function of
   [e]. *)
Definition slot_badb (e : eng) (s : slot) : bool := negb (val_okb e (nth s (globals e) VVoid)).

Definition cell_badb (e : eng) (s : slot) (a : nat) : bool :=
  mem_slot a (cells_in (nth s (globals e) VVoid)) && Nat.ltb a (length (heap e)) &&
  negb (val_okb e (nth a (heap e) VVoid)).

Lemma slot_bad_not_Bound : forall e s, slot_badb e s = true -> ~ Bound e.
Proof.
  intros e s H B. unfold slot_badb in H. rewrite (val_okb_sound e _ (b_vals e B s)) in H. discriminate.
Qed.

Lemma cell_bad_not_Bound : forall e s a, cell_badb e s a = true -> ~ Bound e.
Proof.
  intros e s a H B. unfold cell_badb in H. rewrite !andb_true_iff, mem_slot_In, Nat.ltb_lt in H.
  destruct H as [[Ha Hl] H]. rewrite (val_okb_sound e _ (Bound_cell e s a B Ha Hl)) in H. discriminate.
Qed.

(* On a hundred candidates [recycle] makes some ten thousand comparisons of unary numbers ([nodup], and the membership
   test of every root index), which is what evaluating a witness history would spend nearly all its time on.
   [recycle_bits] keeps the candidate set as a bit vector besides the list and computes the same state. *)
Definition recycle_from (c : config) (e : eng) (cands : list slot) (roots : list val) : eng :=
  let f := fl (sm e) in
  let visited0 := if c_clear_marks c then [] else seq 0 (length (heap e)) in
  let left := rounds c (globals e) (heap e) (S (length cands)) visited0 roots cands in
  let dead := filter (fun s => Nat.ltb s (length (globals e))) left in
  mkE (mkSM (values (sm e)) (smap (sm e))
            (increment_generation (mkFL [] (rev dead ++ free f) (threshold f) (epoch f))))
      (void_slots dead 0 (globals e)) (clear_owner dead 0 (owner e)) (nextb e) (heap e).

(* [nodup] of the list, and the bit vector of its members *)
Fixpoint cand_bits (l : list slot) : list slot * list bool :=
  match l with
  | [] => ([], [])
  | x :: r => let '(d, b) := cand_bits r in
              if nth x b false then (d, b) else (x :: d, set_nth_pad false x true b)
  end.

Definition recycle_bits (c : config) (e : eng) : eng :=
  let '(cands, b) := cand_bits (shadowed (fl (sm e))) in
  recycle_from c e cands (index_filter (fun i => negb (nth i b false)) 0 (globals e)).

Lemma cand_bits_spec : forall l,
  fst (cand_bits l) = nodup Nat.eq_dec l /\
  forall i, nth i (snd (cand_bits l)) false = mem_slot i (fst (cand_bits l)).
Proof.
  induction l as [|x r [IH1 IH2]]; simpl; [split; [reflexivity | intros [|i]; reflexivity]|].
  destruct (cand_bits r) as [d b]; simpl in *. subst d. rewrite IH2.
  destruct (in_dec Nat.eq_dec x r) as [K|K].
  - rewrite (proj2 (mem_slot_In x _) (proj2 (nodup_In Nat.eq_dec r x) K)). split; [reflexivity | exact IH2].
  - rewrite (proj2 (mem_slot_false x _) (fun H => K (proj1 (nodup_In Nat.eq_dec r x) H))). simpl.
    split; [reflexivity|]. intros i. rewrite nth_set_nth_pad, IH2. reflexivity.
Qed.

Lemma index_filter_ext : forall p q g i, (forall k, p k = q k) -> index_filter p i g = index_filter q i g.
Proof. intros p q g. induction g as [|v r IH]; intros i H; simpl; [reflexivity|]. rewrite H, (IH _ H). reflexivity. Qed.

Lemma recycle_bits_eq : forall c e, recycle_bits c e = recycle c e.
Proof.
  intros c e. unfold recycle_bits. destruct (cand_bits_spec (shadowed (fl (sm e)))) as [H1 H2].
  destruct (cand_bits (shadowed (fl (sm e)))) as [d b]. simpl in H1, H2.
  rewrite (index_filter_ext _ (fun i => negb (mem_slot i d))) by (intros k; rewrite H2; reflexivity).
  subst d. reflexivity.
Qed.

(* [run_unit] and [run_history] with that round *)
Definition run_unit_bits (c : config) (fuel : nat) (e : eng) (u : unit_) : eng * option (list val) :=
  if u_expand_fails u then (e, None) else
  match build c e (u_forms u) with
  | (e1, None) => (e1, None)
  | (e1, Some code) =>
      let e2 := if should_collect (fl (sm e1)) then recycle_bits c e1 else e1 in
      let '(s, r) := run_forms fuel (globals e2, heap e2) code in
      (mkE (sm e2) (fst s) (owner e2) (nextb e2) (snd s), r)
  end.

Fixpoint run_history_bits (c : config) (fuel : nat) (e : eng) (h : list unit_) : eng * list (option (list val)) :=
  match h with
  | [] => (e, [])
  | u :: r => let '(e1, o) := run_unit_bits c fuel e u in
              let '(e2, os) := run_history_bits c fuel e1 r in (e2, o :: os)
  end.

Lemma run_history_bits_eq : forall c fuel h e, run_history_bits c fuel e h = run_history c fuel e h.
Proof.
  intros c fuel h. induction h as [|u r IH]; intros e; simpl; [reflexivity|].
  replace (run_unit_bits c fuel e u) with (run_unit c fuel e u).
  - destruct (run_unit c fuel e u) as [e1 o]. rewrite IH. reflexivity.
  - unfold run_unit, run_unit_bits, maybe_recycle. destruct (u_expand_fails u); [reflexivity|].
    destruct (build c e (u_forms u)) as [e1 [code|]]; [|reflexivity]. rewrite recycle_bits_eq. reflexivity.
Qed.

Definition U1 (fs : list form) : unit_ := mkU false fs.
Definition many (f : nat -> form) (n : nat) : list unit_ := map (fun i => U1 [f i]) (seq 0 n).

(* scan without OpCode::SET (DESIGN F2): x=0, setter=1, junk=2 *)
Definition cfg_no_set : config :=
  mkCfg (filter (fun o => negb (op_eqb o Op_SET)) scanned_ops) true true true true.
Definition h_no_set : list unit_ :=
  [U1 [FDefine 0 (EConst 1); FDefine 1 (ELam false false [SL Op_READLOCAL 0 None; SG Op_SET 0 None] (EConst 0))];
   U1 [FDefine 0 (EConst 2)]] ++ many (fun i => FDefine 2 (EConst i)) 120.

(* scan that ignores the JIT header (DESIGN F3): f=0, g=1, junk=2 *)
Definition cfg_no_header : config := mkCfg scanned_ops false true true true.
Definition h_no_header : list unit_ :=
  [U1 [FDefine 0 (ELam true false [] (EConst 0))];
   U1 [FDefine 1 (ELam true false [SG Op_CALLGLOBALTAIL 0 None] (EConst 0))];
   U1 [FDefine 0 (ELam true false [] (EConst 0))]] ++ many (fun i => FDefine 2 (EConst i)) 120.

(* scan that does not visit the value of a shadowed slot it found referenced: h=0, f=1, g=2, junk=3 *)
Definition cfg_no_follow : config := mkCfg scanned_ops true false true true.
Definition h_no_follow : list unit_ :=
  [U1 [FDefine 0 (ELam false false [SL Op_PUSHCONST 1 None] (EConst 0))];
   U1 [FDefine 1 (ELam false false [SL Op_PUSHCONST 1 None; SG Op_CALLGLOBAL 0 None] (EConst 0))];
   U1 [FDefine 2 (ELam false false [SL Op_PUSHCONST 1 None; SG Op_CALLGLOBAL 1 None] (EConst 0))];
   U1 [FDefine 0 (EConst 2)]; U1 [FDefine 1 (EConst 3)]] ++ many (fun i => FDefine 3 (EConst i)) 120.

(* a walk that starts from stale mark bits: h=0, g=1 (calls h), holder=2 (a box holding g), junk=3.
   g and h are redefined, so the old g lives only in the box and the old h is referenced only by the old g. *)
Definition cfg_stale_marks : config := mkCfg scanned_ops true true true false.
Definition h_stale_marks : list unit_ :=
  [U1 [FDefine 0 (ELam false false [SL Op_PUSHCONST 1 None] (EConst 0))];
   U1 [FDefine 1 (ELam false false [SL Op_PUSHCONST 1 None; SG Op_CALLGLOBAL 0 None] (EConst 0))];
   U1 [FDefine 2 (EBox false (EGlobal 1))];
   U1 [FDefine 1 (EConst 2)]; U1 [FDefine 0 (EConst 3)]] ++ many (fun i => FDefine 3 (EConst i)) 120.

