(* C04 -- the marker's bounded work queue (local queue of fixed capacity + shared overflow queue):
   it flags exactly what the unbounded work list of Model_C04.mark_loop flags, provided every path
   of push_back enqueues the pushed value and the drain loop empties both queues. *)
From Coq Require Import String List Arith Lia Bool ZArith NArith.
From SV Require Import gen.Gen_C04 c04.Model_C04 c04.Proofs_C04.
Import ListNotations.

Definition app2 (ls : list href * list href) : list href := fst ls ++ snd ls.

Lemma pq_push_In : forall q ls x y, pq_spill q = true -> pq_local q = true ->
  In y (app2 (pq_push q ls x)) <-> In y (x :: app2 ls).
Proof.
  intros q [l s] x y Hs Hl. unfold pq_push, app2. cbn [fst snd]. rewrite Hs, Hl.
  destruct (Nat.leb (pq_cap q) (length l)); cbn [fst snd]; [|reflexivity].
  split; intros H.
  - apply in_elt_inv in H as [->|H]; [left; reflexivity | right; exact H].
  - destruct H as [<-|H]; [apply in_elt|]. apply in_app_or in H as [H|H]; apply in_or_app; [left | right; right]; exact H.
Qed.

Lemma pq_push_all_In : forall q, pq_spill q = true -> pq_local q = true ->
  forall xs ls y, In y (app2 (pq_push_all q xs ls)) <-> In y xs \/ In y (app2 ls).
Proof.
  intros q Hs Hl xs. unfold pq_push_all. induction xs as [|x t IH]; intros ls y; cbn [fold_left]; split; intros H.
  - right. exact H.
  - destruct H as [[]|H]; exact H.
  - apply IH in H as [H|H]; [left; right; exact H|].
    apply (pq_push_In q ls x y Hs Hl) in H as [H|H]; [left; left; exact H | right; exact H].
  - apply IH. destruct H as [[H|H]|H]; [right; apply (pq_push_In q ls x y Hs Hl); left; exact H | left; exact H|].
    right. apply (pq_push_In q ls x y Hs Hl). right. exact H.
Qed.

Lemma pq_push_all_len : forall q xs ls,
  length (app2 (pq_push_all q xs ls)) <= length xs + length (app2 ls).
Proof.
  intros q xs. unfold pq_push_all. induction xs as [|x t IH]; intro ls; cbn [fold_left length]; [lia|].
  specialize (IH (pq_push q ls x)).
  assert (length (app2 (pq_push q ls x)) <= S (length (app2 ls))).
  { destruct ls as [l s]. unfold pq_push, app2. cbn [fst snd].
    destruct (Nat.leb (pq_cap q) (length l)); [destruct (pq_spill q)|destruct (pq_local q)]; cbn [fst snd];
      rewrite ?app_length; cbn [length]; rewrite ?app_length; lia. }
  lia.
Qed.

Lemma pq_pop_some : forall q ls x ls', pq_pop q ls = Some (x, ls') -> app2 ls = x :: app2 ls'.
Proof.
  intros q [[|a l] [|b s]] x ls' H; cbn [pq_pop] in H; try discriminate.
  - destruct (pq_drain q); [|discriminate]. injection H as <- <-. reflexivity.
  - injection H as <- <-. reflexivity.
  - injection H as <- <-. reflexivity.
Qed.

Lemma pq_pop_none : forall q, pq_drain q = true -> forall ls, pq_pop q ls = None -> app2 ls = [].
Proof.
  intros q Hd [[|a l] [|b s]] H; cbn [pq_pop] in H; try discriminate; [reflexivity|].
  rewrite Hd in H. discriminate.
Qed.

Section Queue.
  Variable trav : kind -> bool.

  Lemma mark_pq_is_gen : forall q fuel h ls nb nv,
    mark_pq trav q fuel h ls nb nv = mark_gen trav _ (pq_pop q) (pq_push_all q) fuel h ls nb nv.
  Proof.
    intros q fuel. induction fuel as [|f IH]; intros; cbn [mark_pq mark_gen]; [reflexivity|].
    destruct (pq_pop q ls) as [[x ls']|]; [|reflexivity].
    destruct (lookup h x) as [s|]; [|reflexivity]. destruct (live s); apply IH.
  Qed.

  Lemma mark_pq_spec : forall q fuel h ls nb nv h' nb' nv',
    pq_spill q = true -> pq_local q = true -> pq_drain q = true ->
    (forall x, flagged h x = false) ->
    mark_pq trav q fuel h ls nb nv = Ok (h', nb', nv') ->
    forall x, cont h' x = cont h x /\ (flagged h' x = true <-> rch trav h (app2 ls) x).
  Proof.
    intros q fuel h ls nb nv h' nb' nv' Hs Hl Hd Hz Hrun. rewrite mark_pq_is_gen in Hrun.
    exact (mark_gen_spec trav _ app2 (pq_pop q) (pq_push_all q) (pq_pop_some q) (pq_pop_none q Hd)
             (pq_push_all_In q Hs Hl) _ _ _ _ _ _ _ _ Hz Hrun).
  Qed.

  Lemma mark_pq_fuel : forall q fuel h ls nb nv,
    length (app2 ls) + heap_weight trav h < fuel -> mark_pq trav q fuel h ls nb nv <> OutOfFuel.
  Proof.
    intros q fuel h ls nb nv. rewrite mark_pq_is_gen.
    apply (mark_gen_fuel trav _ app2 (pq_pop q) (pq_push_all q) (pq_pop_some q) (pq_push_all_len q)).
  Qed.
End Queue.

Definition lossy_pq : pq_cfg := {| pq_cap := 2; pq_spill := false; pq_local := true; pq_drain := true; pq_roots := true |}.

Definition wide_state : res state :=
  run c8 marker_par
    [OAllocBox false RsGlobals 0 (RAtom 0); OAllocBox false RsGlobals 1 (RAtom 1); OAllocBox false RsGlobals 2 (RAtom 2);
     OAllocBox false RsGlobals 3 (RAtom 3);
     OAllocVec false RsGlobals 4 [RRoot RsGlobals 0; RRoot RsGlobals 1; RRoot RsGlobals 2; RRoot RsGlobals 3];
     OSetRoot RsGlobals 0 (RAtom 0); OSetRoot RsGlobals 1 (RAtom 0); OSetRoot RsGlobals 2 (RAtom 0); OSetRoot RsGlobals 3 (RAtom 0)]
    (init_state 8).

