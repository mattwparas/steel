(* C04 / C19 -- lemmas about the heap model (Model_C04.v). *)
From Coq Require Import String List Arith Lia Bool ZArith.
From SV Require Import lib.ListFacts gen.Gen_C04 c04.Model_C04 c18.Proofs_C18.   (* c18: the marking invariant [tri] over [reachA], and sum_drop *)
Import ListNotations.

(* In x L by position (nth_error_In): a constant-size proof per constructor; a chain of disjunctions is linear in the
   list, for every case *)
Ltac in_enum :=
  lazymatch goal with |- In ?x ?L =>
    let l := eval unfold L in L in
    lazymatch l with context [x :: ?t] =>
      let n := eval cbv in (length l - S (length t)) in exact (nth_error_In L n eq_refl)
    end
  end.

Lemma all_kinds_complete : forall k, In k all_kinds.
Proof. destruct k; in_enum. Qed.

(* Both markers traverse exactly the kinds whose payload can hold values.  The three generated tables are closed
   matches over [kind], so the equations hold by conversion exactly when every arm agrees (either breaks when an arm is
   removed from closed.rs). *)
Lemma marker_par_tab : marker_par = can_contain.
Proof. reflexivity. Qed.

Lemma marker_seq_tab : marker_seq = can_contain.
Proof. reflexivity. Qed.

Lemma roots_cover_lemma : forall s, In s marked_root_sets.
Proof. destruct s; in_enum. Qed.

Lemma href_eqb_eq : forall x y, href_eqb x y = true <-> x = y.
Proof.
  intros [a|a] [b|b]; cbn [href_eqb]; rewrite ?N.eqb_eq; split; intro H; try discriminate; congruence.
Qed.

Definition cont (h : heap) (x : href) : list val :=
  match lookup h x with Some s => sval s | None => [] end.
Definition flagged (h : heap) (x : href) : bool :=
  match lookup h x with Some s => live s | None => false end.

(* any map over the slots that keeps [sid] (flag_in, fl_reset) *)
Lemma lookup_in_map : forall g, (forall s, sid (g s) = sid s) -> forall l a,
  lookup_in (map g l) a = option_map g (lookup_in l a).
Proof.
  intros g Hg l a. unfold lookup_in. induction l as [|s t IH]; cbn [map find option_map]; [reflexivity|].
  rewrite Hg. destruct (N.eqb (sid s) a); [reflexivity | exact IH].
Qed.

Lemma lookup_in_sid : forall l a s, lookup_in l a = Some s -> sid s = a.
Proof. intros l a s H. apply find_some in H. apply N.eqb_eq, H. Qed.

Definition flag (s : slot) : slot := {| sid := sid s; live := true; sval := sval s |}.

Lemma lookup_set_live : forall h x y,
  lookup (set_live h x) y = if href_eqb x y then option_map flag (lookup h y) else lookup h y.
Proof.
  assert (L : forall l a b, lookup_in (flag_in l a) b = if N.eqb a b then option_map flag (lookup_in l b) else lookup_in l b).
  { intros l a b. unfold flag_in. rewrite lookup_in_map by (intro s; destruct (N.eqb (sid s) a); reflexivity).
    destruct (lookup_in l b) as [s|] eqn:E; [|destruct (N.eqb a b); reflexivity].
    apply lookup_in_sid in E as <-. cbn [option_map]. rewrite N.eqb_sym. destruct (N.eqb a (sid s)); reflexivity. }
  intros h [a|a] [b|b]; cbn [set_live lookup boxes vecs with_slots slots href_eqb]; try reflexivity; apply L.
Qed.

Lemma cont_set_live : forall h x y, cont (set_live h x) y = cont h y.
Proof. intros. unfold cont. rewrite lookup_set_live. destruct (href_eqb x y), (lookup h y); reflexivity. Qed.

Lemma flagged_set_live : forall h x s y, lookup h x = Some s ->
  flagged (set_live h x) y = true <-> y = x \/ flagged h y = true.
Proof.
  intros h x s y Hs. unfold flagged. rewrite lookup_set_live. destruct (href_eqb x y) eqn:E.
  - apply href_eqb_eq in E as <-. rewrite Hs. split; [left|]; reflexivity.
  - split; [right; assumption | intros [->|H]; [|exact H]]. rewrite (proj2 (href_eqb_eq x x) eq_refl) in E. discriminate.
Qed.

(* flagging an unflagged slot pays for pushing its contents *)
Lemma weight_flag_in : forall trav l a s,
  lookup_in l a = Some s -> live s = false ->
  list_sum (map (slot_weight trav) (flag_in l a)) + S (length (hdls trav (sval s))) <= list_sum (map (slot_weight trav) l).
Proof.
  intros trav l a s Hs Hl. apply find_some in Hs as [Hin Ha]. unfold flag_in. rewrite map_map.
  apply sum_drop with (x := s); [|exact Hin|]; [intro y|]; unfold slot_weight; [|rewrite Ha, Hl; cbn [live]; lia].
  destruct (N.eqb (sid y) a); [cbn [live]; lia | apply le_n].
Qed.

Lemma heap_weight_set_live : forall trav h x s,
  lookup h x = Some s -> live s = false ->
  heap_weight trav (set_live h x) + S (length (hdls trav (sval s))) <= heap_weight trav h.
Proof.
  intros trav h [a|a] s Hs Hl; unfold heap_weight; cbn [set_live boxes vecs with_slots slots lookup] in *.
  - pose proof (weight_flag_in trav _ _ _ Hs Hl). lia.
  - pose proof (weight_flag_in trav _ _ _ Hs Hl). lia.
Qed.

Section Marker.
  Variable trav : kind -> bool.

  Definition rch (h : heap) (wl : list href) : href -> Prop := reachA (fun y => hdls trav (cont h y)) wl.

  (* The marker over any work-list discipline: [elems w] are the handles waiting in [w].  The unbounded list of
     mark_loop and the bounded queue of mark_pq are instances (mark_loop_is_gen, mark_pq_is_gen). *)
  Section WorkList.
    Variable W : Type.
    Variable elems : W -> list href.
    Variable pop : W -> option (href * W).
    Variable push : list href -> W -> W.
    Hypothesis pop_some : forall w x w', pop w = Some (x, w') -> elems w = x :: elems w'.
    Hypothesis push_len : forall xs w, length (elems (push xs w)) <= length xs + length (elems w).
    (* not needed for the fuel bound: the pop drains the work list, a push enqueues exactly what it is given *)
    Hypothesis pop_none : forall w, pop w = None -> elems w = [].
    Hypothesis push_In : forall xs w y, In y (elems (push xs w)) <-> In y xs \/ In y (elems w).

    (* the message of mark_loop and mark_pq under a name: the case analyses below then do not carry its characters *)
    Definition dropped_slot : string := "mark: handle to a dropped slot".

    Fixpoint mark_gen (fuel : nat) (h : heap) (w : W) (nb nv : nat) : res (heap * nat * nat) :=
      match fuel with
      | 0 => OutOfFuel
      | S fuel' =>
        match pop w with
        | None => Ok (h, nb, nv)
        | Some (x, w') =>
          match lookup h x with
          | None => Panic dropped_slot
          | Some s =>
            if live s then mark_gen fuel' h w' nb nv
            else mark_gen fuel' (set_live h x) (push (hdls trav (sval s)) w')
                   (match x with HB _ => S nb | HV _ => nb end)
                   (match x with HB _ => nv | HV _ => S nv end)
          end
        end
      end.

    Lemma mark_gen_inv : forall (I : heap -> W -> Prop),
      (forall h w x w' s, pop w = Some (x, w') -> lookup h x = Some s -> I h w ->
         if live s then I h w' else I (set_live h x) (push (hdls trav (sval s)) w')) ->
      forall fuel h w nb nv h' nb' nv', I h w -> mark_gen fuel h w nb nv = Ok (h', nb', nv') ->
      exists w', pop w' = None /\ I h' w'.
    Proof.
      intros I Hstep. induction fuel as [|fuel IH]; intros h w nb nv h' nb' nv' Hi Hrun; cbn [mark_gen] in Hrun; [discriminate|].
      destruct (pop w) as [[x w1]|] eqn:Hp; [|injection Hrun as <- _ _; exists w; split; assumption].
      destruct (lookup h x) as [s|] eqn:Hs; [|discriminate].
      specialize (Hstep h w x w1 s Hp Hs Hi). destruct (live s); exact (IH _ _ _ _ _ _ _ Hstep Hrun).
    Qed.

    (* invariant: contents stay, and [tri] with the flagged slots as marked and [elems w] as waiting *)
    Lemma mark_gen_spec : forall fuel h w nb nv h' nb' nv',
      (forall x, flagged h x = false) ->
      mark_gen fuel h w nb nv = Ok (h', nb', nv') ->
      forall x, cont h' x = cont h x /\ (flagged h' x = true <-> rch h (elems w) x).
    Proof.
      intros fuel h0 w0 nb nv h' nb' nv' Hz Hrun.
      destruct (mark_gen_inv (fun h w => (forall y, cont h y = cont h0 y) /\
                  tri (fun y => hdls trav (cont h0 y)) (elems w0) (fun x => flagged h x = true) (elems w)))
        with (3 := Hrun) as [w' [Hp [C T]]].
      - intros h w x0 w' s Hp Hlk [Hc T]. rewrite (pop_some _ _ _ Hp) in T. destruct (live s) eqn:Hlv.
        + split; [exact Hc|]. eapply tri_drop; [exact T|]. unfold flagged. rewrite Hlk. exact Hlv.
        + split; [intro y; rewrite cont_set_live; apply Hc|].
          eapply tri_mark; [exact T | intro y; eapply flagged_set_live, Hlk|].
          intro y. rewrite <- Hc. unfold cont at 1. rewrite Hlk. apply push_In.
      - split; [reflexivity|]. apply tri_init. intros x H. rewrite Hz in H. discriminate.
      - rewrite (pop_none _ Hp) in T. intro x. split; [apply C | exact (tri_done _ _ _ T x)].
    Qed.

    Lemma mark_gen_fuel : forall fuel h w nb nv,
      length (elems w) + heap_weight trav h < fuel -> mark_gen fuel h w nb nv <> OutOfFuel.
    Proof.
      induction fuel as [|fuel IH]; intros h w nb nv Hlt; [lia|]. cbn [mark_gen].
      destruct (pop w) as [[x w']|] eqn:Hp; [|discriminate].
      rewrite (pop_some _ _ _ Hp) in Hlt. cbn [length] in Hlt.
      destruct (lookup h x) as [s|] eqn:Hs; [|discriminate].
      destruct (live s) eqn:Hl.
      - apply IH. lia.
      - apply IH. pose proof (heap_weight_set_live trav h x s Hs Hl). pose proof (push_len (hdls trav (sval s)) w'). lia.
    Qed.
  End WorkList.

  Definition pop_list (wl : list href) : option (href * list href) :=
    match wl with [] => None | x :: t => Some (x, t) end.

  Lemma mark_loop_is_gen : forall fuel h wl nb nv,
    mark_loop trav fuel h wl nb nv = mark_gen (list href) pop_list (@app href) fuel h wl nb nv.
  Proof.
    induction fuel as [|f IH]; intros; cbn [mark_loop mark_gen]; [reflexivity|].
    destruct wl as [|x wl]; cbn [pop_list]; [reflexivity|].
    destruct (lookup h x) as [s|]; [|reflexivity]. destruct (live s); apply IH.
  Qed.

  Lemma pop_list_some : forall w x w', pop_list w = Some (x, w') -> w = x :: w'.
  Proof. intros [|y w] x w' E; inversion E; reflexivity. Qed.

  Lemma pop_list_none : forall w, pop_list w = None -> w = [].
  Proof. intros [|y w] E; [reflexivity | discriminate]. Qed.

  Lemma mark_loop_spec : forall fuel h wl nb nv h' nb' nv',
    (forall x, flagged h x = false) ->
    mark_loop trav fuel h wl nb nv = Ok (h', nb', nv') ->
    forall x, cont h' x = cont h x /\ (flagged h' x = true <-> rch h wl x).
  Proof.
    intros fuel h wl nb nv h' nb' nv' Hz Hrun. rewrite mark_loop_is_gen in Hrun.
    apply (mark_gen_spec (list href) (fun w => w) pop_list (@app href) pop_list_some pop_list_none (@in_app_iff href)
             _ _ _ _ _ _ _ _ Hz Hrun).
  Qed.

  Lemma mark_loop_flag_mono : forall fuel h wl nb nv h' nb' nv',
    mark_loop trav fuel h wl nb nv = Ok (h', nb', nv') -> forall y, flagged h y = true -> flagged h' y = true.
  Proof.
    intros fuel h wl nb nv h' nb' nv' Hrun. rewrite mark_loop_is_gen in Hrun.
    destruct (mark_gen_inv (list href) pop_list (@app href) (fun h1 _ => forall y, flagged h y = true -> flagged h1 y = true))
      with (3 := Hrun) as [_ [_ H]]; [|auto|exact H].
    intros h1 _ x _ s _ Hs Hi. destruct (live s); intros y Hy; [|apply (flagged_set_live _ _ _ _ Hs); right]; apply Hi, Hy.
  Qed.

  Lemma mark_loop_fuel : forall fuel h wl nb nv,
    length wl + heap_weight trav h < fuel -> mark_loop trav fuel h wl nb nv <> OutOfFuel.
  Proof.
    intros fuel h wl nb nv. rewrite mark_loop_is_gen. apply (mark_gen_fuel (list href) (fun w => w) pop_list (@app href) pop_list_some).
    intros xs w. rewrite app_length. lia.
  Qed.
End Marker.

Lemma all_rsets_complete : forall s, In s all_rsets.
Proof. destruct s; in_enum. Qed.

Lemma lookup_reset : forall h x,
  lookup (reset_marks h) x = option_map (fun s => {| sid := sid s; live := false; sval := sval s |}) (lookup h x).
Proof. intros h [a|a]; apply lookup_in_map; reflexivity. Qed.

Definition restale (h : heap) (st : list val) : heap := {| boxes := boxes h; vecs := vecs h; stale := st |}.

Lemma lookup_restale : forall h st x, lookup (restale h st) x = lookup h x.
Proof. intros h st [a|a]; reflexivity. Qed.

Lemma lookup_stale : forall b v st x, lookup {| boxes := b; vecs := v; stale := st |} x = lookup {| boxes := b; vecs := v; stale := [] |} x.
Proof. intros b v st. exact (lookup_restale {| boxes := b; vecs := v; stale := [] |} st). Qed.

Lemma flagged_reset : forall h st x, flagged (restale (reset_marks h) st) x = false.
Proof.
  intros. unfold flagged. rewrite lookup_restale, lookup_reset. destruct (lookup h x); reflexivity.
Qed.

Lemma cont_reset : forall h st x, cont (restale (reset_marks h) st) x = cont h x.
Proof.
  intros. unfold cont. rewrite lookup_restale, lookup_reset. destruct (lookup h x); reflexivity.
Qed.

Lemma mark_unfold : forall trav h r,
  mark trav (reset_marks h) r =
  let wl := hdls trav (marked_roots r) in
  mark_loop trav (mark_fuel trav (restale (reset_marks h) []) wl) (restale (reset_marks h) []) wl 0 0.
Proof. intros. unfold mark. change mark_queue_cleared with true. reflexivity. Qed.

Lemma marked_roots_all : forall t r x, In x (hdls t (marked_roots r)) <-> In x (hdls t (all_roots r)).
Proof.
  intros t r x. split; apply incl_flat_map, incl_flat_map; intros s _; [apply all_rsets_complete | apply roots_cover_lemma].
Qed.

Lemma rch_reach : forall h st r x,
  rch marker_par (restale (reset_marks h) st) (hdls marker_par (marked_roots r)) x <-> reach h (all_roots r) x.
Proof.
  intros h st r x. unfold rch. rewrite marker_par_tab. split; intro H.
  - induction H as [x Hin|y x _ IH Hin].
    + apply reach_root, marked_roots_all, Hin.
    + rewrite cont_reset in Hin. unfold cont in Hin. destruct (lookup h y) as [s|] eqn:Hs; [|destruct Hin].
      eapply reach_step; [exact IH | exact Hs | exact Hin].
  - induction H as [x Hin|y x s _ IH Hs Hin].
    + apply ra_root, marked_roots_all, Hin.
    + eapply ra_step; [exact IH|]. cbv beta. rewrite cont_reset. unfold cont. rewrite Hs. exact Hin.
Qed.

(* C04 / C19: the mark phase of a full collection keeps the contents of every slot, and a slot is flagged after it iff
   the program can reach it -- from any root set, through any chain of containers of any kind *)
Lemma mark_spec : forall h r h' nb nv,
  mark marker_par (reset_marks h) r = Ok (h', nb, nv) ->
  forall x, cont h' x = cont h x /\ (flagged h' x = true <-> reach h (all_roots r) x).
Proof.
  intros h r h' nb nv Hm x. rewrite mark_unfold in Hm. cbv zeta in Hm.
  rewrite <- (rch_reach h [] r x), <- (cont_reset h [] x). exact (mark_loop_spec _ _ _ _ _ _ _ _ _ (flagged_reset h []) Hm x).
Qed.

Definition cursor_free (f : flist) : Prop :=
  exists s, nth_error (slots f) (cursor f) = Some s /\ live s = false.
Definition counted (f : flist) : Prop := free_cnt f = count_dead (slots f).

Lemma find_free_spec : forall l k, find_free l = Some k -> exists s, nth_error l k = Some s /\ live s = false.
Proof.
  induction l as [|s t IH]; intros k H; cbn [find_free] in H; [discriminate|].
  destruct (live s) eqn:E.
  - destruct (find_free t) as [j|]; [|discriminate]. injection H as <-. cbn [nth_error]. apply IH. reflexivity.
  - injection H as <-. exists s. split; [reflexivity | exact E].
Qed.

Lemma find_free_none : forall l, find_free l = None -> count_dead l = 0.
Proof.
  unfold count_dead. induction l as [|s t IH]; intro H; cbn [find_free filter] in *; [reflexivity|].
  destruct (live s) eqn:E; cbn [negb]; [|discriminate].
  destruct (find_free t); [discriminate|]. apply IH. reflexivity.
Qed.

Lemma nth_error_set_nth_same : forall l n s, n < length l -> nth_error (set_nth n s l) n = Some s.
Proof. intros l n s. exact (upd_nth_same n s l). Qed.

Lemma nth_error_set_nth_other : forall l n m s, n <> m -> nth_error (set_nth n s l) m = nth_error l m.
Proof. intros l n m s. exact (upd_nth_other n m s l). Qed.

Lemma length_set_nth : forall l n s, length (set_nth n s l) = length l.
Proof. intros l n s. exact (upd_nth_length n s l). Qed.

Lemma nth_error_fresh_0 : forall id n, 0 < n -> nth_error (fresh_slots id n) 0 = Some {| sid := id; live := false; sval := [] |}.
Proof. intros id [|n] H; [lia|reflexivity]. Qed.

Lemma fl_grow_by_cursor_free : forall amount f, 0 < Nat.max (length (slots f)) amount -> cursor_free (fl_grow_by amount f).
Proof.
  intros amount f H. unfold cursor_free, fl_grow_by. cbn [slots cursor].
  exists {| sid := next_id f; live := false; sval := [] |}. split; [|reflexivity].
  rewrite nth_error_app2 by lia. rewrite Nat.sub_diag. apply nth_error_fresh_0. exact H.
Qed.

(* the two ways an allocation ends: the cursor moves to a free slot (further on or, failing that, from the start
   again), or the slot just written was the last free one and the list grows *)
Lemma fl_allocate_cases : forall chunk v f a f', fl_allocate chunk v f = Ok (a, f') ->
  exists s fc, nth_error (slots f) (cursor f) = Some s /\ free_cnt f = S fc /\ a = sid s /\
    let l := set_nth (cursor f) {| sid := sid s; live := true; sval := v |} (slots f) in
    let f1 := with_free (with_slots f l) fc in
    (exists k s', nth_error l k = Some s' /\ live s' = false /\ f' = with_cursor f1 k) \/
    (fc = 0 /\ f' = fl_grow chunk f1).
Proof.
  intros chunk v f a f' H. unfold fl_allocate in H.
  destruct (nth_error (slots f) (cursor f)) as [s|]; [|discriminate].
  destruct (free_cnt f) as [|fc]; [discriminate|]. exists s, fc. split; [reflexivity|]. split; [reflexivity|].
  cbv zeta. revert H. destruct (find_free (skipn _ _)) as [k|] eqn:Hk.
  - intros [= <- <-]. split; [reflexivity|]. left. apply find_free_spec in Hk as [s' [Hs' Hl']].
    rewrite nth_error_skipn in Hs'. exists (cursor f + k), s'. repeat split; assumption.
  - destruct (Nat.eqb fc 0) eqn:Hz.
    + intros [= <- <-]. apply Nat.eqb_eq in Hz. split; [reflexivity|]. right. split; [exact Hz | reflexivity].
    + destruct (find_free (set_nth _ _ _)) as [k|] eqn:Hk'; [|intros [=]]. intros [= <- <-].
      split; [reflexivity|]. left. apply find_free_spec in Hk' as [s' [Hs' Hl']]. exists k, s'. repeat split; assumption.
Qed.

Lemma count_dead_app : forall l1 l2, count_dead (l1 ++ l2) = count_dead l1 + count_dead l2.
Proof. intros. unfold count_dead. rewrite filter_app, app_length. reflexivity. Qed.

Lemma count_dead_fresh : forall id n, count_dead (fresh_slots id n) = n.
Proof.
  intros id n. revert id. unfold count_dead. induction n as [|n IH]; intro id; cbn [fresh_slots filter live negb length]; [reflexivity|].
  rewrite IH. reflexivity.
Qed.

Lemma count_dead_set_nth : forall l n s s', nth_error l n = Some s -> live s = false -> live s' = true ->
  S (count_dead (set_nth n s' l)) = count_dead l.
Proof.
  unfold count_dead. induction l as [|x t IH]; intros n s s' H Hl Hl'; [destruct n; discriminate|].
  destruct n; cbn [nth_error set_nth filter] in *.
  - injection H as ->. rewrite Hl, Hl'. cbn [negb length]. reflexivity.
  - destruct (negb (live x)); cbn [length]; erewrite <- IH by eassumption; reflexivity.
Qed.

Lemma counted_recount : forall f, counted (fl_recount f).
Proof. intro f. reflexivity. Qed.

Lemma count_dead_filter_live : forall l, count_dead (filter live l) = 0.
Proof.
  unfold count_dead. induction l as [|s t IH]; cbn [filter]; [reflexivity|].
  destruct (live s) eqn:E; cbn [filter]; [rewrite E; cbn [negb]|]; exact IH.
Qed.

(* a transition system on pairs (length, grow_count), written after the size policy of the box list in
   values/closed.rs: SGrow adds max(length, chunk) slots and counts one more growth, SCompact m leaves the m flagged
   slots plus max(m, chunk) free ones and sets the count to 1.  size_inv_run bounds the length along its runs; no
   lemma relates size_step to the heap operations of Model_C04.v *)
Inductive size_op : Set := SGrow | SCompact (m : nat).

Definition size_step (chunk limit : nat) (o : size_op) (p : nat * nat) : nat * nat :=
  let '(len, gc) := p in
  match o with
  | SGrow => (len + Nat.max len chunk, S gc)
  | SCompact m => (m + Nat.max m chunk, 1)
  end.

Definition size_ok (limit L : nat) (o : size_op) (p : nat * nat) : Prop :=
  match o with
  | SGrow => snd p <= limit            (* the policy grows only while grow_count <= RESET_LIMIT *)
  | SCompact m => m <= L               (* a compaction keeps the flagged = reachable slots *)
  end.

Definition bound (init chunk limit L : nat) : nat :=
  Nat.max init (Nat.max (2 * L) (L + chunk)) * 2 ^ limit.

(* between 1 and limit + 1 growths since the last compaction, each at most doubling a length that was at most B *)
Definition size_inv (B limit : nat) (p : nat * nat) : Prop :=
  1 <= snd p /\ fst p <= B * 2 ^ (snd p - 1) /\ snd p <= S limit.

Lemma size_inv_step : forall chunk limit L B o p,
  2 * L <= B -> L + chunk <= B ->
  size_inv B limit p -> size_ok limit L o p -> size_inv B limit (size_step chunk limit o p).
Proof.
  intros chunk limit L B o [len gc] H2 HL (Hg & Hlen & Hgl) Hok. unfold size_inv. destruct o as [|m]; cbn [size_step size_ok fst snd] in *.
  - split; [apply le_n_S, Nat.le_0_l|]. split; [|apply le_n_S, Hok].
    replace (S gc - 1) with (S (gc - 1)) by lia. rewrite Nat.pow_succ_r'.
    pose proof (Nat.pow_nonzero 2 (gc - 1) (Nat.neq_succ_0 1)) as Hp.
    assert (Nat.max len chunk <= B * 2 ^ (gc - 1)) by (apply Nat.max_lub; [exact Hlen | nia]). lia.
  - split; [apply le_n|]. split; [|apply le_n_S, Nat.le_0_l]. cbn [Nat.sub Nat.pow]. lia.
Qed.

(* by induction from the last operation: the condition on every prefix of the run then restricts to the shorter run *)
Lemma size_inv_run : forall chunk limit L B, 2 * L <= B -> L + chunk <= B ->
  forall p, size_inv B limit p -> forall ops,
  (forall pre o post, ops = pre ++ o :: post ->
     size_ok limit L o (fold_left (fun p o => size_step chunk limit o p) pre p)) ->
  size_inv B limit (fold_left (fun p o => size_step chunk limit o p) ops p).
Proof.
  intros chunk limit L B HB2 HB3 p Hp. induction ops as [|o ops IH] using rev_ind; intro Hok; [exact Hp|].
  rewrite fold_left_app. apply (size_inv_step chunk limit L); try assumption.
  - apply IH. intros pre o' post ->. apply (Hok pre o' (post ++ [o])). rewrite <- app_assoc. reflexivity.
  - apply (Hok ops o []). reflexivity.
Qed.

(* HeapRef::maybe_get_from_weak for the box inside a WeakBox (no other handle to it exists): the
   contents while the slot is flagged, nothing afterwards *)
Definition weak_value (h : heap) (a : N) : option (list val) :=
  match lookup h (HB a) with Some s => if live s then Some (sval s) else None | None => None end.

Definition c8 : cfg := {| c_chunk := 8; c_reset_limit := reset_limit; c_full_pct := full_pct;
                          c_vec_weak_pct := vec_weak_pct; c_vec_weak_off_pct := vec_weak_off_pct; c_vec_full_pct := vec_full_pct |}.

(* a run through [recycle_marks_old] (GlobalSlotRecycler::recycle before /repo 80022351), on a box held by thread-local
   storage *)
Definition after_old_recycler (fill : list hop) : res state :=
  st1 <- run c8 marker_par [OAllocBox false RsTls 0 (RAtom 7)] (init_state 8) ;;
  h2 <- recycle_marks_old marker_par [] (hp st1) ;;
  run c8 marker_par fill {| hp := h2; rt := rt st1 |}.

Lemma lookup_in_app : forall l1 l2 a s, lookup_in l1 a = Some s -> lookup_in (l1 ++ l2) a = Some s.
Proof.
  unfold lookup_in. induction l1 as [|x t IH]; intros l2 a s H; cbn [find app] in *; [discriminate|].
  destruct (N.eqb (sid x) a); [exact H | apply IH; exact H].
Qed.

Lemma lookup_in_filter_live : forall l a s, lookup_in l a = Some s -> live s = true -> lookup_in (filter live l) a = Some s.
Proof.
  unfold lookup_in. induction l as [|x t IH]; intros a s H Hl; cbn [find filter] in *; [discriminate|].
  destruct (N.eqb (sid x) a) eqn:E.
  - injection H as ->. rewrite Hl. cbn [find]. rewrite E. reflexivity.
  - destruct (live x); [cbn [find]; rewrite E|]; apply IH; assumption.
Qed.

Lemma policy_keeps_flagged : forall chunk (b : bool) f a s,
  lookup_in (slots f) a = Some s -> live s = true ->
  lookup_in (slots (if b then fl_compact chunk f else fl_grow chunk f)) a = Some s.
Proof.
  intros chunk b f a s H Hl. destruct b; unfold fl_compact, fl_grow, fl_grow_by; cbn [slots].
  - apply lookup_in_app. apply lookup_in_filter_live; assumption.
  - apply lookup_in_app. exact H.
Qed.

