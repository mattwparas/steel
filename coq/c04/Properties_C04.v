(* C04 -- property theorems only; Pins_C04.v, compiled on every run of the check, repeats each statement. *)
From Coq Require Import Lia.
From Coq Require Import String List Arith Bool ZArith NArith.
From SV Require Import gen.Gen_C04 c04.Model_C04 c04.Proofs_C04 c04.Proofs_C04_Queue.
Import ListNotations.

(* about the tables of gen/Gen_C04.v, which checks/heapcommon.py reads off values/closed.rs, rvals.rs and vm.rs on every
   run: both markers traverse exactly the kinds of SteelVal whose payload can hold values, Heap::mark pushes every
   root set, GlobalSlotRecycler::recycle puts the mark bits back *)
Theorem visitors_cover : forall k, can_contain k = true -> marker_par k = true /\ marker_seq k = true.
Proof. rewrite marker_par_tab, marker_seq_tab. intros k H. split; exact H. Qed.

Theorem visitors_sound : forall k, marker_par k = true \/ marker_seq k = true -> can_contain k = true.
Proof. rewrite marker_par_tab, marker_seq_tab. intros k [H|H]; exact H. Qed.

Theorem roots_cover : forall s, In s marked_root_sets.
Proof. exact roots_cover_lemma. Qed.

(* the frames root set includes the exception handler installed on a live frame (generated fact; without it a box
   reachable only through a live call-with-exception-handler handler is reclaimed: DESIGN F49) *)
Theorem frame_handlers_are_roots : frame_handlers_rooted = true.
Proof. reflexivity. Qed.

Theorem recycler_restores : recycler_restores_marks = true.
Proof. reflexivity. Qed.

(* after the mark phase of any full collection every slot reachable from any root set through any
   chain of containers is flagged *)
Theorem mark_complete : forall h r h' nb nv,
  mark marker_par (reset_marks h) r = Ok (h', nb, nv) ->
  forall x, reach h (all_roots r) x -> flagged h' x = true.
Proof. intros h r h' nb nv Hm x. apply (mark_spec h r h' nb nv Hm x). Qed.

Theorem mark_keeps_contents : forall h r h' nb nv,
  mark marker_par (reset_marks h) r = Ok (h', nb, nv) -> forall x, cont h' x = cont h x.
Proof. intros h r h' nb nv Hm x. apply (mark_spec h r h' nb nv Hm x). Qed.

Theorem mark_fuel_suffices : forall trav h r, mark trav h r <> OutOfFuel.
Proof.
  intros trav h r. unfold mark. apply mark_loop_fuel. unfold mark_fuel. lia. Qed.

(* allocate writes only the slot at the cursor, which is flagged free, and leaves the cursor on a free slot *)
Theorem alloc_preserves_live : forall chunk v f a f',
  0 < chunk -> cursor_free f ->
  fl_allocate chunk v f = Ok (a, f') ->
  (exists s, nth_error (slots f) (cursor f) = Some s /\ live s = false /\ sid s = a /\
             nth_error (slots f') (cursor f) = Some {| sid := a; live := true; sval := v |}) /\
  (forall i, i <> cursor f -> i < length (slots f) -> nth_error (slots f') i = nth_error (slots f) i) /\
  cursor_free f'.
Proof.
  intros chunk v f a f' Hc [s0 [Hs0 Hl]] H.
  destruct (fl_allocate_cases _ _ _ _ _ H) as [s [fc [Hs [_ [-> C]]]]]. cbv zeta in C.
  rewrite Hs0 in Hs. injection Hs as ->.
  assert (Hlt : cursor f < length (slots f)) by (apply nth_error_Some; rewrite Hs0; discriminate).
  set (l := set_nth (cursor f) {| sid := sid s; live := true; sval := v |} (slots f)) in *.
  (* in both cases the new slot vector is l, possibly extended, and the cursor is on a free slot *)
  assert (X : exists ext, slots f' = l ++ ext /\ cursor_free f').
  { destruct C as [[k [s' [Hs' [Hl' ->]]]] | [-> ->]].
    - exists []. split; [symmetry; apply app_nil_r | exists s'; split; assumption].
    - eexists. split; [reflexivity | apply fl_grow_by_cursor_free; lia]. }
  destruct X as (ext & -> & Hcf).
  assert (Hin : forall i, i < length (slots f) -> nth_error (l ++ ext) i = nth_error l i)
    by (intros i Hi; apply nth_error_app1; unfold l; rewrite length_set_nth; exact Hi).
  split; [exists s; repeat split; try assumption; rewrite Hin by exact Hlt; apply nth_error_set_nth_same, Hlt|].
  split; [|exact Hcf]. intros i Hi Hil. rewrite Hin by exact Hil. apply nth_error_set_nth_other. lia.
Qed.

(* the full branch of Heap::value_collection (reset, mark, recount, then grow or compact of the box list)
   keeps every slot the program can reach, with exactly its contents, and flagged -- the collector's part,
   beside alloc_preserves_live, of: a reachable slot's contents change only by a store to it.  The grow /
   compact of the vector list in vector_collection has no statement. *)
Theorem Safe_collection : forall c h r h2,
  full_mark marker_par h r = Ok h2 ->
  forall x s, reach h (all_roots r) x -> lookup h x = Some s ->
  exists s',
    lookup {| boxes := if Nat.ltb (c_reset_limit c) (grow_cnt (boxes h2))
                       then fl_compact (c_chunk c) (boxes h2) else fl_grow (c_chunk c) (boxes h2);
              vecs := vecs h2; stale := stale h2 |} x = Some s' /\
    sval s' = sval s /\ live s' = true.
Proof.
  intros c h r h2 Hf x s Hx Hs. unfold full_mark in Hf.
  destruct (mark marker_par (reset_marks h) r) as [[[h1 nb] nv]| |w] eqn:Hm; cbn [bind] in Hf; try discriminate.
  injection Hf as <-.
  pose proof (mark_complete _ _ _ _ _ Hm x Hx) as Hfl.
  pose proof (mark_keeps_contents _ _ _ _ _ Hm x) as Hc.
  unfold flagged in Hfl. unfold cont in Hc. rewrite Hs in Hc.
  destruct (lookup h1 x) as [s1|] eqn:H1; [|discriminate].
  exists s1. split; [|split; [exact Hc | exact Hfl]].
  destruct x as [a|a]; cbn [lookup boxes vecs with_free slots grow_cnt] in *.
  - apply policy_keeps_flagged; assumption.
  - exact H1.
Qed.

(* generated facts: both paths of push_back enqueue the pushed value, the drain loop empties both
   queues, every root is enqueued, the capacity is positive *)
Theorem marker_queue_facts :
  pq_spill gen_pq = true /\ pq_local gen_pq = true /\ pq_drain gen_pq = true /\ pq_roots gen_pq = true /\ 1 <= pq_cap gen_pq.
Proof. repeat split; try reflexivity. apply Nat.leb_le. reflexivity. Qed.

(* a marker whose push_back enqueues the value on both paths and whose drain loop empties both queues, started on a
   heap with no slot flagged, flags the same slots as the unbounded work list whenever both runs finish; the local
   capacity is any number >= 1 and plays no part in the proof *)
Theorem C04_mark_complete_bounded_queue : forall trav q, 1 <= pq_cap q ->
  pq_spill q = true -> pq_local q = true -> pq_drain q = true ->
  forall fuel1 fuel2 h wl h1 nb1 nv1 h2 nb2 nv2,
  (forall x, flagged h x = false) ->
  mark_pq trav q fuel1 h ([], wl) 0 0 = Ok (h1, nb1, nv1) ->
  mark_loop trav fuel2 h wl 0 0 = Ok (h2, nb2, nv2) ->
  forall x, flagged h1 x = flagged h2 x.
Proof.
  intros trav q _ Hs Hl Hd fuel1 fuel2 h wl h1 nb1 nv1 h2 nb2 nv2 Hz H1 H2 x.
  destruct (mark_pq_spec trav _ _ _ _ _ _ _ _ _ Hs Hl Hd Hz H1 x) as [_ A].
  destruct (mark_loop_spec trav _ _ _ _ _ _ _ _ Hz H2 x) as [_ B].
  apply eq_true_iff_eq. rewrite A, B. reflexivity.
Qed.

(* Heap::mark with the queue as the code has it (generated capacity and path facts): every reachable
   slot is flagged *)
Theorem mark_complete_bounded : forall h r h' nb nv,
  mark_bounded marker_par gen_pq (reset_marks h) r = Ok (h', nb, nv) ->
  forall x, reach h (all_roots r) x -> flagged h' x = true.
Proof.
  intros h r h' nb nv Hm x Hx. unfold mark_bounded in Hm.
  destruct marker_queue_facts as [Hs [Hl [Hd [Hr _]]]]. rewrite Hr in Hm.
  apply (mark_pq_spec marker_par _ _ _ _ _ _ _ _ _ Hs Hl Hd (flagged_reset h []) Hm x).
  apply (rch_reach h [] r x), Hx.
Qed.

Theorem mark_bounded_fuel_suffices : forall trav q h r, mark_bounded trav q h r <> OutOfFuel.
Proof.
  intros trav q h r. unfold mark_bounded. apply mark_pq_fuel. unfold mark_fuel, app2. cbn [fst snd app].
  destruct (pq_roots q); cbn [length]; lia.
Qed.

(* a push_back that drops the value when the local queue is full loses reachable slots (capacity 2,
   four boxes behind one vector) *)
Theorem lossy_queue_refuted :
  exists st h' nb nv x,
    wide_state = Ok st /\
    mark_bounded marker_par lossy_pq (reset_marks (hp st)) (rt st) = Ok (h', nb, nv) /\
    reachb (hp st) (all_roots (rt st)) x = true /\ flagged h' x = false.
Proof.
  eexists. eexists. eexists. eexists. exists (HB 2%N).
  split; [vm_compute; reflexivity|]. split; [vm_compute; reflexivity|]. split; vm_compute; reflexivity.
Qed.

(* GlobalSlotRecycler::recycle of the code before /repo 80022351 ([recycle_marks_old]: the mark bits are not restored)
   violates the property in the model (replayed on the engine by the check: box held by thread-local storage) *)
Theorem recycle_old_refuted :
  exists fill st,
    (forall o, In o fill -> exists e, o = OAllocBox false RsStack 0 e) /\
    after_old_recycler [] = Ok st /\ ev st (RGet (RRoot RsTls 0) 0) = Some (VAtom 7) /\
    exists st', after_old_recycler fill = Ok st' /\
                reachb (hp st') (all_roots (rt st')) (HB 0) = true /\
                ev st' (RGet (RRoot RsTls 0) 0) = Some (VAtom 99).
Proof.
  exists (repeat (OAllocBox false RsStack 0 (RAtom 99)) 8). eexists. split.
  - intros o Ho. apply repeat_spec in Ho. subst o. eexists. reflexivity.
  - split; [vm_compute; reflexivity|]. split; [vm_compute; reflexivity|].
    eexists. split; [vm_compute; reflexivity|]. split; vm_compute; reflexivity.
Qed.
