(* C12 — read (write d) = d, parser side: the flat parser rebuilds a representable datum from its tokens. *)
From Coq Require Import NArith ZArith List Bool Ascii String Lia.
From SV Require Import c12.Model_C12 c12.Proofs_C12.
Import ListNotations.
Open Scope N_scope.

Definition tokof (x : stok) : tok := fst (fst x).

Definition pushable (cur : frame) : Prop :=
  f_comment cur = 0%nat /\ f_mod cur <> Some PBytes /\
  match f_dot cur with None => True | Some (idx, _) => idx = List.length (f_exprs cur) end.

Definition with_exprs (cur : frame) (es : list pexpr) : frame :=
  mkFrame (f_paren cur) (f_mod cur) (f_exprs cur ++ es) (f_dot cur) 0 (f_open cur).

Definition push_expr (cur : frame) (e : pexpr) : frame := with_exprs cur [e].

Lemma frame_push_ok : forall cur e, pushable cur -> frame_push cur e = inr (push_expr cur e).
Proof.
  intros cur e [Hc [Hm Hd]]. unfold frame_push, push_expr, with_exprs.
  destruct (f_dot cur) as [[idx sp]|]; [subst idx; rewrite Nat.eqb_refl|]; cbn [negb];
    (destruct (f_mod cur) as [[|]|]; [|congruence|]; cbn [negb]; rewrite Hc; reflexivity).
Qed.

Lemma p_list_atom : forall tot f st stack cur cur' last t a b ts,
  atom_tok t = true -> frame_push cur (PA t a b) = inr cur' ->
  exists st1, p_list tot (S f) st stack cur last ((t, a, b) :: ts) = p_list tot f st1 stack cur' (a, b) ts.
Proof.
  intros tot f st stack cur cur' last t a b ts Ha Hp.
  destruct t; try discriminate Ha; simpl; rewrite Hp; eexists; reflexivity.
Qed.

Definition sym_tok (s : text) : tok := match kw_of_word s with Some t => t | None => TIdent s end.

Definition atom_toks (d : datum) : option tok :=
  match d with
  | DInt z => Some (TNum (NInt z)) | DRat n dn => Some (TNum (NRat n dn)) | DBool b => Some (TBool b)
  | DChar c => Some (TChar c) | DStr s => Some (TStr s) | DSym s => Some (sym_tok s)
  | _ => None
  end.

Definition is_compound (d : datum) : Prop := atom_toks d = None.

Definition byte_tok (b : N) : tok := TNum (NInt (Z.of_N b)).

Fixpoint tk_of (d : datum) : list tok :=
  match d with
  | DList l => TOpen Round None :: flat_map tk_of l ++ [TClose Round]
  | DPair a b => TOpen Round None :: (tk_of a ++ TDot :: tk_of b) ++ [TClose Round]
  | DVec l => TOpen Round (Some PVector) :: flat_map tk_of l ++ [TClose Round]
  | DBytes l => TOpen Round (Some PBytes) :: map byte_tok l ++ [TClose Round]
  | DInt z => [TNum (NInt z)] | DRat n dn => [TNum (NRat n dn)] | DBool b => [TBool b]
  | DChar c => [TChar c] | DStr s => [TStr s] | DSym s => [sym_tok s]
  | DOpaque | DBad => []
  end.

Definition not_unq (s : text) : Prop :=
  text_eqb s s_unquote = false /\ text_eqb s s_unquote_splicing = false.
Definition hd_ok (l : list datum) : Prop := match l with DSym s :: _ => not_unq s | _ => True end.

(* data for which read (write d) = d is claimed; what is left out and why: above Properties_C12.read_write *)
Fixpoint rep (d : datum) : Prop :=
  match d with
  | DInt _ | DBool _ => True
  | DRat n dn => (1 < dn)%Z /\ Z.gcd n dn = 1%Z
  | DChar c => valid_scalar c = true
  | DStr s => Forall (fun c => valid_scalar c = true) s
  | DSym s => sym_plain s = true
  | DList l => hd_ok l /\ (fix all (l : list datum) : Prop := match l with [] => True | x :: r => rep x /\ all r end) l
  | DPair a b => hd_ok [a] /\ rep a /\ rep b /\ match b with DList _ => False | _ => True end
  | DVec l => hd_ok l /\ (fix all (l : list datum) : Prop := match l with [] => True | x :: r => rep x /\ all r end) l
  | DBytes l => Forall (fun b => b < 256) l
  | DOpaque | DBad => False
  end.

Lemma rep_list : forall l, rep (DList l) <-> hd_ok l /\ Forall rep l.
Proof.
  intros l. cbn [rep]. apply and_iff_compat_l.
  induction l as [|x l IH]; [split; intros; [constructor|exact I]|].
  rewrite Forall_cons_iff, <- IH. reflexivity.
Qed.

Lemma rep_vec : forall l, rep (DVec l) <-> hd_ok l /\ Forall rep l.
Proof. exact rep_list. Qed.

Lemma rep_nest : forall n d, rep d -> hd_ok [d] -> rep (nest n d).
Proof.
  induction n as [|k IH]; intros d Hr Hd; [exact Hr|]. cbn [nest]. apply rep_list. split.
  - destruct k; [exact Hd|exact I].
  - constructor; [apply IH; assumption|constructor].
Qed.

Lemma height_nest : forall n d, height (nest n d) = (n + height d)%nat.
Proof. induction n as [|k IH]; intros d; [reflexivity|]. cbn [nest height fold_right]. rewrite IH, Nat.max_0_r. reflexivity. Qed.

Lemma sym_tok_spec : forall s, sym_plain s = true ->
  tok_to_datum (sym_tok s) = DSym s /\ atom_tok (sym_tok s) = true.
Proof.
  intros s Hp. destruct (sym_plain_inv s Hp) as [c [s' [-> [_ [_ Hal]]]]]. unfold alias_ok in Hal. unfold sym_tok.
  destruct (kw_of_word (c :: s')) as [tk|].
  - (* a keyword or alias: only what alias_ok says of its datum is needed *)
    destruct (tok_to_datum tk) as [| | | | | |n| | | | |] eqn:Ed; try discriminate Hal. apply text_eqb_eq in Hal. subst n.
    split; [reflexivity|destruct tk; try discriminate Ed; reflexivity].
  - split; reflexivity.
Qed.

Lemma norm_rat_reduced : forall n d, (1 < d)%Z -> Z.gcd n d = 1%Z -> norm_rat n d = DRat n d.
Proof.
  intros n d Hd Hg. unfold norm_rat. rewrite Hg. cbn [Z.eqb]. rewrite !Z.div_1_r.
  destruct (d =? 1)%Z eqn:E; [apply Z.eqb_eq in E; lia|reflexivity].
Qed.

Lemma atom_toks_datum : forall d t, rep d -> atom_toks d = Some t -> tok_to_datum t = d /\ atom_tok t = true.
Proof.
  intros d t Hr H. destruct d; cbn in H; inversion H; subst; cbn [tok_to_datum atom_tok]; try (split; reflexivity).
  - destruct Hr as [H1 H2]. rewrite norm_rat_reduced by assumption. split; reflexivity.
  - apply sym_tok_spec, Hr.
Qed.

Definition head_ok (cur : frame) : Prop :=
  match head_ident cur with Some s => not_unq s | None => True end.

Lemma with_with : forall cur a b, with_exprs (with_exprs cur a) b = with_exprs cur (a ++ b).
Proof. intros. unfold with_exprs. cbn. rewrite app_assoc. reflexivity. Qed.
Lemma with_nil : forall cur, f_comment cur = 0%nat -> with_exprs cur [] = cur.
Proof. intros [p m es d c o] H. cbn in H. subst. unfold with_exprs. cbn. rewrite app_nil_r. reflexivity. Qed.

Lemma close_parent_ok : forall prev st, head_ok prev -> exists st1, close_parent prev st = (prev, st1).
Proof.
  intros prev st H. unfold close_parent, head_ok in *. destruct (head_ident prev) as [s|]; [|eexists; reflexivity].
  destruct H as [H1 H2]. rewrite H1, H2. destruct (text_eqb s s_quasiquote); eexists; reflexivity.
Qed.

Lemma p_list_open : forall tot f st stack cur last p m a b ts,
  p_list tot (S f) st stack cur last ((TOpen p m, a, b) :: ts)
  = p_list tot f st (cur :: stack) (new_frame p m (a, b)) (a, b) ts.
Proof. reflexivity. Qed.

Lemma p_list_close : forall tot f st stack cur last p a b ts,
  p_list tot (S f) st stack cur last ((TClose p, a, b) :: ts) =
  if negb (paren_eqb p (f_paren cur)) then PErr MismatchedParen (a, b) st
  else match stack with
       | prev :: stack' =>
         let '(prev1, st1) := close_parent prev st in
         let st2 := close_ctx (List.length stack') st1 in
         match build_expr cur with
         | inl sp => PErr SyntaxError sp st2
         | inr d =>
           match frame_push prev1 (PD d (match f_mod cur with None => true | Some _ => false end) (fst (f_open cur)) b) with
           | inl sp => PErr SyntaxError sp st2
           | inr prev2 => p_list tot f st2 stack' prev2 (a, b) ts
           end
         end
       | [] =>
         match build_expr cur with
         | inl sp => PErr SyntaxError sp (close_top_ctx st)
         | inr d => POk d (fst (f_open cur), b) b (close_top_ctx st) ts
         end
       end.
Proof. reflexivity. Qed.

Lemma p_list_close_nested : forall tot f st prev stack cur last a b ts d,
  f_paren cur = Round -> build_expr cur = inr d -> head_ok prev -> pushable prev ->
  exists st2, p_list tot (S f) st (prev :: stack) cur last ((TClose Round, a, b) :: ts)
    = p_list tot f st2 stack
        (push_expr prev (PD d (match f_mod cur with None => true | Some _ => false end) (fst (f_open cur)) b)) (a, b) ts.
Proof.
  intros tot f st prev stack cur last a b ts d Hp Hb Hh Hpu.
  destruct (close_parent_ok prev st Hh) as [st1 E1].
  rewrite p_list_close, Hp, E1, Hb, (frame_push_ok prev _ Hpu). eexists; reflexivity.
Qed.

Lemma p_list_close_top : forall tot f st cur last a b ts d,
  f_paren cur = Round -> build_expr cur = inr d ->
  exists st1, p_list tot (S f) st [] cur last ((TClose Round, a, b) :: ts) = POk d (fst (f_open cur), b) b st1 ts.
Proof.
  intros tot f st cur last a b ts d Hp Hb. rewrite p_list_close, Hp, Hb. eexists; reflexivity.
Qed.

(* from frame [cur] the parser consumes the tokens [toks] and goes on in a frame that satisfies [Q], whatever
   the spans of the tokens, what follows them, and the frames below.  The lemmas about it leave [Q] open and ask
   it of the frame they reach, so that no rule of consequence is needed *)
Definition Runs (toks : list tok) (cur : frame) (Q : frame -> Prop) : Prop :=
  forall tot ts1 ts2 f st stack last, map tokof ts1 = toks ->
  exists st' cur' last', Q cur' /\
    p_list tot (List.length ts1 + f) st stack cur last (ts1 ++ ts2) = p_list tot f st' stack cur' last' ts2.

Lemma Runs_nil : forall cur (Q : frame -> Prop), Q cur -> Runs [] cur Q.
Proof.
  intros cur Q H tot ts1 ts2 f st stack last Hm. apply map_eq_nil in Hm. subst ts1.
  exists st, cur, last. split; [exact H|reflexivity].
Qed.

Lemma Runs_app : forall ta tb cur (Q : frame -> Prop),
  Runs ta cur (fun c1 => Runs tb c1 Q) -> Runs (ta ++ tb) cur Q.
Proof.
  intros ta tb cur Q Ha tot ts ts2 f st stack last Hm.
  apply map_eq_app in Hm. destruct Hm as [t1 [t2 [-> [Hm1 Hm2]]]].
  destruct (Ha tot t1 (t2 ++ ts2) (List.length t2 + f)%nat st stack last Hm1) as [st1 [c1 [last1 [H1 E1]]]].
  destruct (H1 tot t2 ts2 f st1 stack last1 Hm2) as [st2 [c2 [last2 [H2 E2]]]].
  exists st2, c2, last2. split; [exact H2|]. rewrite app_length, <- app_assoc, <- Nat.add_assoc, E1. exact E2.
Qed.

Lemma Runs_atom : forall t cur (Q : frame -> Prop), atom_tok t = true ->
  (forall a b, exists cur', frame_push cur (PA t a b) = inr cur' /\ Q cur') -> Runs [t] cur Q.
Proof.
  intros t cur Q Ha H tot ts1 ts2 f st stack last Hm.
  destruct ts1 as [|[[t' a] b] [|]]; try discriminate. cbn in Hm. inversion Hm; subst t'.
  destruct (H a b) as [cur' [Hp HQ]]. destruct (p_list_atom tot f st stack cur cur' last t a b ts2 Ha Hp) as [st1 E].
  exists st1, cur', (a, b). auto.
Qed.

Lemma Runs_dot : forall cur (Q : frame -> Prop),
  f_dot cur = None -> f_exprs cur <> [] -> f_mod cur = None -> f_comment cur = 0%nat ->
  (forall sp, Q (mkFrame (f_paren cur) (f_mod cur) (f_exprs cur)
                         (Some (List.length (f_exprs cur), sp)) (f_comment cur) (f_open cur))) ->
  Runs [TDot] cur Q.
Proof.
  intros cur Q H1 H2 H3 H4 HQ tot ts1 ts2 f st stack last Hm.
  destruct ts1 as [|[[t a] b] [|]]; try discriminate. cbn in Hm. inversion Hm; subst t.
  eexists st, _, (a, b). split; [apply (HQ (a, b))|].
  cbn [List.length Nat.add app]. simpl p_list. rewrite H1, H3, H4. destruct (f_exprs cur); [congruence|reflexivity].
Qed.

Definition Parses (d : datum) : Prop := rep d -> forall cur (Q : frame -> Prop), pushable cur -> head_ok cur ->
  (forall e, pexpr_datum e = d -> Q (push_expr cur e)) -> Runs (tk_of d) cur Q.

(* only an identifier token makes the first expression of a frame its head, and its datum is that symbol *)
Lemma head_ok_data : forall cur l, hd_ok (map pexpr_datum (f_exprs cur) ++ l) -> head_ok cur.
Proof.
  intros cur l. unfold head_ok, head_ident. destruct (f_exprs cur) as [|[[]|] r]; try exact (fun _ => I). exact (fun H => H).
Qed.

Lemma pushable_push : forall cur e, pushable cur -> f_dot cur = None -> pushable (push_expr cur e).
Proof.
  intros cur e [H1 [H2 H3]] Hd. unfold pushable, push_expr, with_exprs. cbn. rewrite Hd. tauto.
Qed.

Lemma p_elems : forall l, Forall Parses l -> Forall rep l ->
  forall cur (Q : frame -> Prop), pushable cur -> f_dot cur = None -> hd_ok (map pexpr_datum (f_exprs cur) ++ l) ->
  (forall es, map pexpr_datum es = l -> Q (with_exprs cur es)) -> Runs (flat_map tk_of l) cur Q.
Proof.
  induction l as [|x l IH]; intros HP Hr cur Q Hpu Hdot Hhd HQ.
  - apply Runs_nil. rewrite <- (with_nil cur) by apply Hpu. apply HQ. reflexivity.
  - inversion HP as [|? ? HPx HPl]; subst. inversion Hr as [|? ? Hrx Hrl]; subst. cbn [flat_map].
    apply Runs_app, (HPx Hrx cur _ Hpu (head_ok_data _ _ Hhd)). intros e He.
    apply (IH HPl Hrl _ _ (pushable_push cur e Hpu Hdot) Hdot).
    + cbn [push_expr with_exprs f_exprs]. rewrite map_app, <- app_assoc. cbn [map app]. rewrite He. exact Hhd.
    + intros es Hes. unfold push_expr. rewrite with_with. apply (HQ (e :: es)). cbn [map]. rewrite He, Hes. reflexivity.
Qed.

Definition Body (d : datum) (m : option pmod) (body : list tok) : Prop :=
  forall sp, Runs body (new_frame Round m sp) (fun c => build_expr c = inr d /\ f_paren c = Round).

Definition mod_datum (m : option pmod) (l : list datum) : datum :=
  match m with None => DList l | Some _ => DVec l end.

Lemma p_body_list : forall l m, (m = None \/ m = Some PVector) -> Forall Parses l -> Forall rep l -> hd_ok l ->
  Body (mod_datum m l) m (flat_map tk_of l).
Proof.
  intros l m Hm HP Hr Hhd sp.
  assert (Hpu : pushable (new_frame Round m sp)).
  { unfold pushable, new_frame. cbn. split; [reflexivity|]. split; [|exact I]. destruct Hm; subst; discriminate. }
  apply (p_elems l HP Hr _ _ Hpu eq_refl Hhd). intros es Hes.
  split; [|reflexivity].
  unfold build_expr, with_exprs, new_frame. cbn. rewrite Hes.
  destruct Hm; subst; reflexivity.
Qed.

Lemma improper_pair : forall ea eb a b, pexpr_datum ea = a -> pexpr_datum eb = b ->
  match b with DList _ => False | _ => True end -> improper_of [ea; eb] = DPair a b.
Proof.
  intros ea eb a b Ha Hb Hnl. subst a b.
  destruct eb as [t x y|d il x y].
  - destruct ea as [? ? ?|? [|] ? ?]; reflexivity.
  - destruct il; [|destruct ea as [? ? ?|? [|] ? ?]; reflexivity].
    destruct ea as [? ? ?|? [|] ? ?]; cbn in *; destruct d; try reflexivity; contradiction.
Qed.

Lemma p_body_pair : forall a b, Parses a -> Parses b -> rep (DPair a b) ->
  Body (DPair a b) None (tk_of a ++ TDot :: tk_of b).
Proof.
  intros a b HPa HPb Hr sp. cbn [rep] in Hr. destruct Hr as [Hhd [Hra [Hrb Hnl]]].
  set (nf := new_frame Round None sp).
  assert (Hpu : pushable nf) by (unfold pushable, nf, new_frame; cbn; split; [reflexivity|split; [discriminate|exact I]]).
  apply Runs_app, (HPa Hra nf _ Hpu I). intros ea Hea.
  apply (Runs_app [TDot]), Runs_dot; [reflexivity|discriminate|reflexivity|reflexivity|]. intros spd.
  apply (HPb Hrb).
  - unfold pushable, push_expr, with_exprs, nf, new_frame; cbn; split; [reflexivity|split; [discriminate|reflexivity]].
  - apply (head_ok_data _ []). cbn. rewrite Hea. exact Hhd.
  - intros eb Heb. split; [|reflexivity].
    unfold build_expr, push_expr, with_exprs, nf, new_frame. cbn.
    apply f_equal. apply improper_pair; assumption.
Qed.

Lemma tok_byte_ok : forall b, b < 256 -> tok_byte (byte_tok b) = Some b.
Proof.
  intros b Hb. unfold tok_byte, byte_tok.
  assert (E : ((0 <=? Z.of_N b) && (Z.of_N b <=? 255))%Z = true).
  { apply andb_true_iff. split; apply Z.leb_le; lia. }
  rewrite E, N2Z.id. reflexivity.
Qed.

Lemma frame_push_byte : forall cur b a bb,
  f_mod cur = Some PBytes -> f_comment cur = 0%nat -> f_dot cur = None -> b < 256 ->
  frame_push cur (PA (byte_tok b) a bb) = inr (with_exprs cur [PA (byte_tok b) a bb]).
Proof.
  intros cur b a bb Hmod Hc Hd Hb. unfold frame_push. rewrite Hd, Hmod. cbn [negb].
  rewrite (tok_byte_ok b Hb). cbn [negb]. rewrite Hc. unfold with_exprs. rewrite Hmod, Hd. reflexivity.
Qed.

Lemma p_bytes : forall l, Forall (fun b => b < 256) l ->
  forall cur (Q : frame -> Prop), f_mod cur = Some PBytes -> f_comment cur = 0%nat -> f_dot cur = None ->
  (forall es, pexpr_bytes es = l -> Q (with_exprs cur es)) -> Runs (map byte_tok l) cur Q.
Proof.
  induction l as [|b l IH]; intros Hl cur Q Hmod Hc Hd HQ.
  - apply Runs_nil. rewrite <- (with_nil cur) by exact Hc. apply HQ. reflexivity.
  - inversion Hl as [|? ? Hb Hl']; subst.
    apply (Runs_app [byte_tok b]), Runs_atom; [reflexivity|]. intros a bb.
    eexists. split; [apply frame_push_byte; assumption|].
    apply (IH Hl'); [exact Hmod|reflexivity|exact Hd|]. intros es Hes. rewrite with_with. apply (HQ (PA (byte_tok b) a bb :: es)).
    cbn [pexpr_bytes flat_map]. rewrite (tok_byte_ok b Hb). cbn [app]. fold (pexpr_bytes es). rewrite Hes. reflexivity.
Qed.

Lemma p_body_bytes : forall l, Forall (fun b => b < 256) l -> Body (DBytes l) (Some PBytes) (map byte_tok l).
Proof.
  intros l Hl sp. apply (p_bytes l Hl); try reflexivity. intros es Hes.
  split; [|reflexivity]. unfold build_expr, with_exprs, new_frame. cbn [f_comment f_mod f_exprs app]. rewrite Hes. reflexivity.
Qed.

Lemma split_open_close : forall (ts : list stok) m body,
  map tokof ts = TOpen Round m :: body ++ [TClose Round] ->
  exists a b mid a' b', ts = (TOpen Round m, a, b) :: mid ++ [(TClose Round, a', b')] /\ map tokof mid = body.
Proof.
  intros ts m body H. destruct ts as [|[[t a] b] r]; [discriminate|]. cbn [map] in H. inversion H as [[Ht Hr]].
  cbn in Ht. subst t. apply map_eq_app in Hr. destruct Hr as [mid [c [E [Hmid Hc]]]]. subst r.
  destruct c as [|[[tc a'] b'] [|]]; try discriminate. cbn in Hc. inversion Hc as [Htc]. cbn in Htc. subst tc.
  exists a, b, mid, a', b'. split; [reflexivity|assumption].
Qed.

Lemma Parses_atom : forall d t, atom_toks d = Some t -> tk_of d = [t] -> Parses d.
Proof.
  intros d t Ha Htk Hr cur Q Hpu Hh HQ. destruct (atom_toks_datum d t Hr Ha) as [Hd Hat].
  rewrite Htk. apply Runs_atom; [exact Hat|].
  intros a b. exists (push_expr cur (PA t a b)). split; [apply frame_push_ok, Hpu|apply HQ, Hd].
Qed.

Lemma Parses_compound : forall d,
  (rep d -> exists m body, tk_of d = TOpen Round m :: body ++ [TClose Round] /\ Body d m body) -> Parses d.
Proof.
  intros d HB Hr cur Q Hpu Hh HQ tot ts1 ts2 f st stack last Hm.
  destruct (HB Hr) as [m [body [Htk HBody]]].
  rewrite Htk in Hm. destruct (split_open_close ts1 m body Hm) as [a [b [mid [a' [b' [E Hmid]]]]]]. subst ts1.
  destruct (HBody (a, b) tot mid (((TClose Round, a', b') :: nil) ++ ts2) (S f) st (cur :: stack) (a, b) Hmid)
    as [st1 [cur' [last1 [[Hb Hp] E1]]]].
  destruct (p_list_close_nested tot f st1 cur stack cur' last1 a' b' ts2 d Hp Hb Hh Hpu) as [st2 E2].
  eexists st2, _, (a', b'). split.
  - eapply (HQ (PD d _ _ _)). reflexivity.
  - match goal with |- p_list _ ?n _ _ _ _ _ = _ =>
      replace n with (S (List.length mid + S f))%nat by (cbn [List.length]; rewrite app_length; cbn [List.length]; lia) end.
    cbn [app]. eapply eq_trans; [apply p_list_open|]. rewrite <- app_assoc.
    eapply eq_trans; [exact E1|]. exact E2.
Qed.

Lemma compound_body : forall d,
  match d with DList l | DVec l => Forall Parses l | DPair a b => Parses a /\ Parses b | _ => True end ->
  is_compound d -> rep d ->
  exists m body, tk_of d = TOpen Round m :: body ++ [TClose Round] /\ Body d m body.
Proof.
  intros d HP Hc Hr. destruct d; try discriminate Hc; try contradiction Hr.
  - apply rep_list in Hr. exists None, (flat_map tk_of l). split; [reflexivity|apply (p_body_list l None); tauto].
  - exists None, (tk_of d1 ++ TDot :: tk_of d2). split; [reflexivity|apply p_body_pair; tauto].
  - apply rep_vec in Hr. exists (Some PVector), (flat_map tk_of l). split; [reflexivity|apply (p_body_list l (Some PVector)); tauto].
  - exists (Some PBytes), (map byte_tok l). split; [reflexivity|apply p_body_bytes, Hr].
Qed.

Lemma Parses_all : forall d, Parses d.
Proof.
  induction d using datum_nested_ind;
    try (eapply Parses_atom; reflexivity);   (* the atoms *)
    try (intros []; fail);                   (* DOpaque, DBad: not representable *)
    (apply Parses_compound, compound_body; [auto|reflexivity]).
Qed.

Lemma p_top_open : forall tot f st p m a b ts,
  p_top tot (S f) st [] ((TOpen p m, a, b) :: ts)
  = p_list tot f (st_set_qs false st) [] (new_frame p m (a, b)) (a, b) ts.
Proof.
  intros. simpl p_top. destruct (p_list tot f (st_set_qs false st) [] (new_frame p m (a, b)) (a, b) ts); reflexivity.
Qed.

Lemma p_next_pst0 : forall tot f ts, p_next tot (S f) pst0 ts = p_top tot f pst0 [] ts.
Proof. reflexivity. Qed.

Lemma parse_compound : forall d m body tot (ts ts0 : list stok) (x : stok),
  tk_of d = TOpen Round m :: body ++ [TClose Round] -> Body d m body ->
  map tokof ts = tk_of d -> ts = ts0 ++ [x] ->
  exists sp st', p_next tot (parse_fuel ts) pst0 ts = POk d sp (snd x) st' [].
Proof.
  intros d m body tot ts ts0 x Htk HB Hm Hx. rewrite Htk in Hm.
  destruct (split_open_close ts m body Hm) as [a [b [mid [a' [b' [E Hmid]]]]]].
  assert (Hxc : x = (TClose Round, a', b')).
  { rewrite E in Hx. change ((TOpen Round m, a, b) :: mid ++ [(TClose Round, a', b')])
      with (((TOpen Round m, a, b) :: mid) ++ [(TClose Round, a', b')]) in Hx.
    apply app_inj_tail in Hx. destruct Hx as [_ Hx]. symmetry. exact Hx. }
  subst x. cbn [snd]. clear Hx. subst ts.
  destruct (HB (a, b) tot mid [(TClose Round, a', b')] (S (List.length mid + 5)) (st_set_qs false pst0) [] (a, b) Hmid)
    as [st1 [cur' [last1 [[Hb Hp] E1]]]].
  destruct (p_list_close_top tot (List.length mid + 5) st1 cur' last1 a' b' [] d Hp Hb) as [st2 E2].
  exists (fst (f_open cur'), b'), st2.
  assert (Hfuel : parse_fuel ((TOpen Round m, a, b) :: mid ++ [(TClose Round, a', b')])
                  = (S (S (List.length mid + S (List.length mid + 5))))%nat).
  { unfold parse_fuel. cbn [List.length]. rewrite app_length. cbn [List.length]. lia. }
  rewrite Hfuel.
  rewrite p_next_pst0, p_top_open. eapply eq_trans; [exact E1|]. exact E2.
Qed.

Lemma no_bad_elems : forall l,
  Forall (fun d => rep d -> has_bad d = false) l -> Forall rep l -> existsb has_bad l = false.
Proof.
  induction 1 as [|x l Hx _ IH]; intros Hr; [reflexivity|]. inversion Hr; subst.
  cbn [existsb]. rewrite Hx, IH by assumption. reflexivity.
Qed.

Lemma rep_no_bad : forall d, rep d -> has_bad d = false.
Proof.
  induction d using datum_nested_ind; intros Hr; try reflexivity; try contradiction Hr; cbn [has_bad].
  - apply no_bad_elems, rep_list, Hr. exact H.
  - destruct Hr as [_ [Ha [Hb _]]]. rewrite IHd1, IHd2 by assumption. reflexivity.
  - apply no_bad_elems, rep_vec, Hr. exact H.
Qed.

(* the parser's half of the round trip, atoms included: a token list that spells the datum reads back as it *)
Lemma read_tokens_datum : forall d tot (ts ts0 : list stok) (x : stok),
  rep d -> map tokof ts = tk_of d -> ts = ts0 ++ [x] -> read_tokens tot ts = ROk d (snd x).
Proof.
  intros d tot ts ts0 x Hr Hm Hx. unfold read_tokens. destruct (atom_toks d) as [tk|] eqn:Ea.
  - destruct (atom_toks_datum d tk Hr Ea) as [<- Hat].
    assert (Htk : tk_of (tok_to_datum tk) = [tk]) by (destruct (tok_to_datum tk); inversion Ea; reflexivity).
    rewrite Htk in Hm. subst ts. destruct ts0 as [|y [|z ts0]]; try discriminate Hm. destruct x as [[t a] b].
    injection Hm as <-. pose proof (rep_no_bad _ Hr) as Hb. cbn [tokof fst] in *.
    destruct t; try discriminate Hat; simpl; simpl in Hb; rewrite ?Hb; reflexivity.
  - destruct (compound_body d) as [m [body [Htk HB]]]; try assumption.
    { destruct d; try exact I; try (apply Forall_forall; intros; apply Parses_all). split; apply Parses_all. }
    destruct (parse_compound d m body tot ts ts0 x Htk HB Hm Hx) as [sp [st' E]].
    rewrite E, (rep_no_bad d Hr). reflexivity.
Qed.
