(* C12 — the property theorems; Pins_C12.v, compiled on every run, checks each statement again and prints its
   assumptions.  [pr] is Rust's "prints unescaped" predicate (char::escape_debug): the theorems hold for every such
   predicate.  [read_first] = lexer + flat parser + conversion on the whole text; ROk d 0 = the datum d was read
   and the whole text was consumed. *)
From Coq Require Import NArith ZArith List Bool Ascii String Lia.
From SV Require Import c12.Model_C12 c12.Proofs_C12 c12.Proofs_C12_Parse c12.Proofs_C12_ReadWrite c12.Proofs_C12_Total.
Import ListNotations.
Open Scope N_scope.

(* below the writer's nesting limit (F14) `write` is the unbounded external representation *)
Theorem write_within_limit : forall pr d, (height d <= 128)%nat -> write pr d = write_u pr d.
Proof. intros. unfold write. apply write_k_enough. assumption. Qed.

(* the two halves of the round trip: the lexer yields the datum's tokens, the flat parser rebuilds the datum *)
Theorem lex_written_datum : forall pr d, rep d ->
  forall t fuel, delim_start t -> (List.length (write_u pr d ++ t) < fuel)%nat ->
  exists (ts : list stok) (x : stok),
    map tokof (ts ++ [x]) = tk_of d /\ snd x = blen t /\
    (List.length (ts ++ [x]) <= List.length (write_u pr d))%nat /\
    lex_all fuel (write_u pr d ++ t) = option_map (app (ts ++ [x])) (lex_all (fuel - List.length (ts ++ [x])) t).
Proof. exact Written_all. Qed.

Theorem parse_tokens_of_datum : forall d tot (ts ts0 : list stok) (x : stok),
  rep d -> is_compound d -> map tokof ts = tk_of d -> ts = ts0 ++ [x] ->
  read_tokens tot ts = ROk d (snd x).
Proof.
  intros d tot ts ts0 x Hr _. apply read_tokens_datum, Hr.
Qed.

(* THE round trip, by structural induction on the datum: nested proper lists, dotted pairs, vectors, byte vectors,
   quotation forms, over every exact atom.  [rep d] (Proofs_C12_Parse.v) leaves out: floats; the symbols that are
   empty, contain a delimiter, `\` or `|` (needing bars, F8), start with a digit, `#`, `+`, `-` or `.` (left out
   as a class: some of them do read back), or are one of `fn`, `defn`, `λ` which the lexer turns into the keywords
   lambda / define; a list / vector / pair headed by unquote or unquote-splicing (known finding); a pair whose cdr is a
   proper list (not a value: cons onto a list is a list); and what is not a value at all (code points that are
   not Unicode scalar values, rationals not in lowest terms or with denominator 1, bytes above 255).  The reader's
   fuel is its own length-based bound (read_first), and the result ROk excludes out-of-fuel. *)
Theorem read_write : forall pr d, rep d -> (height d <= 128)%nat -> read_first (write pr d) = ROk d 0.
Proof.
  intros pr d Hr Hh. rewrite write_within_limit by exact Hh.
  unfold read_first, lex. rewrite (strip_shebang_written pr d Hr).
  set (w := write_u pr d).
  destruct (Written_all pr d Hr [] (S (List.length w)) I) as [ts [x [H1 [H2 [H3 H4]]]]].
  { rewrite app_nil_r. fold w. lia. }
  rewrite app_nil_r in H4. fold w in H3, H4. rewrite H4.
  destruct (S (List.length w) - List.length (ts ++ [x]))%nat as [|k] eqn:Ek; [lia|].
  cbn [lex_all lex_one skip_ws option_map]. rewrite app_nil_r.
  rewrite (read_tokens_datum d (blen w) (ts ++ [x]) ts x Hr H1 eq_refl). rewrite H2. reflexivity.
Qed.

(* every atomic datum except rationals *)
Theorem read_write_atom : forall pr d, atom_representable d -> read_first (write pr d) = ROk d 0.
Proof. intros pr d H. destruct d; try contradiction H; (apply read_write; [exact H|cbn; lia]). Qed.

(* strings: every sequence of Unicode scalar values, whatever the writer escapes *)
Theorem string_escape_roundtrip : forall pr s,
  Forall (fun c => valid_scalar c = true) s -> read_first (write_string pr s) = ROk (DStr s) 0.
Proof. intros pr s Hs. exact (read_write_atom pr (DStr s) Hs). Qed.

(* ... also in the middle of a text: the token is the string, lexing resumes right after the closing quote *)
Theorem string_escape_roundtrip_lex : forall pr s t fuel,
  Forall (fun c => valid_scalar c = true) s -> (List.length s < fuel)%nat ->
  lex_one fuel (write_string pr s ++ t) = LToks [TStr s] (write_string pr s ++ t) t.
Proof. exact string_roundtrip_lex. Qed.

Theorem char_roundtrip : forall pr c,
  valid_scalar c = true -> read_first (write_char pr c) = ROk (DChar c) 0.
Proof. intros pr c Hc. exact (read_write_atom pr (DChar c) Hc). Qed.

Theorem char_roundtrip_lex : forall pr c t fuel,
  valid_scalar c = true -> delim_start t ->
  lex_one fuel (write_char pr c ++ t) = LToks [TChar c] (write_char pr c ++ t) t.
Proof. exact Proofs_C12.char_roundtrip_lex. Qed.

(* exact integers of any magnitude *)
Theorem integer_roundtrip : forall z, read_first (write_int z) = ROk (DInt z) 0.
Proof. intros z. exact (read_write_atom pr_ascii (DInt z) I). Qed.

Theorem integer_roundtrip_lex : forall z t fuel,
  delim_start t -> lex_one fuel (write_int z ++ t) = LToks [TNum (NInt z)] (write_int z ++ t) t.
Proof. intros z t fuel. apply plain_number_lex; [apply write_int_plain|apply parse_number_int]. Qed.

(* symbols outside the known class F8 (no bar quoting in the writer) *)
Theorem symbol_roundtrip : forall s, sym_plain s = true -> read_first s = ROk (DSym s) 0.
Proof. intros s Hs. exact (read_write_atom pr_ascii (DSym s) Hs). Qed.

Theorem symbol_refuted : exists s, read_first (write pr_ascii (DSym s)) <> ROk (DSym s) 0.
Proof. exists (cps "a b"). vm_compute. discriminate. Qed.

(* exact rationals n/d (reduced, d > 1) of any magnitude *)
Theorem number_roundtrip_rational : forall n d,
  (1 < d)%Z -> Z.gcd n d = 1%Z -> read_first (write_rat n d) = ROk (DRat n d) 0.
Proof. intros n d Hd Hg. apply (read_write pr_ascii (DRat n d) (conj Hd Hg)). cbn. lia. Qed.

Theorem rational_roundtrip_lex : forall n p t fuel,
  delim_start t ->
  lex_one fuel ((write_int n ++ 47 :: write_nat (N.pos p)) ++ t)
  = LToks [TNum (NRat n (Z.pos p))] ((write_int n ++ 47 :: write_nat (N.pos p)) ++ t) t.
Proof. intros n p t fuel. apply plain_number_lex; [apply rat_plain|apply parse_number_rat]. Qed.

(* at the limit the written text is elided and cannot be read back; one level below it can *)
Theorem depth_refuted : read_first (write pr_ascii (nest 128 (DInt 1))) <> ROk (nest 128 (DInt 1)) 0.
Proof. vm_compute. discriminate. Qed.

Theorem depth_limit_ok : read_first (write pr_ascii (nest 127 (DInt 1))) = ROk (nest 127 (DInt 1)) 0.
Proof. apply read_write; [apply rep_nest; exact I|rewrite height_nest; apply le_n]. Qed.

(* quotation forms built as data: the reader renames an unquote head (known finding) *)
Theorem unquote_refuted : read_first (write pr_ascii unquote_witness) <> ROk unquote_witness 0.
Proof. vm_compute. discriminate. Qed.

(* the reader fails itself (debug assertion) on a 9-character text (known finding) *)
Theorem reader_panic_witness : read_first (cps "'(quote x") = RPanic.
Proof. vm_compute. reflexivity. Qed.

(* totality of the lexer and soundness of every reported source location, for ALL texts (lists of code points):
   with its own length-based fuel the lexer never runs out (lex s = Some ..), and every token / error span (a, b),
   given as byte lengths of the remaining suffix at token start / end, satisfies b <= a <= blen s, i.e. the
   absolute offsets  blen s - a <= blen s - b <= blen s  lie inside the text *)
Theorem lex_total : forall s, exists ts, lex s = Some ts /\ Forall (span_ok (blen s)) ts.
Proof.
  intros s. unfold lex. pose proof (strip_shebang_suffix s) as Hs.
  destruct (lex_all_ok (S (List.length s)) (strip_shebang s)) as [ts [E H]].
  { pose proof (suffix_length _ _ Hs). lia. }
  exists ts. split; [exact E|]. eapply span_ok_weaken; [|exact H]. apply suffix_blen. exact Hs.
Qed.

(* one step of the lexer: what it consumes is a prefix of the text after leading whitespace, at least one
   character per token (so the token stream is finite), errors included *)
Theorem lex_one_total : forall fuel s0, (List.length s0 < fuel)%nat -> lstep_ok s0 (lex_one fuel s0).
Proof. exact lex_one_ok. Qed.

(* non-vacuity / compound data: one nested datum with every kind *)
Example C12_nonvacuous : read_first (write pr_ascii sample_datum) = ROk sample_datum 0.
Proof. vm_compute. reflexivity. Qed.
