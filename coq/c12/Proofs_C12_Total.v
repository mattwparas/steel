(* C12 — behind Properties_C12.lex_total ([lex_one_ok], [lex_all_ok]): the model lexer returns on every text (its
   length-based fuel never runs out) and every span it reports lies inside the text. *)
From Coq Require Import NArith List Bool Lia.
From SV Require Import c12.Model_C12.
Import ListNotations.
Open Scope N_scope.

Definition suffix (r s : text) : Prop := exists p, s = p ++ r.

Lemma suffix_refl : forall s, suffix s s. Proof. intros s. exists []. reflexivity. Qed.
Lemma suffix_nil : forall s, suffix [] s. Proof. intros s. exists s. rewrite app_nil_r. reflexivity. Qed.
Lemma suffix_tl : forall r c s, suffix r s -> suffix r (c :: s).
Proof. intros r c s [p E]. exists (c :: p). subst. reflexivity. Qed.
Lemma suffix_trans : forall a b c, suffix a b -> suffix b c -> suffix a c.
Proof. intros a b c [p E] [q F]. exists (q ++ p). subst. rewrite app_assoc. reflexivity. Qed.
Lemma suffix_length : forall r s, suffix r s -> (List.length r <= List.length s)%nat.
Proof. intros r s [p E]. subst. rewrite app_length. lia. Qed.
Lemma blen_app : forall a b, blen (a ++ b) = blen a + blen b.
Proof. induction a as [|c a IH]; intros b; cbn [app blen]; [reflexivity|]. rewrite IH. lia. Qed.
Lemma suffix_blen : forall r s, suffix r s -> blen r <= blen s.
Proof. intros r s [p E]. subst. rewrite blen_app. lia. Qed.
Lemma utf8_len_pos : forall c, 1 <= utf8_len c.
Proof. intros c. unfold utf8_len. repeat match goal with |- context [if ?b then _ else _] => destruct b end; lia. Qed.

Definition sp_ok (bound : N) (sp : option (N * N)) : Prop :=
  match sp with Some (a, b) => b <= a /\ a <= bound | None => True end.

(* what a scanner started on [s] may return: a suffix of [s]; an explicit error span starts at most one byte
   before [s] (at the backslash or `#` that introduced the scanner) *)
Definition sres_ok {A} (s : text) (r : sres A) : Prop :=
  match r with
  | SOk _ rest => suffix rest s
  | SErr _ rest sp => suffix rest s /\ sp_ok (blen s + 1) sp
  | SFuel => False
  end.

Lemma ok_SOk : forall A s (a : A) rest, suffix rest s -> sres_ok s (SOk a rest).
Proof. intros. assumption. Qed.
Lemma ok_SErr_None : forall A s e rest, suffix rest s -> @sres_ok A s (SErr e rest None).
Proof. intros. split; [assumption|exact I]. Qed.
Lemma ok_SErr : forall A s e rest a b,
  suffix rest s -> b <= a -> a <= blen s + 1 -> @sres_ok A s (SErr e rest (Some (a, b))).
Proof. intros. split; [assumption|split; assumption]. Qed.

Lemma ok_if : forall A s (b : bool) (x y : sres A),
  sres_ok s x -> sres_ok s y -> sres_ok s (if b then x else y).
Proof. intros A s [|]; auto. Qed.

#[local] Hint Resolve suffix_refl suffix_nil suffix_tl suffix_trans ok_SOk ok_SErr_None : sfx.

Lemma sp_ok_weaken : forall b1 b2 sp, b1 <= b2 -> sp_ok b1 sp -> sp_ok b2 sp.
Proof. intros b1 b2 [[a b]|] H; cbn; [lia|auto]. Qed.

Lemma sres_ok_suffix : forall A s1 s2 (r : sres A), suffix s1 s2 -> sres_ok s1 r -> sres_ok s2 r.
Proof.
  intros A s1 s2 r Hs H. destruct r as [a rest|e rest sp|]; cbn in *; eauto with sfx.
  destruct H as [H1 H2]. split; [eauto with sfx|]. apply (sp_ok_weaken (blen s1 + 1)); [|exact H2].
  pose proof (suffix_blen _ _ Hs). lia.
Qed.

Lemma sres_ok_tl : forall A c s (r : sres A), sres_ok s r -> sres_ok (c :: s) r.
Proof. intros A c s r. apply sres_ok_suffix. auto with sfx. Qed.

(* [match x with K => a | _ => b end] for a numeral K is a nest of matches on the bits of x, the one that
   [pos_match K] unfolds to: it is a test with N.eqb, for every K at once.  Used as
   [setoid_rewrite (lit_match_eqb K)]: its unification unfolds [pos_match K], that of [rewrite] does not. *)
Fixpoint pos_match {A} (k p : positive) (a b : A) : A :=
  match k, p with
  | xH, xH => a
  | xI k', xI p' | xO k', xO p' => pos_match k' p' a b
  | _, _ => b
  end.

Lemma lit_match_eqb : forall {A} k x (a b : A),
  match x with N0 => b | Npos p => pos_match k p a b end = if x =? Npos k then a else b.
Proof.
  intros A k [|p] a b; [reflexivity|]. cbn [N.eqb]. revert p.
  induction k as [k IH|k IH|]; intros [p|p|]; cbn [pos_match Pos.eqb]; auto.
Qed.

Lemma hex_loop_suffix : forall s end_c delim acc v ds r, hex_loop s end_c delim acc = Some (v, ds, r) -> suffix r s.
Proof.
  induction s as [|c s IH]; intros end_c delim acc v ds r H; cbn [hex_loop] in H; [discriminate|].
  destruct (c =? end_c); [inversion H; subst; auto with sfx|].
  destruct (is_hex_break c || (c =? delim)); [inversion H; subst; auto with sfx|].
  apply suffix_tl, (IH _ _ _ _ _ _ H).
Qed.

Lemma esc_ws_loop_ok : forall inc s tr, sres_ok s (esc_ws_loop inc s tr).
Proof.
  induction s as [|c s IH]; intros tr; cbn [esc_ws_loop]; [auto with sfx|].
  destruct ((c =? 32) || (c =? 9)); [apply sres_ok_tl, IH|].
  destruct ((c =? 10) && negb tr); [apply sres_ok_tl, IH|].
  destruct tr; [auto with sfx|]. apply ok_SErr; [auto with sfx| |lia]. cbn [blen]. pose proof (utf8_len_pos c). lia.
Qed.

(* after the backslash: error spans may start at the backslash, one byte before s *)
Lemma read_string_escape_ok : forall inc delim s, sres_ok s (read_string_escape inc delim s).
Proof.
  intros inc delim s. unfold read_string_escape. destruct s as [|c s']; [auto with sfx|].
  do 9 (apply ok_if; [auto with sfx|]).   (* the one-character escapes *)
  pose proof (utf8_len_pos c) as Hu.
  destruct ((c =? 120) || (c =? 117)).
  - set (p := match s' with
              | 123 :: s'' => if c =? 117 then (125, s'') else (59, s')
              | _ => (59, s')
              end).
    assert (Hp : suffix (snd p) s').
    { unfold p. destruct s' as [|x s'']; [auto with sfx|]. setoid_rewrite (lit_match_eqb 123).
      destruct (x =? 123); [destruct (c =? 117)|]; cbn [snd]; auto with sfx. }
    destruct p as [end_c s2]. cbn [snd] in Hp. cbv beta iota.
    destruct (hex_loop s2 end_c delim []) as [[[v ds] r]|] eqn:E; [|auto with sfx].
    assert (Hrs0 : suffix r s') by (eapply suffix_trans; [apply (hex_loop_suffix _ _ _ _ _ _ _ E)|exact Hp]).
    assert (Hrs : suffix r (c :: s')) by (apply suffix_tl, Hrs0).
    pose proof (suffix_blen _ _ Hrs0) as Hb.
    destruct v; [destruct (u32_from_hex ds) as [n|]; [destruct (valid_scalar n)|]|];
      try (apply ok_SErr; [assumption|cbn [blen]; lia|lia]). exact Hrs.
  - destruct ((c =? 32) || (c =? 9) || (c =? 10)).
    + apply sres_ok_tl, esc_ws_loop_ok.
    + apply ok_SErr; [auto with sfx| |lia]. cbn [blen]. lia.
Qed.

Lemma after_escape_ok : forall {A} inc delim c s' (k : option N -> text -> sres A),
  (forall oc r, suffix r s' -> sres_ok r (k oc r)) ->
  sres_ok (c :: s')
    match read_string_escape inc delim s' with
    | SOk oc r => k oc r
    | SErr e r sp => SErr e r sp
    | SFuel => SFuel
    end.
Proof.
  intros A inc delim c s' k Hk. pose proof (read_string_escape_ok inc delim s') as He.
  destruct (read_string_escape inc delim s') as [oc r|e r sp|];
    [apply (sres_ok_suffix _ r); [cbn in He; auto with sfx|apply Hk, He]|apply sres_ok_tl, He|contradiction].
Qed.

Lemma read_string_ok : forall fuel s acc, (List.length s < fuel)%nat -> sres_ok s (read_string fuel s acc).
Proof.
  induction fuel as [|f IH]; intros s acc Hf; [lia|]. cbn [read_string].
  destruct s as [|c s']; [auto with sfx|]. cbn [List.length] in Hf.
  destruct (c =? 34); [auto with sfx|].
  destruct (c =? 92).
  - apply after_escape_ok.
    intros oc r Hr. pose proof (suffix_length _ _ Hr). destruct oc; apply IH; lia.
  - apply sres_ok_tl, IH. lia.
Qed.

Lemma word_plain_suffix : forall s acc, suffix (snd (word_plain s acc)) s.
Proof.
  fix IH 1. intros s acc. destruct s as [|c s']; cbn [word_plain]; [cbn; auto with sfx|].
  destruct (is_word_break c); [cbn; auto with sfx|].
  destruct (c =? 92).
  - destruct s' as [|d s'']; [cbn; auto with sfx|]. apply suffix_tl, suffix_tl. apply IH.
  - apply suffix_tl. apply IH.
Qed.

Lemma word_plain_progress : forall c s' acc, is_word_break c = false -> suffix (snd (word_plain (c :: s') acc)) s'.
Proof.
  intros c s' acc Hwb. cbn [word_plain]. rewrite Hwb. destruct (c =? 92); [|apply word_plain_suffix].
  destruct s' as [|d s'']; [cbn; auto with sfx|apply suffix_tl, word_plain_suffix].
Qed.

Lemma word_esc_ok : forall fuel s acc ident esc, (List.length s < fuel)%nat ->
  sres_ok s (word_esc fuel s acc ident esc).
Proof.
  induction fuel as [|f IH]; intros s acc ident esc Hf; [lia|]. cbn [word_esc].
  destruct s as [|c s']; [auto with sfx|]. cbn [List.length] in Hf.
  destruct (c =? 124); [auto with sfx|].
  destruct (c =? 92).
  - apply after_escape_ok.
    intros oc r Hr. pose proof (suffix_length _ _ Hr). apply IH. lia.
  - apply sres_ok_tl, IH. lia.
Qed.

Lemma read_word_plain_ok : forall s s0 acc, suffix (snd (word_plain s acc)) s0 -> sres_ok s0 (read_word_plain s acc).
Proof.
  intros s s0 acc H. unfold read_word_plain. destruct (word_plain s acc) as [acc' r]. cbn [snd] in H.
  destruct (classify_word (rev acc') false [] false); auto with sfx.
Qed.

(* the |..| arm of read_word, after the opening bar *)
Lemma read_word_esc_ok : forall fuel s' acc, (List.length s' < fuel)%nat ->
  sres_ok s'
    match word_esc fuel s' (124 :: acc) [] false with
    | SOk (acc', ident, escaped) r =>
      match classify_word (rev acc') true ident escaped with
      | Some ts => SOk ts r
      | None => SErr IncompleteIdentifier r None
      end
    | SErr e r sp => SErr e r sp
    | SFuel => SFuel
    end.
Proof.
  intros fuel s' acc Hl. pose proof (word_esc_ok fuel s' (124 :: acc) [] false Hl) as H.
  destruct (word_esc fuel s' (124 :: acc) [] false) as [[[acc' ident] escaped] r|e r sp|]; [|exact H|exact H].
  cbn [sres_ok] in H. destruct (classify_word (rev acc') true ident escaped); auto with sfx.
Qed.

Lemma read_word_ok : forall fuel s acc, (List.length s < fuel)%nat -> sres_ok s (read_word fuel s acc).
Proof.
  intros fuel s acc Hf. unfold read_word.
  destruct s as [|c s']; [|destruct (c =? 124)]; try apply read_word_plain_ok, word_plain_suffix.
  cbn [List.length] in Hf. apply sres_ok_tl, read_word_esc_ok. lia.
Qed.

Lemma read_word_progress : forall fuel c s' acc,
  is_word_break c = false -> (List.length (c :: s') < fuel)%nat ->
  sres_ok s' (read_word fuel (c :: s') acc).
Proof.
  intros fuel c s' acc Hwb Hf. unfold read_word. cbn [List.length] in Hf.
  destruct (c =? 124); [apply read_word_esc_ok; lia|apply read_word_plain_ok, word_plain_progress, Hwb].
Qed.

Lemma finish_number_ok : forall fuel s acc, (List.length s < fuel)%nat -> sres_ok s (finish_number fuel s acc).
Proof.
  intros fuel s acc Hf. unfold finish_number. destruct (parse_number (rev acc)); auto with sfx.
  apply read_word_ok. exact Hf.
Qed.

Lemma read_number_ok : forall fuel s acc, (List.length s < fuel)%nat -> sres_ok s (read_number fuel s acc).
Proof.
  intros fuel. induction s as [|c s IH]; intros acc Hf; cbn [read_number].
  - apply finish_number_ok. exact Hf.
  - destruct (is_numberish c).
    + cbn [List.length] in Hf. apply sres_ok_tl, IH. lia.
    + destruct (mem c [c_lparen; c_rparen; c_lbrack; c_rbrack] || is_ws c); [apply finish_number_ok|apply read_word_ok]; exact Hf.
Qed.

Lemma hash_scan_suffix : forall s acc, suffix (snd (hash_scan s acc)) s.
Proof.
  fix IH 1. intros s acc. destruct s as [|c s']; cbn [hash_scan]; [cbn; auto with sfx|].
  destruct (c =? 92).
  { destruct s' as [|d s'']; [cbn; auto with sfx|]. apply suffix_tl, suffix_tl. apply IH. }
  destruct ((c =? 39) || (c =? 96)); [cbn; auto with sfx|].
  destruct (c =? 44).
  { destruct s' as [|x s'']; [cbn; auto with sfx|]. setoid_rewrite (lit_match_eqb 64). destruct (x =? 64); cbn; auto with sfx. }
  destruct (mem c [c_lparen; c_lbrack; c_rparen; c_rbrack] || is_ws c); [cbn; auto with sfx|].
  apply suffix_tl. apply IH.
Qed.

(* s = the text after the `#`: error spans may start at the `#` *)
Lemma read_hash_value_ok : forall fuel s, (List.length s < fuel)%nat -> sres_ok s (read_hash_value fuel s).
Proof.
  intros fuel s Hf. unfold read_hash_value. pose proof (hash_scan_suffix s [c_hash]) as Hs.
  destruct (hash_scan s [c_hash]) as [acc r]. cbn [snd] in Hs.
  assert (Hrw : sres_ok s (read_word fuel r acc)).
  { apply (sres_ok_suffix _ r); [exact Hs|apply read_word_ok]. pose proof (suffix_length _ _ Hs). lia. }
  do 7 (apply ok_if; [auto with sfx|]).   (* the fixed spellings and #: keywords *)
  destruct (starts_with [c_hash; c_bslash] (rev acc)).
  - destruct (skipn 2 (rev acc)); [auto with sfx|].
    destruct (parse_char (n :: l)); [|auto with sfx].
    apply ok_SErr; [assumption| |lia]. pose proof (suffix_blen _ _ Hs). lia.
  - destruct r as [|x r']; [exact Hrw|]. setoid_rewrite (lit_match_eqb 40). destruct (x =? 40); [|exact Hrw].
    assert (Hr' : suffix r' s) by (eapply suffix_trans; [|exact Hs]; auto with sfx).
    do 2 (apply ok_if; [auto with sfx|]). exact Hrw.
Qed.

Lemma rest_of_line_suffix : forall s, suffix (rest_of_line s) s.
Proof. induction s as [|c s IH]; cbn [rest_of_line]; [auto with sfx|]. destruct (c =? 10); auto with sfx. Qed.

Lemma nest_comment_suffix : forall s d r, nest_comment s d = Some r -> suffix r s.
Proof.
  fix IH 1. intros [|c s'] d r; cbn [nest_comment]; [discriminate|].
  assert (IH1 : forall d r, nest_comment s' d = Some r -> suffix r (c :: s'))
    by (intros d0 r0 H0; apply suffix_tl, (IH _ _ _ H0)).
  destruct (c =? 124).
  { destruct s' as [|x s'']; [apply IH1|]. setoid_rewrite (lit_match_eqb 35). destruct (x =? 35); [|apply IH1].
    destruct d as [|[|d']]; intros H; try (inversion H; subst; auto with sfx).
    apply suffix_tl, suffix_tl, (IH _ _ _ H). }
  destruct (c =? 35); [|apply IH1].
  destruct s' as [|x s'']; [apply IH1|]. setoid_rewrite (lit_match_eqb 124).
  destruct (x =? 124); [intros H; apply suffix_tl, suffix_tl, (IH _ _ _ H)|apply IH1].
Qed.

Lemma here_delim_ok : forall s acc, sres_ok s (here_delim s acc).
Proof.
  induction s as [|c s IH]; intros acc; cbn [here_delim]; [auto with sfx|].
  destruct (c =? 10); [auto with sfx|].
  destruct (c =? 13); [apply sres_ok_tl, IH|].
  destruct (is_ws c); [auto with sfx|apply sres_ok_tl, IH].
Qed.

Lemma here_body_ok : forall s rd buf, sres_ok s (here_body s rd buf).
Proof.
  induction s as [|c s IH]; intros rd buf; cbn [here_body]; [auto with sfx|].
  destruct (starts_with rd (c :: buf)); [auto with sfx|apply sres_ok_tl, IH].
Qed.

Lemma skip_ws_suffix : forall s, suffix (skip_ws s) s.
Proof. induction s as [|c s IH]; cbn [skip_ws]; [auto with sfx|]. destruct (is_ws c); auto with sfx. Qed.
Lemma skip_ws_head : forall s c s', skip_ws s = c :: s' -> is_ws c = false.
Proof.
  induction s as [|x s IH]; intros c s' H; cbn [skip_ws] in H; [discriminate|].
  destruct (is_ws x) eqn:E; [apply (IH _ _ H)|]. inversion H; subst. exact E.
Qed.

Definition lstep_ok (s : text) (r : lstep) : Prop :=
  match r with
  | LEof => True
  | LToks _ start rest => exists c s', start = c :: s' /\ suffix start s /\ suffix rest s'
  | LErr _ start rest sp => exists c s', start = c :: s' /\ suffix start s /\ suffix rest start /\ sp_ok (blen start) sp
  | LFuel => False
  end.

Lemma lstep_if : forall s (b : bool) x y,
  lstep_ok s x -> (b = false -> lstep_ok s y) -> lstep_ok s (if b then x else y).
Proof. intros s [|] x y Hx Hy; [exact Hx|exact (Hy eq_refl)]. Qed.

(* a scanner started inside the token that begins at [c :: s'], and what the lexer makes of its result *)
Lemma sres_lstep_ok : forall {A} s c s' s_in (r : sres A) (k : A -> text -> lstep),
  suffix (c :: s') s -> suffix s_in s' -> sres_ok s_in r ->
  (forall a rest, suffix rest s' -> lstep_ok s (k a rest)) ->
  lstep_ok s match r with SOk a rest => k a rest | SErr e rest sp => LErr e (c :: s') rest sp | SFuel => LFuel end.
Proof.
  intros A s c s' s_in r k Hst Hin H Hk. destruct r as [a rest|e rest sp|]; unfold sres_ok in H.
  - apply Hk. eapply suffix_trans; eassumption.
  - destruct H as [H1 H2]. exists c, s'. split; [reflexivity|]. split; [assumption|].
    split; [apply suffix_tl; eapply suffix_trans; eassumption|apply (sp_ok_weaken (blen s_in + 1)); [|exact H2]].
    pose proof (suffix_blen _ _ Hin). pose proof (utf8_len_pos c). cbn [blen]. lia.
  - contradiction.
Qed.

Lemma lex_one_ok : forall fuel s0, (List.length s0 < fuel)%nat -> lstep_ok s0 (lex_one fuel s0).
Proof.
  intros fuel s0 Hf. unfold lex_one. pose proof (skip_ws_suffix s0) as Hsk.
  destruct (skip_ws s0) as [|c s'] eqn:Es; [exact I|].
  pose proof (skip_ws_head _ _ _ Es) as Hws.
  pose proof (suffix_length _ _ Hsk) as Hlen. cbn [List.length] in Hlen.
  assert (Tok : forall ts rest, suffix rest s' -> lstep_ok s0 (LToks ts (c :: s') rest)).
  { intros ts rest H. cbn. exists c, s'. auto. }
  assert (Err : forall e rest, suffix rest (c :: s') -> lstep_ok s0 (LErr e (c :: s') rest None)).
  { intros e rest H. cbn. exists c, s'. auto. }
  (* a scanner started on a suffix of s': the fuel suffices for it *)
  assert (Ofs : forall s_in r, suffix s_in s' -> ((List.length s_in < fuel)%nat -> sres_ok s_in r) ->
                lstep_ok s0 (of_sres (c :: s') r)).
  { intros s_in r H1 H3. pose proof (suffix_length _ _ H1).
    apply (sres_lstep_ok s0 c s' s_in r (fun ts rest => LToks ts (c :: s') rest) Hsk H1); [apply H3; lia|exact Tok]. }
  (* the arms of lex_one in its order; E<k> : (c =? k) = false serves the last arm *)
  apply lstep_if; [apply Tok, rest_of_line_suffix|intros E59].
  apply lstep_if; [|intros E34].   (* string *)
  { apply (sres_lstep_ok s0 c s' s'); [exact Hsk|auto with sfx|apply read_string_ok; lia|intros str r; apply Tok]. }
  apply lstep_if; [apply Tok; auto with sfx|intros E40].
  apply lstep_if; [apply Tok; auto with sfx|intros E91].
  apply lstep_if; [apply Tok; auto with sfx|intros E123].
  apply lstep_if; [apply Tok; auto with sfx|intros E41].
  apply lstep_if; [apply Tok; auto with sfx|intros E93].
  apply lstep_if; [apply Tok; auto with sfx|intros E125].
  apply lstep_if; [apply Tok; auto with sfx|intros E39].
  apply lstep_if; [apply Tok; auto with sfx|intros E96].
  apply lstep_if; [|intros E44].   (* , and ,@ *)
  { destruct s' as [|x s'']; [apply Tok; auto with sfx|]. setoid_rewrite (lit_match_eqb 64). destruct (x =? 64); apply Tok; auto with sfx. }
  apply lstep_if; [|intros _].   (* + - . *)
  { apply (Ofs s'); [auto with sfx|apply read_number_ok]. }
  apply lstep_if; [|intros _].   (* # and the character n after it *)
  { destruct s' as [|n s'']; [apply (Ofs []); [auto with sfx|apply read_hash_value_ok]|].
    apply lstep_if; [|intros _].   (* a radix prefix *)
    { apply (Ofs s''); [auto with sfx|apply read_number_ok]. }
    apply lstep_if; [|intros _].   (* #| *)
    { destruct (nest_comment s'' 1) as [r|] eqn:En; [|apply Err; auto with sfx].
      apply Tok. apply suffix_tl. apply (nest_comment_suffix _ _ _ En). }
    apply lstep_if; [apply Tok; auto with sfx|intros _].   (* #; *)
    apply lstep_if; [apply Err; auto with sfx|intros _].   (* ## *)
    apply lstep_if; [|intros _].   (* #< and the here string #<< *)
    { assert (Hrw : lstep_ok s0 (of_sres (c :: n :: s'') (read_word fuel s'' [n; c]))).
      { apply (Ofs s''); [auto with sfx|apply read_word_ok]. }
      destruct s'' as [|y s3]; [exact Hrw|]. setoid_rewrite (lit_match_eqb 60). destruct (y =? 60); [|exact Hrw].
      apply (sres_lstep_ok s0 _ _ s3); [exact Hsk|auto with sfx|apply here_delim_ok|].
      intros delim r Hr. apply (Ofs r); [exact Hr|intros _; apply here_body_ok]. }
    apply (Ofs (n :: s'')); [auto with sfx|apply read_hash_value_ok]. }
  destruct (is_digit c) eqn:Ed.
  { cbn [read_number]. unfold is_numberish. rewrite Ed. cbn [orb]. apply (Ofs s'); [auto with sfx|apply read_number_ok]. }
  assert (Hwb : is_word_break c = false).
  { unfold is_word_break, mem, c_lparen, c_lbrack, c_rparen, c_rbrack, c_lbrace, c_rbrace, c_dquote, c_semi.
    cbn [existsb]. rewrite E40, E91, E41, E93, E123, E125, E39, E34, E96, E59, E44, Hws. reflexivity. }
  apply (Ofs s'); [auto with sfx|intros Hfs]. apply read_word_progress; [exact Hwb|cbn [List.length]; lia].
Qed.

Definition span_ok (bound : N) (x : stok) : Prop := let '(_, a, b) := x in b <= a /\ a <= bound.

Lemma span_ok_weaken : forall b1 b2 l, b1 <= b2 -> Forall (span_ok b1) l -> Forall (span_ok b2) l.
Proof.
  intros b1 b2 l Hb H. induction H as [|[[t a] b] l Hx Hl IH]; constructor; [cbn in *; lia|assumption].
Qed.

Lemma lex_all_ok : forall fuel s, (List.length s < fuel)%nat ->
  exists ts, lex_all fuel s = Some ts /\ Forall (span_ok (blen s)) ts.
Proof.
  induction fuel as [|f IH]; intros s Hf; [lia|]. cbn [lex_all].
  pose proof (lex_one_ok (S f) s Hf) as H1.
  destruct (lex_one (S f) s) as [|tks start rest|e start rest sp|]; cbn [lstep_ok] in H1.
  - exists []. split; [reflexivity|constructor].
  - destruct H1 as [c [s' [E [Hst Hre]]]]. subst start.
    pose proof (suffix_length _ _ Hst) as L1. pose proof (suffix_length _ _ Hre) as L2. cbn [List.length] in L1.
    destruct (IH rest ltac:(lia)) as [more [Em Hm]]. rewrite Em.
    pose proof (suffix_blen _ _ Hst) as B1. pose proof (suffix_blen _ _ Hre) as B2. cbn [blen] in B1.
    eexists. split; [reflexivity|]. apply Forall_app. split.
    + apply Forall_forall. intros x Hx. apply in_map_iff in Hx. destruct Hx as [t [Ex _]]. subst x. cbn. lia.
    + eapply span_ok_weaken; [|exact Hm]. lia.
  - destruct H1 as [c [s' [E [Hst [Hre Hsp]]]]]. pose proof (suffix_blen _ _ Hst). pose proof (suffix_blen _ _ Hre).
    destruct sp as [[a b]|]; eexists; (split; [reflexivity|]); constructor; try constructor; cbn in *; lia.
  - contradiction.
Qed.

Lemma until_nl_suffix : forall s, suffix (until_nl s) s.
Proof. induction s as [|c s IH]; cbn [until_nl]; [auto with sfx|]. destruct (c =? 10); auto with sfx. Qed.
Lemma strip_shebang_suffix : forall s, suffix (strip_shebang s) s.
Proof.
  intros s. unfold strip_shebang. destruct s as [|a [|b r]]; auto with sfx.
  destruct ((a =? 35) && (b =? 33)); [apply until_nl_suffix|auto with sfx].
Qed.
