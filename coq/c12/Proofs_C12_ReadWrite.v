(* C12 — read (write d) = d, lexer side: the tokens of a written datum, rationals. *)
From Coq Require Import NArith ZArith List Bool Ascii String Lia.
From SV Require Import c12.Model_C12 c12.Proofs_C12.
From SV Require Import c12.Proofs_C12_Parse.
Import ListNotations.
Open Scope N_scope.

Lemma lex_all_tok : forall fuel s tks start rest,
  (0 < fuel)%nat -> lex_one fuel s = LToks tks start rest ->
  lex_all fuel s = option_map (app (map (fun t => (t, blen start, blen rest)) tks)) (lex_all (fuel - 1) rest).
Proof.
  intros fuel s tks start rest Hf H. destruct fuel as [|f]; [lia|].
  cbn [lex_all]. rewrite H. replace (S f - 1)%nat with f by lia. destruct (lex_all f rest); reflexivity.
Qed.

Lemma lex_all_space : forall fuel s, lex_all fuel (32 :: s) = lex_all fuel s.
Proof. intros [|f] s; reflexivity. Qed.

Lemma rat_plain : forall n p, plain_num (write_int n ++ 47 :: write_nat (N.pos p)).
Proof.
  intros n p. destruct (write_int_shape n) as [sgn [h [l [E [Hs [Hh Hl]]]]]]. destruct (write_nat_spec (N.pos p)) as [Hdd _].
  exists sgn, h, (l ++ 47 :: write_nat (N.pos p)). rewrite E, <- app_assoc. repeat split; auto.
  rewrite forallb_app, (digits_numch l Hl). cbn [forallb]. rewrite (digits_numch _ Hdd). reflexivity.
Qed.

Lemma parse_number_rat : forall n p,
  parse_number (write_int n ++ 47 :: write_nat (N.pos p)) = PNum (NRat n (Z.pos p)).
Proof.
  intros n p. destruct (write_nat_spec (N.pos p)) as [Hdd _]. set (wd := write_nat (N.pos p)) in *.
  pose proof (write_int_noc n 47 eq_refl ltac:(discriminate)) as H47.
  rewrite parse_number_plain; [|apply rat_plain|].
  - rewrite (split_at_first 47 _ _ H47), parse_int_write.
    change wd with (write_int (Z.pos p)). rewrite parse_int_write. reflexivity.
  - rewrite count_app, (noc_count 47 _ H47). unfold count. cbn [filter N.eqb Pos.eqb List.length]. fold (count 47 wd).
    rewrite (noc_count 47 wd) by (apply (class_noc is_digit); [reflexivity|exact Hdd]). reflexivity.
Qed.

Definition write_rat (n d : Z) : text := write_int n ++ 47 :: write_int d.

Lemma symbol_lex_tok : forall s t fuel,
  sym_plain s = true -> delim_start t -> lex_one fuel (s ++ t) = LToks [sym_tok s] (s ++ t) t.
Proof.
  intros s t fuel Hp Ht. destruct (sym_plain_inv s Hp) as [c [s' [-> [Hf [Hall _]]]]].
  destruct (first_ok_inv c Hf) as [Hd Hm].
  pose proof Hall as Hc. cbn [forallb] in Hc. apply andb_true_iff in Hc.
  destruct (plain_ch_inv c (proj1 Hc)) as [Hwb [_ H124]].
  cbn [app]. rewrite lex_one_word by assumption. unfold read_word. rewrite H124.
  change (c :: s' ++ t) with ((c :: s') ++ t). unfold read_word_plain. rewrite word_plain_plain by assumption.
  rewrite app_nil_r, rev_involutive. unfold classify_word, sym_tok.
  destruct (kw_of_word (c :: s')); [reflexivity|].
  destruct s' as [|c2 s'']; [reflexivity|].
  rewrite (eqb_sep (fun x => mem x [35; 43; 45; 46]) false c 43 Hm eq_refl). reflexivity.
Qed.

Lemma atom_lex : forall pr d tk, rep d -> atom_toks d = Some tk -> lexes_as (write_u pr d) tk.
Proof.
  intros pr d tk Hr Ha t fuel Ht Hf. destruct d; cbn in Ha; inversion Ha; subst; cbn [write_u] in *.
  - apply plain_number_lex; [apply write_int_plain|apply parse_number_int|exact Ht].
  - destruct Hr as [Hd _]. destruct d as [|p|p]; try lia. apply plain_number_lex; [apply rat_plain|apply parse_number_rat|exact Ht].
  - clear Hf. revert t Ht. destruct b; apply delim_start_ind; reflexivity.
  - apply char_roundtrip_lex; assumption.
  - apply string_roundtrip_lex; [exact Hr|]. rewrite app_length in Hf. unfold write_string in Hf.
    cbn [List.length] in Hf. rewrite app_length in Hf. pose proof (length_flat_map_esc pr s). lia.
  - apply symbol_lex_tok; assumption.
Qed.

Lemma lexes_nonempty : forall w tk, lexes_as w tk -> w <> [].
Proof. intros w tk H ->. specialize (H [] 1%nat I (Nat.lt_0_succ 0)). discriminate H. Qed.

Definition LexesLast (w : text) (toks : list tok) : Prop :=
  forall t fuel, delim_start t -> (List.length (w ++ t) < fuel)%nat ->
  exists (ts : list stok) (x : stok),
    map tokof (ts ++ [x]) = toks /\ snd x = blen t /\
    (List.length (ts ++ [x]) <= List.length w)%nat /\
    lex_all fuel (w ++ t) = option_map (app (ts ++ [x])) (lex_all (fuel - List.length (ts ++ [x])) t).

Definition Written (pr : N -> bool) (d : datum) : Prop := rep d -> LexesLast (write_u pr d) (tk_of d).

Lemma omap_app : forall (a b : list stok) z,
  option_map (app a) (option_map (app b) z) = option_map (app (a ++ b)) z.
Proof. intros a b [z|]; cbn; [rewrite app_assoc|]; reflexivity. Qed.
Lemma omap_nil : forall z : option (list stok), option_map (app []) z = z.
Proof. intros [z|]; reflexivity. Qed.

Definition Lexes (F : text -> Prop) (w : text) (toks : list tok) : Prop :=
  forall t fuel, F t -> (List.length (w ++ t) < fuel)%nat ->
  exists ts : list stok, map tokof ts = toks /\ (List.length ts <= List.length w)%nat /\
    lex_all fuel (w ++ t) = option_map (app ts) (lex_all (fuel - List.length ts) t).

Definition Item := Lexes delim_start.

Lemma LexesLast_Item : forall w toks, LexesLast w toks -> Item w toks.
Proof.
  intros w toks H t fuel Ht Hf. destruct (H t fuel Ht Hf) as [ts [x [H1 [_ [H3 H4]]]]].
  exists (ts ++ [x]). auto.
Qed.

Lemma Lexes_app : forall (F G : text -> Prop) wa wb ta tb,
  Lexes G wa ta -> (forall t, F t -> G (wb ++ t)) -> Lexes F wb tb -> Lexes F (wa ++ wb) (ta ++ tb).
Proof.
  intros F G wa wb ta tb Ha HG Hb t fuel Ht Hf. rewrite <- app_assoc in *.
  destruct (Ha (wb ++ t) fuel (HG t Ht) Hf) as [ts1 [A1 [A2 A3]]].
  destruct (Hb t (fuel - List.length ts1)%nat Ht) as [ts2 [B1 [B2 B3]]]; [rewrite app_length in Hf; lia|].
  exists (ts1 ++ ts2). split; [rewrite map_app, A1, B1; reflexivity|]. split; [rewrite !app_length; lia|].
  rewrite A3, B3, omap_app, app_length, Nat.sub_add_distr. reflexivity.
Qed.

Lemma Lexes_tok : forall (F : text -> Prop) w tk,
  w <> [] -> (forall t fuel, F t -> lex_one fuel (w ++ t) = LToks [tk] (w ++ t) t) -> Lexes F w [tk].
Proof.
  intros F w tk Hne H t fuel Ht Hf. exists [(tk, blen (w ++ t), blen t)].
  split; [reflexivity|]. split; [destruct w; [congruence|cbn; lia]|].
  rewrite (lex_all_tok fuel _ [tk] _ t) by (try lia; apply H, Ht). reflexivity.
Qed.

Lemma Lexes_nil : forall F : text -> Prop, Lexes F [] [].
Proof. intros F t fuel _ _. exists []. rewrite Nat.sub_0_r, omap_nil. auto. Qed.

Lemma Lexes_space : Lexes (fun _ => True) [32] [].
Proof. intros t fuel _ _. exists []. rewrite Nat.sub_0_r, omap_nil. repeat split; [cbn; lia|apply lex_all_space]. Qed.

Lemma Lexes_dot : Item [46] [TDot].
Proof. apply Lexes_tok; [discriminate|]. intros t fuel. revert t. apply delim_start_ind; [reflexivity|apply lex_one_dot|reflexivity]. Qed.

Lemma sep_items : forall {A} (w : A -> text) (tk : A -> list tok) l,
  Forall (fun x => Item (w x) (tk x)) l -> Item (sep_by (map w l)) (flat_map tk l).
Proof.
  intros A w tk l H. induction H as [|x l Hx Hl IH]; [apply Lexes_nil|].
  destruct Hl as [|y l' Hy Hl']; [cbn [map sep_by flat_map]; rewrite app_nil_r; exact Hx|].
  apply (Lexes_app _ delim_start (w x) ([32] ++ sep_by (map w (y :: l')))); [exact Hx|left; reflexivity|].
  apply (Lexes_app _ (fun _ => True) [32] _ []); [exact Lexes_space|trivial|exact IH].
Qed.

(* a dotted pair is three items: a, the dot, b *)
Lemma pair_item : forall wa wb ta tb, Item wa ta -> Item wb tb ->
  Item (wa ++ [32; 46; 32] ++ wb) (ta ++ TDot :: tb).
Proof.
  intros wa wb ta tb Ha Hb. rewrite <- (app_nil_r tb).
  apply (sep_items fst snd [(wa, ta); ([46], [TDot]); (wb, tb)]). repeat constructor; [exact Ha|exact Lexes_dot|exact Hb].
Qed.

Lemma LexesLast_snoc : forall (G : text -> Prop) w0 toks0 w1 tk,
  Lexes G w0 toks0 -> (forall t, delim_start t -> G (w1 ++ t)) -> lexes_as w1 tk ->
  LexesLast (w0 ++ w1) (toks0 ++ [tk]).
Proof.
  intros G w0 toks0 w1 tk H0 HG H1 t fuel Ht Hf. rewrite <- app_assoc in *.
  destruct (H0 (w1 ++ t) fuel (HG t Ht) Hf) as [ts [A1 [A2 A3]]].
  pose proof (lexes_nonempty w1 tk H1) as Hne. rewrite !app_length in *.
  exists ts, (tk, blen (w1 ++ t), blen t).
  split; [rewrite map_app, A1; reflexivity|]. split; [reflexivity|].
  split; [rewrite app_length; destruct w1; [congruence|cbn [List.length]; lia]|].
  rewrite A3, (lex_all_tok _ _ [tk] (w1 ++ t) t) by (lia || (apply H1; [exact Ht|rewrite app_length; lia])).
  rewrite omap_app, app_length, Nat.sub_add_distr. reflexivity.
Qed.

Lemma Written_atom : forall pr d tk, atom_toks d = Some tk -> tk_of d = [tk] -> Written pr d.
Proof.
  intros pr d tk Ha Htk Hr. rewrite Htk.
  exact (LexesLast_snoc (fun _ => True) [] [] _ tk (Lexes_nil _) (fun _ _ => I) (atom_lex pr d tk Hr Ha)).
Qed.

Lemma wrap_lex : forall op tko body btoks,
  (forall fuel s, lex_one fuel (op ++ s) = LToks [tko] (op ++ s) s) ->
  Item body btoks -> LexesLast (op ++ body ++ [41]) (tko :: btoks ++ [TClose Round]).
Proof.
  intros op tko body btoks Hlo Hb. rewrite app_assoc.
  apply (LexesLast_snoc delim_start (op ++ body) (tko :: btoks) [41]).
  - apply (Lexes_app _ (fun _ => True) op body [tko]); [|trivial|exact Hb]. apply Lexes_tok; [intros ->; discriminate (Hlo 1%nat [])|]. intros; apply Hlo.
  - right. reflexivity.
  - intros t fuel _ _. apply lex_one_rparen.
Qed.

(* byte vector elements #xHH: a finite check over the 256 bytes *)
Definition byte_check (b : N) : bool :=
  match parse_number [35; 120; hex_digit_up (b / 16); hex_digit_up (b mod 16)] with
  | PNum (NInt z) => (z =? Z.of_N b)%Z
  | _ => false
  end && forallb is_numberish [hex_digit_up (b / 16); hex_digit_up (b mod 16)].
Lemma byte_check_ok : forall b, b < 256 -> byte_check b = true.
Proof.
  intros b Hb. apply (range_ind (fun b => byte_check b = true) 0 256); [|lia|exact Hb].
  apply Forall_forall, forallb_forall. vm_compute. reflexivity.
Qed.

Lemma byte_item : forall b, b < 256 -> Item (write_byte b) [byte_tok b].
Proof.
  intros b Hb. pose proof (byte_check_ok b Hb) as Hc. unfold byte_check in Hc.
  apply andb_true_iff in Hc. destruct Hc as [Hpn Hnum].
  destruct (parse_number [35; 120; hex_digit_up (b / 16); hex_digit_up (b mod 16)]) as [|[z| | | |]|] eqn:Epn; try discriminate.
  apply Z.eqb_eq in Hpn. subst z.
  apply Lexes_tok; [discriminate|]. intros t fuel Ht. unfold write_byte. cbn [app]. rewrite lex_one_hash_x.
  change (hex_digit_up (b / 16) :: hex_digit_up (b mod 16) :: t) with ([hex_digit_up (b / 16); hex_digit_up (b mod 16)] ++ t).
  rewrite read_number_numy by assumption. unfold finish_number. cbn [rev app]. rewrite Epn. reflexivity.
Qed.

Lemma flat_map_single : forall (A B : Type) (f : A -> B) l, flat_map (fun x => [f x]) l = map f l.
Proof. induction l; cbn; [|rewrite IHl]; reflexivity. Qed.

Lemma items_of : forall pr l,
  Forall (Written pr) l -> Forall rep l -> Item (sep_by (map (write_u pr) l)) (flat_map tk_of l).
Proof.
  intros pr l HL Hr. apply sep_items, Forall_forall. rewrite Forall_forall in HL, Hr.
  intros x Hx. exact (LexesLast_Item _ _ (HL x Hx (Hr x Hx))).
Qed.

Lemma Written_all : forall pr d, Written pr d.
Proof.
  intros pr. induction d using datum_nested_ind;
    try (eapply Written_atom; reflexivity);   (* as in Proofs_C12_Parse.Parses_all *)
    try (intros []; fail);
    intros Hr.
  - apply rep_list in Hr.
    exact (wrap_lex [40] (TOpen Round None) _ _ lex_one_lparen (items_of pr l H (proj2 Hr))).
  - destruct Hr as [_ [Hra [Hrb _]]].
    assert (Ew : write_u pr (DPair d1 d2) = [40] ++ (write_u pr d1 ++ [32; 46; 32] ++ write_u pr d2) ++ [41]).
    { cbn [write_u app]. norm_cps. rewrite <- !app_assoc. reflexivity. }
    rewrite Ew.
    apply (wrap_lex [40] (TOpen Round None) _ (tk_of d1 ++ TDot :: tk_of d2));
      [apply lex_one_lparen|apply pair_item; apply LexesLast_Item; [apply IHd1, Hra|apply IHd2, Hrb]].
  - apply rep_vec in Hr.
    exact (wrap_lex [35; 40] (TOpen Round (Some PVector)) _ _ lex_one_vec (items_of pr l H (proj2 Hr))).
  - pose proof (sep_items write_byte (fun b => [byte_tok b]) l (Forall_impl _ byte_item Hr)) as Hitems.
    rewrite flat_map_single in Hitems.
    assert (Ew : write_u pr (DBytes l) = [35; 117; 56; 40] ++ sep_by (map write_byte l) ++ [41]).
    { cbn [write_u]. norm_cps. reflexivity. }
    rewrite Ew.
    exact (wrap_lex [35; 117; 56; 40] (TOpen Round (Some PBytes)) _ _ lex_one_bytes Hitems).
Qed.

Lemma strip_shebang_written : forall pr d, rep d -> strip_shebang (write_u pr d) = write_u pr d.
Proof.
  intros pr d Hr. destruct d; try contradiction Hr; cbn [write_u]; norm_cps;
    try (apply strip_shebang_hd; reflexivity).   (* DStr and the compound data: a fixed first character *)
  - (* DInt *) rewrite <- (app_nil_r (write_int z)). apply write_int_no_hash.
  - (* DRat *) apply write_int_no_hash.
  - (* DBool: #true, #false *) destruct b; reflexivity.
  - (* DChar: #\ *) destruct (write_char_body pr c Hr) as [body [E _]]. rewrite E. reflexivity.
  - (* DSym *) destruct (sym_plain_inv s Hr) as [c [s' [-> [Hf _]]]]. apply strip_shebang_hd.
    apply (eqb_sep (fun x => mem x [35; 43; 45; 46]) false); [apply first_ok_inv, Hf|reflexivity].
  - (* DVec: #( *) reflexivity.
  - (* DBytes: #u8( *) reflexivity.
Qed.
