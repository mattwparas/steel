(* C12 — the atoms: the text [w] of an atom lexes to one token whatever delimiter follows ([lexes_as]).  Also
   definitions that Properties_C12.v states its theorems with. *)
From Coq Require Import NArith ZArith List Bool Ascii String Lia.
From SV Require Import c12.Model_C12 lib.ListFacts.
Import ListNotations.
Open Scope N_scope.

Definition pr_ascii (c : N) : bool := (32 <=? c) && (c <? 127).

Definition sample_datum : datum :=
  DList [DInt (-12); DRat 1 2; DStr (cps "a""b" ++ [10; 955; 7]); DChar 97; DChar 32; DChar 7;
         DSym (cps "ab"); DPair (DInt 1) (DInt 2); DVec [DBool true]; DBytes [1; 255]].

Ltac norm_cps :=
  repeat match goal with
         | |- context [cps ?s] => let v := eval vm_compute in (cps s) in change (cps s) with v
         end.

(* A class is a few short ranges of code points: a fact about its members is checked on each of them. *)
Definition range (lo : N) (n : nat) : text := map (fun i => lo + N.of_nat i) (seq 0 n).

Lemma range_ind : forall (P : N -> Prop) lo n, Forall P (range lo n) -> forall c, lo <= c -> c < lo + N.of_nat n -> P c.
Proof.
  intros P lo n H c H1 H2. rewrite Forall_forall in H. apply H, in_map_iff.
  exists (N.to_nat (c - lo)). split; [lia|apply in_seq; lia].
Qed.

Definition is_hexd (c : N) : bool := is_digit c || ((97 <=? c) && (c <=? 102)).

Lemma digit_range : forall c, is_digit c = true -> 48 <= c /\ c <= 57.
Proof. intros c H. apply andb_true_iff in H. destruct H as [H1 H2]. apply N.leb_le in H1, H2. split; assumption. Qed.

Lemma digit_ind : forall P : N -> Prop, Forall P (range 48 10) -> forall c, is_digit c = true -> P c.
Proof. intros P H c Hc. apply digit_range in Hc. apply (range_ind P 48 10 H); lia. Qed.

Lemma hexd_ind : forall P : N -> Prop, Forall P (range 48 10 ++ range 97 6) -> forall c, is_hexd c = true -> P c.
Proof.
  intros P H c Hc. apply Forall_app in H. destruct H as [H1 H2]. apply orb_true_iff in Hc. destruct Hc as [Hc|Hc].
  - apply (digit_ind P H1 c Hc).
  - apply andb_true_iff in Hc. destruct Hc as [Ha Hb]. apply N.leb_le in Ha, Hb. apply (range_ind P 97 6 H2); lia.
Qed.

Lemma eqb_sep : forall (P : N -> bool) b c k, P c = b -> P k = negb b -> (c =? k) = false.
Proof.
  intros P b c k Hc Hk. destruct (N.eqb_spec c k) as [->|]; [|reflexivity].
  rewrite Hc in Hk. destruct b; discriminate.
Qed.

Lemma forallb_impl : forall (P Q : N -> bool) l,
  (forall c, P c = true -> Q c = true) -> forallb P l = true -> forallb Q l = true.
Proof.
  intros P Q l HPQ H. apply forallb_forall. intros x Hx. apply HPQ. exact (proj1 (forallb_forall P l) H x Hx).
Qed.

(* what follows an atom in a written datum: the end of the text, the separating space, or a closing parenthesis *)
Definition delim_start (t : text) : Prop :=
  match t with [] => True | d :: _ => d = 32 \/ d = 41 end.

Lemma delim_start_ind : forall P : text -> Prop,
  P [] -> (forall t, P (32 :: t)) -> (forall t, P (41 :: t)) -> forall t, delim_start t -> P t.
Proof. intros P H0 H1 H2 [|d t] H; [exact H0|]. destruct H; subst; [apply H1|apply H2]. Qed.

Lemma lex_one_dquote : forall fuel s,
  lex_one fuel (34 :: s) = match read_string fuel s [] with
                           | SOk str r => LToks [TStr str] (34 :: s) r
                           | SErr e r sp => LErr e (34 :: s) r sp
                           | SFuel => LFuel
                           end.
Proof. reflexivity. Qed.
Lemma lex_one_lparen : forall fuel s, lex_one fuel (40 :: s) = LToks [TOpen Round None] (40 :: s) s.
Proof. reflexivity. Qed.
Lemma lex_one_rparen : forall fuel s, lex_one fuel (41 :: s) = LToks [TClose Round] (41 :: s) s.
Proof. reflexivity. Qed.
Lemma lex_one_vec : forall fuel s, lex_one fuel (35 :: 40 :: s) = LToks [TOpen Round (Some PVector)] (35 :: 40 :: s) s.
Proof. reflexivity. Qed.
Lemma lex_one_bytes : forall fuel s,
  lex_one fuel (35 :: 117 :: 56 :: 40 :: s) = LToks [TOpen Round (Some PBytes)] (35 :: 117 :: 56 :: 40 :: s) s.
Proof. reflexivity. Qed.
Lemma lex_one_dot : forall fuel s, lex_one fuel (46 :: 32 :: s) = LToks [TDot] (46 :: 32 :: s) (32 :: s).
Proof. reflexivity. Qed.
Lemma lex_one_minus : forall fuel s, lex_one fuel (45 :: s) = of_sres (45 :: s) (read_number fuel s [45]).
Proof. reflexivity. Qed.
Lemma lex_one_hash_bslash : forall fuel s,
  lex_one fuel (35 :: 92 :: s) = of_sres (35 :: 92 :: s) (read_hash_value fuel (92 :: s)).
Proof. reflexivity. Qed.
Lemma lex_one_hash_x : forall fuel s,
  lex_one fuel (35 :: 120 :: s) = of_sres (35 :: 120 :: s) (read_number fuel s [120; 35]).
Proof. reflexivity. Qed.

Lemma lex_one_digit : forall fuel s c,
  is_digit c = true -> lex_one fuel (c :: s) = of_sres (c :: s) (read_number fuel (c :: s) []).
Proof. intros fuel s. apply digit_ind. repeat constructor. Qed.

Lemma if_false : forall {A} (b : bool) (x y z : A), b = false -> y = z -> (if b then x else y) = z.
Proof. intros A b x y z -> H. exact H. Qed.

(* the characters with an arm of their own in lex_one are the word breaks, # + - . and the digits *)
Lemma lex_one_word : forall fuel s c,
  is_word_break c = false -> mem c [35; 43; 45; 46] = false -> is_digit c = false ->
  lex_one fuel (c :: s) = of_sres (c :: s) (read_word fuel (c :: s) []).
Proof.
  intros fuel s c Hwb Hm Hd. pose proof (proj2 (orb_false_elim _ _ Hwb)) as Hws.
  assert (H : (is_word_break c || mem c [35; 43; 45; 46]) = false) by (rewrite Hwb, Hm; reflexivity).
  pose proof (fun k => eqb_sep (fun x => is_word_break x || mem x [35; 43; 45; 46]) false c k H) as Hne.
  unfold lex_one. cbn [skip_ws]. rewrite Hws.
  do 11 (apply if_false; [apply Hne; reflexivity|]).                   (* ; dquote ( [ { ) ] } quote ` , *)
  apply if_false; [rewrite !Hne by reflexivity; reflexivity|].        (* + - . *)
  apply if_false; [apply Hne; reflexivity|]. rewrite Hd. reflexivity.  (* #, a digit *)
Qed.

Lemma scan_run : forall {R} (f : text -> text -> R) (P : N -> bool),
  (forall c s acc, P c = true -> f (c :: s) acc = f s (c :: acc)) ->
  forall l t acc, forallb P l = true -> f (l ++ t) acc = f t (rev l ++ acc).
Proof.
  intros R f P Hstep. induction l as [|c l IH]; intros t acc H; [reflexivity|].
  cbn [forallb] in H. apply andb_true_iff in H. destruct H as [Hc Hl].
  cbn [app rev]. rewrite Hstep, IH by assumption. rewrite <- app_assoc. reflexivity.
Qed.

Lemma hex_loop_step : forall e d c s acc,
  is_hexd e = false -> is_hexd d = false -> is_hexd c = true ->
  hex_loop (c :: s) e d acc = hex_loop s e d (c :: acc).
Proof.
  intros e d c s acc He Hd Hc. cbn [hex_loop].
  rewrite (eqb_sep is_hexd true c e), (eqb_sep is_hexd true c d) by assumption.
  replace (is_hex_break c) with false; [reflexivity|].
  symmetry. revert c Hc. apply hexd_ind. repeat constructor.
Qed.

Lemma hex_loop_digits : forall l t,
  forallb is_hexd l = true -> hex_loop (l ++ 125 :: t) 125 34 [] = Some (true, l, t).
Proof.
  intros l t Hl. rewrite (scan_run (fun s acc => hex_loop s 125 34 acc) is_hexd) by
    (try assumption; intros; apply hex_loop_step; trivial).
  cbn [hex_loop]. rewrite N.eqb_refl, app_nil_r, rev_involutive. reflexivity.
Qed.

Definition hs_plain (c : N) : bool :=
  negb ((c =? 92) || (c =? 39) || (c =? 96) || (c =? 44) || mem c [c_lparen; c_lbrack; c_rparen; c_rbrack] || is_ws c).

Lemma hash_scan_step : forall c s acc, hs_plain c = true -> hash_scan (c :: s) acc = hash_scan s (c :: acc).
Proof.
  intros c s acc H. cbn [hash_scan].
  rewrite !(eqb_sep hs_plain true c) by (exact H || reflexivity).   (* c is none of \ ' ` , *)
  apply negb_true_iff, orb_false_elim in H. destruct H as [H Hws]. apply orb_false_elim in H. destruct H as [_ Hm].
  cbn [orb]. rewrite Hm, Hws. reflexivity.
Qed.

Lemma hash_scan_delim : forall acc t, delim_start t -> hash_scan t acc = (acc, t).
Proof. intros acc. apply delim_start_ind; reflexivity. Qed.

Lemma hash_scan_plain : forall l acc t,
  forallb hs_plain l = true -> delim_start t -> hash_scan (l ++ t) acc = (rev l ++ acc, t).
Proof. intros l acc t Hl Ht. rewrite (scan_run hash_scan hs_plain hash_scan_step) by exact Hl. apply hash_scan_delim, Ht. Qed.

Lemma hexd_hs_plain : forall c, is_hexd c = true -> hs_plain c = true.
Proof. apply hexd_ind. repeat constructor. Qed.

Lemma hash_scan_hexd : forall l acc t,
  Forall (fun c => is_hexd c = true) l -> delim_start t ->
  hash_scan (l ++ t) acc = (rev l ++ acc, t).
Proof.
  intros l acc t Hl Ht. apply hash_scan_plain; [|exact Ht].
  apply (forallb_impl is_hexd); [exact hexd_hs_plain|apply forallb_forall, Forall_forall, Hl].
Qed.

Lemma read_number_step : forall fuel c s acc,
  is_numberish c = true -> read_number fuel (c :: s) acc = read_number fuel s (c :: acc).
Proof. intros fuel c s acc H. cbn [read_number]. rewrite H. reflexivity. Qed.

Lemma read_number_delim : forall fuel acc t, delim_start t -> read_number fuel t acc = finish_number fuel t acc.
Proof. intros fuel acc. apply delim_start_ind; reflexivity. Qed.

Lemma read_number_numy : forall l fuel acc t,
  forallb is_numberish l = true -> delim_start t ->
  read_number fuel (l ++ t) acc = finish_number fuel t (rev l ++ acc).
Proof.
  intros l fuel acc t Hl Ht. rewrite (scan_run (read_number fuel) is_numberish (read_number_step fuel)) by exact Hl.
  apply read_number_delim, Ht.
Qed.

Lemma log2_div_lt : forall n k f, 1 < k -> k <= n ->
  (N.to_nat (N.log2 n) < S f)%nat -> (N.to_nat (N.log2 (n / k)) < f)%nat.
Proof.
  intros n k f Hk Hn Hf. assert (H : N.log2 (n / k) < N.log2 n); [|lia].
  apply N.log2_lt_pow2; [apply N.div_str_pos; lia|]. apply N.div_lt_upper_bound; [lia|].
  pose proof (N.log2_spec n ltac:(lia)) as [_ H]. rewrite N.pow_succ_r' in H. nia.
Qed.

(* [wf] writes [n] in radix [b], last digit first onto [acc], with fuel above [N.log2 n];
   [rd] reads a digit string back into an accumulator, as long as the value stays [ok] *)
Section Radix.
  Variables (b : N) (dig : N -> N) (wf : nat -> N -> text -> text).
  Hypothesis b_gt1 : 1 < b.
  Hypothesis wf_0 : forall n acc, wf 0 n acc = acc.
  Hypothesis wf_S : forall f n acc,
    wf (S f) n acc = if n <? b then dig (n mod b) :: acc else wf f (n / b) (dig (n mod b) :: acc).

  Lemma wf_class : forall P : N -> bool, (forall v, v < b -> P (dig v) = true) ->
    forall f n acc, forallb P acc = true -> forallb P (wf f n acc) = true.
  Proof.
    intros P HP. induction f as [|f IH]; intros n acc Hacc; [rewrite wf_0; exact Hacc|].
    assert (Hd : forallb P (dig (n mod b) :: acc) = true).
    { cbn [forallb]. rewrite HP, Hacc by (try apply N.mod_lt; lia). reflexivity. }
    rewrite wf_S. destruct (n <? b); [exact Hd|apply IH, Hd].
  Qed.

  Lemma wf_nonempty : forall f n acc, wf (S f) n acc <> [].
  Proof.
    induction f as [|f IH]; intros n acc; rewrite wf_S; destruct (n <? b); try discriminate; [|apply IH].
    rewrite wf_0. discriminate.
  Qed.

  Variables (rd : text -> N -> option N) (ok : N -> Prop).
  Hypothesis ok_le : forall m n, m <= n -> ok n -> ok m.
  Hypothesis rd_step : forall v ds acc, v < b -> ok (acc * b + v) -> rd (dig v :: ds) acc = rd ds (acc * b + v).

  Lemma rd_wf : forall f n acc, (N.to_nat (N.log2 n) < f)%nat -> ok n -> rd (wf f n acc) 0 = rd acc n.
  Proof.
    induction f as [|f IH]; intros n acc Hn Hok; [lia|].
    assert (Hdm : n / b * b + n mod b = n) by (rewrite N.mul_comm; symmetry; apply N.div_mod; lia).
    assert (Hlast : rd (dig (n mod b) :: acc) (n / b) = rd acc n).
    { rewrite rd_step, Hdm; [reflexivity|apply N.mod_lt; lia|rewrite Hdm; exact Hok]. }
    rewrite wf_S. destruct (n <? b) eqn:E.
    - apply N.ltb_lt in E. rewrite <- (N.div_small n b E) at 1. exact Hlast.
    - apply N.ltb_ge in E. rewrite IH; [exact Hlast|apply log2_div_lt; assumption|].
      apply (ok_le _ n); [apply N.div_le_upper_bound; nia|exact Hok].
  Qed.
End Radix.

Lemma hex_digit_spec : forall v, v < 16 -> is_hexd (hex_digit v) = true /\ hex_val (hex_digit v) = Some v.
Proof. intros v Hv. pattern v. apply (range_ind _ 0 16); [repeat constructor|lia|exact Hv]. Qed.

Lemma hex_acc_step : forall v ds acc, v < 16 -> acc * 16 + v < 4294967296 ->
  hex_acc (hex_digit v :: ds) acc = hex_acc ds (acc * 16 + v).
Proof.
  intros v ds acc Hv Hok. cbn [hex_acc]. rewrite (proj2 (hex_digit_spec v Hv)).
  apply N.ltb_lt in Hok. rewrite Hok. reflexivity.
Qed.

Lemma write_hex_spec : forall n,
  forallb is_hexd (write_hex n) = true /\ write_hex n <> [] /\
  (n < 4294967296 -> hex_acc (write_hex n) 0 = Some n).
Proof.
  intros n. unfold write_hex. split; [|split].
  - apply (wf_class 16 hex_digit hex_fuel); try reflexivity. intros v Hv. apply hex_digit_spec, Hv.
  - apply (wf_nonempty 16 hex_digit hex_fuel); reflexivity.
  - intros Hn. apply (rd_wf 16 hex_digit hex_fuel eq_refl) with (ok := fun m => m < 4294967296);
      try reflexivity; [intros; lia|exact hex_acc_step|apply Nat.lt_succ_diag_r|exact Hn].
Qed.

Lemma dec_digit_spec : forall v, v < 10 -> is_digit (48 + v) = true /\ digit_val 10 (48 + v) = Some v.
Proof. intros v Hv. pattern v. apply (range_ind _ 0 10); [repeat constructor|lia|exact Hv]. Qed.

Lemma write_nat_spec : forall n,
  forallb is_digit (write_nat n) = true /\ write_nat n <> [] /\ parse_nat 10 (write_nat n) = Some n.
Proof.
  intros n. unfold write_nat.
  pose proof (wf_nonempty 10 (N.add 48) digits_fuel (fun _ _ => eq_refl) (fun _ _ _ => eq_refl) (N.to_nat (N.log2 n)) n []) as Hne.
  split; [|split; [exact Hne|]].
  - apply (wf_class 10 (N.add 48) digits_fuel); try reflexivity. intros v Hv. apply dec_digit_spec, Hv.
  - unfold parse_nat. destruct (digits_fuel _ n []) eqn:E; [congruence|]. rewrite <- E.
    apply (rd_wf 10 (N.add 48) digits_fuel eq_refl) with (ok := fun _ => True); try reflexivity; [|apply Nat.lt_succ_diag_r].
    intros v ds acc Hv _. cbn [digits_acc]. rewrite (proj2 (dec_digit_spec v Hv)). reflexivity.
Qed.

Lemma u32_from_hex_hexd : forall d l, is_hexd d = true -> u32_from_hex (d :: l) = hex_acc (d :: l) 0.
Proof. intros d l Hd. unfold u32_from_hex. rewrite (eqb_sep is_hexd true d 43 Hd eq_refl). reflexivity. Qed.

Lemma valid_scalar_u32 : forall c, valid_scalar c = true -> c < 4294967296.
Proof.
  intros c H. apply orb_true_iff in H. destruct H as [H|H].
  - apply N.ltb_lt in H. lia.
  - apply andb_true_iff in H. destruct H as [_ H]. apply N.ltb_lt in H. lia.
Qed.

Lemma u32_write_hex : forall c, valid_scalar c = true -> u32_from_hex (write_hex c) = Some c.
Proof.
  intros c Hv. destruct (write_hex_spec c) as [Hd [Hne Hacc]].
  destruct (write_hex c) as [|d l] eqn:E; [congruence|]. cbn [forallb] in Hd. apply andb_true_iff in Hd.
  rewrite u32_from_hex_hexd by apply Hd. apply Hacc, valid_scalar_u32, Hv.
Qed.

Lemma read_string_bslash : forall f s acc,
  read_string (S f) (92 :: s) acc = match read_string_escape IncompleteString 34 s with
                                    | SOk (Some ch) r => read_string f r (ch :: acc)
                                    | SOk None r => read_string f r acc
                                    | SErr e r sp => SErr e r sp
                                    | SFuel => SFuel
                                    end.
Proof. reflexivity. Qed.

Lemma read_string_escape_u : forall inc delim s,
  read_string_escape inc delim (117 :: 123 :: s) =
  match hex_loop s 125 delim [] with
  | None => SErr inc [] None
  | Some (false, _, r) => SErr UnclosedHexEscape r (Some (blen (117 :: 123 :: s) + 1, blen r + 1))
  | Some (true, ds, r) =>
    match u32_from_hex ds with
    | None => SErr InvalidHexEscapeLiteral r (Some (blen (117 :: 123 :: s) + 1, blen r))
    | Some n => if valid_scalar n then SOk (Some n) r
                else SErr InvalidHexCodePoint r (Some (blen (117 :: 123 :: s) + 1, blen r))
    end
  end.
Proof. reflexivity. Qed.

Lemma read_string_step : forall pr c t acc f,
  valid_scalar c = true ->
  read_string (S f) (esc_str_char pr c ++ t) acc = read_string f t (c :: acc).
Proof.
  intros pr c t acc f Hv. unfold esc_str_char.
  destruct (N.eqb_spec c 0) as [->|_]; [reflexivity|].
  destruct (N.eqb_spec c 9) as [->|_]; [reflexivity|].
  destruct (N.eqb_spec c 13) as [->|_]; [reflexivity|].
  destruct (N.eqb_spec c 10) as [->|_]; [reflexivity|].
  destruct (c =? 92) eqn:E92; [apply N.eqb_eq in E92; subst; reflexivity|].
  destruct (c =? 34) eqn:E34; [apply N.eqb_eq in E34; subst; reflexivity|].
  destruct (pr c).
  - cbn [app read_string]. rewrite E34, E92. reflexivity.
  - cbn [app]. rewrite <- app_assoc. cbn [app].
    rewrite read_string_bslash, read_string_escape_u, hex_loop_digits by apply write_hex_spec.
    rewrite u32_write_hex, Hv by exact Hv. reflexivity.
Qed.

Lemma read_string_body : forall pr s t acc f,
  Forall (fun c => valid_scalar c = true) s -> (List.length s < f)%nat ->
  read_string f (flat_map (esc_str_char pr) s ++ 34 :: t) acc = SOk (rev acc ++ s) t.
Proof.
  induction s as [|c s IH]; intros t acc f Hs Hf; (destruct f as [|f]; [cbn in Hf; lia|]).
  - cbn [flat_map app read_string N.eqb Pos.eqb]. rewrite app_nil_r. reflexivity.
  - inversion Hs as [|? ? Hc Hs']; subst.
    cbn [flat_map]. rewrite <- app_assoc, read_string_step by exact Hc.
    rewrite IH by (try assumption; cbn [List.length] in Hf; lia).
    cbn [rev]. rewrite <- app_assoc. reflexivity.
Qed.

Theorem string_roundtrip_lex : forall pr s t fuel,
  Forall (fun c => valid_scalar c = true) s -> (List.length s < fuel)%nat ->
  lex_one fuel (write_string pr s ++ t) = LToks [TStr s] (write_string pr s ++ t) t.
Proof.
  intros pr s t fuel Hs Hf. unfold write_string. cbn [app]. rewrite <- app_assoc. cbn [app].
  rewrite lex_one_dquote, (read_string_body pr s t [] fuel Hs Hf). reflexivity.
Qed.

Lemma length_flat_map_esc : forall pr s, (List.length s <= List.length (flat_map (esc_str_char pr) s))%nat.
Proof.
  induction s as [|c s IH]; [cbn; lia|].
  cbn [flat_map List.length]. rewrite app_length.
  assert (1 <= List.length (esc_str_char pr c))%nat.
  { unfold esc_str_char.
    repeat match goal with |- context [if ?b then _ else _] => destruct b end; cbn [List.length app]; lia. }
  lia.
Qed.

Definition atom_tok (t : tok) : bool :=
  match t with
  | TChar _ | TBool _ | TIdent _ | TKeyword _ | TNum _ | TStr _ | TKw _ => true
  | _ => false
  end.

Definition lexes_as (w : text) (tk : tok) : Prop :=
  forall t fuel, delim_start t -> (List.length (w ++ t) < fuel)%nat ->
  lex_one fuel (w ++ t) = LToks [tk] (w ++ t) t.

Lemma strip_shebang_hd : forall c s, (c =? 35) = false -> strip_shebang (c :: s) = c :: s.
Proof. intros c s E. unfold strip_shebang. destruct s; [reflexivity|]. rewrite E. reflexivity. Qed.

Lemma hex_acc_zeros : forall k l, hex_acc (repeat 48 k ++ l) 0 = hex_acc l 0.
Proof. induction k as [|k IH]; intros l; [reflexivity|]. exact (IH l). Qed.

Lemma eq_ic_single : forall c x y l, eq_ignore_case [c] (x :: y :: l) = false.
Proof. intros. unfold eq_ignore_case. cbn [map text_eqb]. apply andb_false_r. Qed.

Lemma eq_ic_hd : forall c x d l, (to_lower c =? to_lower d) = false -> eq_ignore_case (c :: x) (d :: l) = false.
Proof. intros c x d l H. unfold eq_ignore_case. cbn [map text_eqb]. rewrite H. reflexivity. Qed.

Lemma parse_char_single : forall c, parse_char [c] = inr c.
Proof.
  intros c. unfold parse_char. norm_cps. do 9 (apply if_false; [apply eq_ic_single|]).   (* the names are longer *)
  cbn [negb andb]. rewrite andb_false_r. reflexivity.
Qed.

Lemma pad4_hexd : forall l, forallb is_hexd l = true -> forallb is_hexd (pad4 l) = true.
Proof.
  intros l H. unfold pad4. rewrite forallb_app, H, andb_true_r.
  induction (4 - List.length l)%nat as [|k IH]; [reflexivity|exact IH].
Qed.

Lemma parse_char_hex : forall c, valid_scalar c = true -> parse_char (117 :: pad4 (write_hex c)) = inr c.
Proof.
  intros c Hv. destruct (write_hex_spec c) as [Hd [Hne Hacc]]. pose proof (pad4_hexd _ Hd) as Hp.
  unfold parse_char. norm_cps. do 9 (apply if_false; [apply eq_ic_hd; reflexivity|]).   (* no name begins with u *)
  cbn [N.eqb Pos.eqb andb].
  destruct (pad4 (write_hex c)) as [|b r] eqn:E.
  { unfold pad4 in E. apply app_eq_nil in E. tauto. }
  cbn [forallb] in Hp. apply andb_true_iff in Hp. destruct Hp as [Hb _].
  cbn [orb negb andb]. rewrite (eqb_sep is_hexd true b 123 Hb eq_refl). cbn [andb].
  rewrite u32_from_hex_hexd, <- E by exact Hb. unfold pad4.
  rewrite hex_acc_zeros, Hacc, Hv by (apply valid_scalar_u32, Hv). reflexivity.
Qed.

(* what the writer puts after `#\`: a name, the character itself, or u + at least four hex digits *)
Lemma write_char_body : forall pr c, valid_scalar c = true ->
  exists body, write_char pr c = 35 :: 92 :: body /\ body <> [] /\
               forallb hs_plain (tl body) = true /\ parse_char body = inr c.
Proof.
  intros pr c Hv. unfold write_char.
  destruct (N.eqb_spec c 32) as [->|_]; [exists (cps "space"); repeat split; discriminate|].
  destruct (N.eqb_spec c 0) as [->|_]; [exists (cps "null"); repeat split; discriminate|].
  destruct (N.eqb_spec c 9) as [->|_]; [exists (cps "tab"); repeat split; discriminate|].
  destruct (N.eqb_spec c 10) as [->|_]; [exists (cps "newline"); repeat split; discriminate|].
  destruct (N.eqb_spec c 13) as [->|_]; [exists (cps "return"); repeat split; discriminate|].
  destruct ((c =? 92) || (c =? 34) || (c =? 39) || pr c).
  - exists [c]. repeat split; [discriminate|apply parse_char_single].
  - exists (117 :: pad4 (write_hex c)). repeat split; [discriminate| |apply parse_char_hex, Hv].
    apply (forallb_impl is_hexd); [exact hexd_hs_plain|apply pad4_hexd, write_hex_spec].
Qed.

Lemma read_hash_value_char : forall fuel s body r c,
  hash_scan s [35] = (rev body ++ [92; 35], r) -> body <> [] -> parse_char body = inr c ->
  read_hash_value fuel s = SOk [TChar c] r.
Proof.
  intros fuel s body r c Hs Hne Hp. unfold read_hash_value, c_hash. rewrite Hs.
  rewrite rev_app_distr, rev_involutive. destruct body as [|b body]; [congruence|].
  norm_cps. cbn [rev app text_eqb starts_with firstn List.length skipn N.eqb Pos.eqb andb orb c_hash c_bslash].
  rewrite Hp. reflexivity.
Qed.

Theorem char_roundtrip_lex : forall pr c t fuel,
  valid_scalar c = true -> delim_start t ->
  lex_one fuel (write_char pr c ++ t) = LToks [TChar c] (write_char pr c ++ t) t.
Proof.
  intros pr c t fuel Hv Ht. destruct (write_char_body pr c Hv) as [body [E [Hne [Hpl Hpc]]]].
  rewrite E. cbn [app]. rewrite lex_one_hash_bslash, (read_hash_value_char fuel _ body t c); try assumption; [reflexivity|].
  destruct body as [|b body]; [congruence|]. cbn [app hash_scan N.eqb Pos.eqb].
  rewrite hash_scan_plain by assumption. cbn [rev]. rewrite <- app_assoc. reflexivity.
Qed.

Definition noc (c : N) (l : text) : Prop := forallb (fun x => negb (x =? c)) l = true.

Lemma noc_split : forall c l, noc c l -> split_at_char c l = None.
Proof.
  induction l as [|x l IH]; intros H; [reflexivity|]. apply andb_true_iff in H.
  destruct H as [Hx Hl]. cbn [split_at_char]. apply negb_true_iff in Hx. rewrite Hx, IH by exact Hl. reflexivity.
Qed.

Lemma noc_count : forall c l, noc c l -> count c l = 0%nat.
Proof.
  induction l as [|x l IH]; intros H; [reflexivity|]. apply andb_true_iff in H.
  destruct H as [Hx Hl]. unfold count in *. cbn [filter]. apply negb_true_iff in Hx.
  rewrite N.eqb_sym, Hx. apply IH, Hl.
Qed.

Lemma split_at_first : forall c a b, noc c a -> split_at_char c (a ++ c :: b) = Some (a, b).
Proof.
  induction a as [|x a IH]; intros b H.
  - cbn [app split_at_char]. rewrite N.eqb_refl. reflexivity.
  - apply andb_true_iff in H. destruct H as [Hx Ha]. apply negb_true_iff in Hx.
    cbn [app split_at_char]. rewrite Hx, IH by exact Ha. reflexivity.
Qed.

Lemma count_app : forall c a b, count c (a ++ b) = (count c a + count c b)%nat.
Proof. intros. unfold count. rewrite filter_app, app_length. reflexivity. Qed.

(* the characters of a decimal integer or n/d literal after an optional minus sign *)
Definition numch (c : N) : bool := is_digit c || (c =? 47).

Lemma numch_ind : forall P : N -> Prop, Forall P (47 :: range 48 10) -> forall c, numch c = true -> P c.
Proof.
  intros P H c Hc. inversion H as [|? ? H47 Hd]; subst. apply orb_true_iff in Hc. destruct Hc as [Hc|Hc].
  - apply (digit_ind P Hd c Hc).
  - apply N.eqb_eq in Hc. subst. exact H47.
Qed.

Lemma class_noc : forall (P : N -> bool) c l, P c = false -> forallb P l = true -> noc c l.
Proof.
  intros P c l Hc. apply forallb_impl. intros x Hx. apply negb_true_iff, (eqb_sep P true); assumption.
Qed.

Lemma noc_signed : forall c sgn l, (sgn = [] \/ sgn = [45]) -> c <> 45 -> noc c l -> noc c (sgn ++ l).
Proof.
  intros c sgn l Hs H45 Hl. destruct Hs; subst sgn; [exact Hl|].
  unfold noc. cbn [app forallb]. rewrite Hl, andb_true_r. apply negb_true_iff, N.eqb_neq. congruence.
Qed.

(* none of + - e E, at which sign_idxs would split *)
Lemma numch_sign_idxs : forall l i acc, forallb numch l = true -> sign_idxs l i acc = Some (rev acc).
Proof.
  induction l as [|c l IH]; intros i acc H; [reflexivity|]. cbn [forallb] in H. apply andb_true_iff in H.
  destruct H as [Hc Hl]. cbn [sign_idxs]. rewrite !(eqb_sep numch true c) by (exact Hc || reflexivity). apply IH, Hl.
Qed.

Lemma numch_numberish : forall c, numch c = true -> is_numberish c = true.
Proof. apply numch_ind. repeat constructor. Qed.

Lemma classify_part_real : forall s, noc 105 s -> classify_part s = PReal s.
Proof.
  intros s H. unfold classify_part. destruct (rev s) as [|x r] eqn:E; [reflexivity|].
  replace (x =? 105) with false; [reflexivity|]. symmetry. apply negb_true_iff.
  apply (proj1 (forallb_forall _ s) H), in_rev. rewrite E. left. reflexivity.
Qed.

(* [-]digit(digit|/)* *)
Definition plain_num (w : text) : Prop :=
  exists sgn h l, w = sgn ++ h :: l /\ (sgn = [] \/ sgn = [45]) /\ is_digit h = true /\ forallb numch l = true.

(* such a text with at most one slash: parse_number takes the exact-integer or the rational arm *)
Lemma parse_number_plain : forall w,
  plain_num w -> (count 47 w <= 1)%nat ->
  parse_number w =
  match split_at_char 47 w with
  | Some (ns, ds) => match parse_int 10 ns, parse_int 10 ds with
                     | Some n, Some d => if (d =? 0)%Z then PZeroDen else PNum (NRat n d)
                     | _, _ => PNone
                     end
  | None => match parse_int 10 w with Some z => PNum (NInt z) | None => PNone end
  end.
Proof.
  intros w (sgn & h & l & E & Hs & Hh & Hl) Hc47.
  assert (Hall : forallb numch (h :: l) = true) by (cbn [forallb]; unfold numch at 1; rewrite Hh, Hl; reflexivity).
  assert (Hno : forall c, numch c = false -> c <> 45 -> noc c w).
  { intros c Hc H45. rewrite E. apply noc_signed; [exact Hs|exact H45|exact (class_noc numch c _ Hc Hall)]. }
  assert (Hpre : radix_prefix w = (w, 10)).
  { rewrite E. unfold radix_prefix. destruct Hs; subst sgn; cbn [app]; [|reflexivity].
    destruct l; [reflexivity|]. rewrite (eqb_sep is_digit true h 35 Hh eq_refl). reflexivity. }
  assert (Hsplit : split_into_complex w = Some [PReal w]).
  { pose proof (classify_part_real w (Hno 105 eq_refl ltac:(discriminate))) as Hcp. rewrite E in *.
    unfold split_into_complex.
    destruct Hs; subst sgn; cbn [app] in *;
      [|change (sign_idxs (45 :: h :: l) 0 []) with (sign_idxs (h :: l) 1 [0%nat])];
      rewrite numch_sign_idxs by exact Hall; cbn [rev app]; rewrite Hcp; reflexivity. }
  assert (Einf : (text_eqb w [45; 105; 110; 102; 46; 48] || text_eqb w [43; 105; 110; 102; 46; 48]
                 || text_eqb w [43; 110; 97; 110; 46; 48] || text_eqb w [45; 110; 97; 110; 46; 48]) = false).
  { rewrite E. destruct Hs; subst sgn; cbn [app text_eqb N.eqb Pos.eqb andb];
      rewrite !(eqb_sep is_digit true h) by (exact Hh || reflexivity); reflexivity. }
  unfold parse_number. rewrite Hpre. cbn [fst snd].
  rewrite (noc_split 64), Hsplit by (apply Hno; [reflexivity|discriminate]).
  unfold parse_real. norm_cps. rewrite Einf. cbn [N.ltb N.compare Pos.compare Pos.compare_cont].
  rewrite (noc_count 101), (noc_count 69), (noc_count 46) by (apply Hno; [reflexivity|discriminate]).
  rewrite (proj2 (Nat.ltb_ge 1 (count 47 w)) Hc47). reflexivity.
Qed.

Lemma plain_number_lex : forall w n t fuel,
  plain_num w -> parse_number w = PNum n -> delim_start t -> lex_one fuel (w ++ t) = LToks [TNum n] (w ++ t) t.
Proof.
  intros w n t fuel (sgn & h & l & -> & Hs & Hh & Hl) Hpn Ht.
  assert (Hnum : forallb is_numberish (h :: l) = true).
  { apply (forallb_impl numch); [exact numch_numberish|]. cbn [forallb]. unfold numch at 1. rewrite Hh, Hl. reflexivity. }
  assert (Hhead : lex_one fuel ((sgn ++ h :: l) ++ t)
                  = of_sres ((sgn ++ h :: l) ++ t) (read_number fuel ((h :: l) ++ t) (rev sgn))).
  { destruct Hs; subst sgn; [apply lex_one_digit, Hh|apply lex_one_minus]. }
  rewrite Hhead, read_number_numy by assumption. unfold finish_number.
  rewrite <- rev_app_distr, rev_involutive, Hpn. reflexivity.
Qed.

Lemma write_int_sign : forall z, exists sgn n, write_int z = sgn ++ write_nat n /\ (sgn = [] \/ sgn = [45]).
Proof.
  intros [|p|p]; [exists [], 0|exists [], (N.pos p)|exists [45], (N.pos p)]; split; auto.
Qed.

(* the shape [plain_num] asks for, with digits only after the first *)
Lemma write_int_shape : forall z, exists sgn h l,
  write_int z = sgn ++ h :: l /\ (sgn = [] \/ sgn = [45]) /\ is_digit h = true /\ forallb is_digit l = true.
Proof.
  intros z. destruct (write_int_sign z) as [sgn [n [E Hs]]]. destruct (write_nat_spec n) as [Hd [Hne _]].
  destruct (write_nat n) as [|h l]; [congruence|]. apply andb_true_iff in Hd.
  exists sgn, h, l. tauto.
Qed.

Lemma parse_int_write : forall z, parse_int 10 (write_int z) = Some z.
Proof.
  intros z. destruct z as [|p|p]; cbn [write_int]; [reflexivity| |];
    destruct (write_nat_spec (N.pos p)) as [Hd [Hne Hp]]; unfold parse_int.
  - destruct (write_nat (N.pos p)) as [|c l] eqn:E; [congruence|]. apply andb_true_iff in Hd.
    rewrite !(eqb_sep is_digit true c) by (apply Hd || reflexivity). rewrite Hp. reflexivity.
  - cbn [N.eqb Pos.eqb]. rewrite Hp. reflexivity.
Qed.

Lemma digits_numch : forall l, forallb is_digit l = true -> forallb numch l = true.
Proof. intros l. apply forallb_impl. intros c H. unfold numch. rewrite H. reflexivity. Qed.

Lemma write_int_noc : forall z c, is_digit c = false -> c <> 45 -> noc c (write_int z).
Proof.
  intros z c Hc H45. destruct (write_int_sign z) as [sgn [n [E Hs]]]. rewrite E.
  apply noc_signed; [exact Hs|exact H45|apply (class_noc is_digit c _ Hc), write_nat_spec].
Qed.

Lemma write_int_plain : forall z, plain_num (write_int z).
Proof.
  intros z. destruct (write_int_shape z) as [sgn [h [l [E [Hs [Hh Hl]]]]]]. exists sgn, h, l. auto using digits_numch.
Qed.

Lemma parse_number_int : forall z, parse_number (write_int z) = PNum (NInt z).
Proof.
  intros z. pose proof (write_int_noc z 47 eq_refl ltac:(discriminate)) as H47.
  rewrite parse_number_plain; [|apply write_int_plain|rewrite (noc_count 47 _ H47); lia].
  rewrite (noc_split 47 _ H47), parse_int_write. reflexivity.
Qed.

Lemma write_int_no_hash : forall z s, strip_shebang (write_int z ++ s) = write_int z ++ s.
Proof.
  intros z s. destruct (write_int_shape z) as [sgn [h [l [E [Hs [Hh _]]]]]]. rewrite E.
  destruct Hs; subst sgn; cbn [app]; apply strip_shebang_hd; [|reflexivity].
  apply (eqb_sep is_digit true); [exact Hh|reflexivity].
Qed.

Definition plain_ch (c : N) : bool := negb (is_word_break c) && negb (c =? 92) && negb (c =? 124).
Definition first_ok (c : N) : bool := negb (is_digit c) && negb (mem c [35; 43; 45; 46]).
Definition alias_ok (s : text) : bool :=
  match kw_of_word s with
  | Some t => match tok_to_datum t with DSym n => text_eqb n s | _ => false end
  | None => true
  end.
Definition sym_plain (s : text) : bool :=
  match s with
  | [] => false
  | c :: _ => first_ok c && forallb plain_ch s && alias_ok s
  end.

Lemma plain_ch_inv : forall c, plain_ch c = true -> is_word_break c = false /\ (c =? 92) = false /\ (c =? 124) = false.
Proof.
  intros c H. apply andb_true_iff in H. destruct H as [H H124]. apply andb_true_iff in H. destruct H as [Hwb H92].
  apply negb_true_iff in Hwb, H92, H124. auto.
Qed.

Lemma first_ok_inv : forall c, first_ok c = true -> is_digit c = false /\ mem c [35; 43; 45; 46] = false.
Proof. intros c H. apply andb_true_iff in H. destruct H as [Hd Hm]. apply negb_true_iff in Hd, Hm. auto. Qed.

Lemma sym_plain_inv : forall s, sym_plain s = true ->
  exists c s', s = c :: s' /\ first_ok c = true /\ forallb plain_ch s = true /\ alias_ok s = true.
Proof.
  intros [|c s'] H; [discriminate|]. apply andb_true_iff in H. destruct H as [H Hal]. apply andb_true_iff in H.
  exists c, s'. tauto.
Qed.

Lemma text_eqb_eq : forall a b, text_eqb a b = true -> a = b.
Proof. intros a b. apply (eqb_list_eq _ N.eqb_eq). Qed.

Lemma word_plain_step : forall c s acc, plain_ch c = true -> word_plain (c :: s) acc = word_plain s (c :: acc).
Proof. intros c s acc H. destruct (plain_ch_inv c H) as [Hwb [H92 _]]. cbn [word_plain]. rewrite Hwb, H92. reflexivity. Qed.

Lemma word_plain_delim : forall acc t, delim_start t -> word_plain t acc = (acc, t).
Proof. intros acc. apply delim_start_ind; reflexivity. Qed.

Lemma word_plain_plain : forall l acc t,
  forallb plain_ch l = true -> delim_start t -> word_plain (l ++ t) acc = (rev l ++ acc, t).
Proof. intros l acc t Hl Ht. rewrite (scan_run word_plain plain_ch word_plain_step) by exact Hl. apply word_plain_delim, Ht. Qed.

Fixpoint nest (n : nat) (d : datum) : datum := match n with O => d | S k => DList [nest k d] end.

Definition unquote_witness : datum :=
  DList [DSym (cps "quasiquote"); DList [DSym (cps "unquote"); DList [DSym (cps "a")]]].

Section DatumInd.
  Variable P : datum -> Prop.
  Hypothesis Hint : forall z, P (DInt z).
  Hypothesis Hrat : forall n d, P (DRat n d).
  Hypothesis Hop : P DOpaque.
  Hypothesis Hbool : forall b, P (DBool b).
  Hypothesis Hchar : forall c, P (DChar c).
  Hypothesis Hstr : forall s, P (DStr s).
  Hypothesis Hsym : forall s, P (DSym s).
  Hypothesis Hlist : forall l, Forall P l -> P (DList l).
  Hypothesis Hpair : forall a b, P a -> P b -> P (DPair a b).
  Hypothesis Hvec : forall l, Forall P l -> P (DVec l).
  Hypothesis Hbytes : forall l, P (DBytes l).
  Hypothesis Hbad : P DBad.
  Fixpoint datum_nested_ind (d : datum) : P d :=
    let all := fix go (l : list datum) : Forall P l :=
                 match l with [] => Forall_nil P | x :: r => Forall_cons x (datum_nested_ind x) (go r) end in
    match d with
    | DInt z => Hint z | DRat n dn => Hrat n dn | DOpaque => Hop | DBool b => Hbool b | DChar c => Hchar c
    | DStr s => Hstr s | DSym s => Hsym s
    | DList l => Hlist l (all l)
    | DPair a b => Hpair a b (datum_nested_ind a) (datum_nested_ind b)
    | DVec l => Hvec l (all l)
    | DBytes l => Hbytes l | DBad => Hbad
    end.
End DatumInd.

Lemma write_k_elems : forall pr k l,
  Forall (fun d => forall k, (height d <= k)%nat -> write_k pr k d = write_u pr d) l ->
  (fold_right (fun x m => Nat.max (height x) m) 0%nat l <= k)%nat ->
  map (write_k pr k) l = map (write_u pr) l.
Proof.
  intros pr k l H. induction H as [|x l Hx _ IH]; intros Hk; [reflexivity|].
  cbn [fold_right map] in *. rewrite Hx, IH by lia. reflexivity.
Qed.

Lemma write_k_enough : forall pr d k, (height d <= k)%nat -> write_k pr k d = write_u pr d.
Proof.
  intros pr d. induction d using datum_nested_ind; intros k Hk;
    (destruct k as [|k]; [cbn [height] in Hk; lia|]); cbn [write_k write_u height] in *; try reflexivity.
  - rewrite (write_k_elems pr k l H) by lia. reflexivity.
  - rewrite IHd1, IHd2 by lia. reflexivity.
  - rewrite (write_k_elems pr k l H) by lia. reflexivity.
Qed.

Definition atom_representable (d : datum) : Prop :=
  match d with
  | DInt _ | DBool _ => True
  | DChar c => valid_scalar c = true
  | DStr s => Forall (fun c => valid_scalar c = true) s
  | DSym s => sym_plain s = true
  | _ => False
  end.
