(* C10 proofs, the level of Z.  Every operation on rationals is shown [Exact]: it returns a canonical value whose
   numerator and denominator cross-multiply with the intended N/D over Z, so the arithmetic is [lia] on integers
   (the integer division family is shown [ExactZ]).
   [Exact_Q] turns such a statement into its reading in Q ([ExactQ]), which is what the theorems of
   Properties_C10.v state; [Section Fold] is the variadic fold over any exact binary operation. *)
From Coq Require Import ZArith List Bool String Lia QArith Qabs Znumtheory.
From SV Require Import c10.Model_C10.
Import ListNotations.
Open Scope Z_scope.

Definition canonical (v : num) : Prop :=
  match v with
  | IntV z => fits_isize z = true
  | BigNum z => fits_isize z = false
  | Rat32 n d => 1 < d /\ d <= i32_max /\ i32_min < n /\ n <= i32_max /\ Z.gcd n d = 1
  | BigRat n d => 1 < d /\ Z.gcd n d = 1 /\ (fits32 n && fits32 d && negb (n =? i32_min)) = false
  end.

Definition denote (v : num) : Q := Qmake (numer v) (Z.to_pos (denom v)).

Definition is_integer (v : num) : Prop := match v with IntV _ | BigNum _ => True | _ => False end.

Definition Exact (r : res) (N D : Z) : Prop :=
  exists v, r = Ok v /\ canonical v /\ numer v * D = N * denom v.

(* in the form the lemmas about the normalising constructors ([of_bigint_spec], ...) give a value *)
Lemma exact_ok v n d N D : canonical v /\ numer v = n /\ denom v = d -> n * D = N * d -> Exact (Ok v) N D.
Proof. intros [C [<- <-]] X. exists v. auto. Qed.

Lemma cross_trans a b c d e f : d <> 0 -> a * d = c * b -> c * f = e * d -> a * f = e * b.
Proof.
  intros Hd X Y. apply Z.mul_reg_r with d; [exact Hd|].
  replace (a * f * d) with (a * d * f) by lia. rewrite X.
  replace (e * b * d) with (e * d * b) by lia. rewrite <- Y. lia.
Qed.

Lemma exact_scale r N D N' D' : Exact r N D -> D <> 0 -> N * D' = N' * D -> Exact r N' D'.
Proof.
  intros [v [E [C X]]] HD H. exists v. repeat split; auto. exact (cross_trans _ _ _ _ _ _ HD X H).
Qed.

Lemma canonical_denom_pos v : canonical v -> 0 < denom v.
Proof. destruct v; simpl; intros; lia. Qed.

Lemma canonical_reduced v : canonical v -> Z.gcd (numer v) (denom v) = 1.
Proof. destruct v; simpl; intros H; try (apply Z.gcd_1_r); intuition. Qed.

Lemma quot_exact g n : g <> 0 -> (g | n) -> n = g * (n ÷ g).
Proof. intros Hg Hd. apply Z.quot_exact; auto. apply Z.rem_divide; auto. Qed.

Lemma cross1 n d k n' d' : n = k * n' -> d = k * d' -> n' * d = n * d'.
Proof. intros -> ->. lia. Qed.

Lemma gcd_pos_r n d : d <> 0 -> 0 < Z.gcd n d.
Proof.
  intros Hd. pose proof (Z.gcd_nonneg n d).
  destruct (Z.eq_dec (Z.gcd n d) 0) as [E|E]; [apply Z.gcd_eq_0_r in E; congruence | lia].
Qed.

(* The gcd and the two cofactors, each under a name of its own: a caller rewrites with the first three
   equations and substitutes [n] and [d], and is left with a goal about variables. *)
Lemma gcd_cofactors n d :
  d <> 0 ->
  exists g n' d', Z.gcd n d = g /\ n ÷ g = n' /\ d ÷ g = d' /\
                  0 < g /\ n = g * n' /\ d = g * d' /\ Z.gcd n' d' = 1.
Proof.
  intros Hd. exists (Z.gcd n d), (n ÷ Z.gcd n d), (d ÷ Z.gcd n d). set (g := Z.gcd n d).
  assert (Hg : 0 < g) by exact (gcd_pos_r n d Hd).
  assert (Hn : n = g * (n ÷ g)) by (apply quot_exact; [lia | apply Z.gcd_divide_l]).
  assert (Hd' : d = g * (d ÷ g)) by (apply quot_exact; [lia | apply Z.gcd_divide_r]).
  repeat split; auto. apply Z.gcd_quot_gcd; [lia | reflexivity].
Qed.

Lemma reduced_unique n1 d1 n2 d2 :
  0 < d1 -> 0 < d2 -> Z.gcd n1 d1 = 1 -> Z.gcd n2 d2 = 1 -> n1 * d2 = n2 * d1 ->
  n1 = n2 /\ d1 = d2.
Proof.
  intros H1 H2 G1 G2 E.
  assert (D12 : (d1 | d2)).
  { apply Z.gauss with n1; [exists n2; lia |]. rewrite Z.gcd_comm. exact G1. }
  assert (D21 : (d2 | d1)).
  { apply Z.gauss with n2; [exists n1; lia |]. rewrite Z.gcd_comm. exact G2. }
  assert (d1 = d2).
  { apply Z.divide_antisym_nonneg; auto; lia. }
  subst. split; auto. nia.
Qed.

Lemma fits32_spec z : fits32 z = true <-> i32_min <= z <= i32_max.
Proof. unfold fits32. rewrite andb_true_iff, !Z.leb_le. tauto. Qed.
Lemma fits_isize_spec z : fits_isize z = true <-> isize_min <= z <= isize_max.
Proof. unfold fits_isize. rewrite andb_true_iff, !Z.leb_le. tauto. Qed.
Lemma fits32_isize z : fits32 z = true -> fits_isize z = true.
Proof.
  intros F. apply fits32_spec in F. apply fits_isize_spec.
  unfold i32_min, i32_max, isize_min, isize_max in *. lia.
Qed.
(* i32 negation overflows only on i32::MIN *)
Lemma fits32_opp z : fits32 z = true -> i32_min < z -> fits32 (0 - z) = true.
Proof. intros F Hm. apply fits32_spec in F. apply fits32_spec. unfold i32_min, i32_max in *. lia. Qed.
Lemma chk32_some z : fits32 z = true -> chk32 z = Some z.
Proof. unfold chk32. now intros ->. Qed.
Lemma chk32_inv z r : chk32 z = Some r -> r = z /\ fits32 z = true.
Proof. unfold chk32. destruct (fits32 z); intros H; inversion H; auto. Qed.

Lemma gcd32_pos_r a d : 0 < d -> fits32 d = true -> gcd32 a d = Some (Z.gcd a d).
Proof.
  intros Hd Fd. unfold gcd32. apply chk32_some. apply fits32_spec in Fd. apply fits32_spec.
  assert (Z.gcd a d <= d) by (apply Z.divide_pos_le; [lia | apply Z.gcd_divide_r]).
  pose proof (Z.gcd_nonneg a d). unfold i32_min in *. lia.
Qed.
Lemma gcd32_pos_l d a : 0 < d -> fits32 d = true -> gcd32 d a = Some (Z.gcd d a).
Proof. intros. unfold gcd32. rewrite Z.gcd_comm. apply gcd32_pos_r; auto. Qed.

Lemma gcd_0sub_l n d : Z.gcd (0 - n) d = Z.gcd n d.
Proof. rewrite Z.sub_0_l. apply Z.gcd_opp_l. Qed.
Lemma gcd_0sub_r n d : Z.gcd n (0 - d) = Z.gcd n d.
Proof. rewrite Z.sub_0_l. apply Z.gcd_opp_r. Qed.

Lemma canonical_Rat32_inv n d : canonical (Rat32 n d) ->
  Z.gcd n d = 1 /\ fits32 n = true /\ fits32 d = true /\ i32_min < n.
Proof.
  simpl. intros [A [B [C [D G]]]]. repeat split; auto; apply fits32_spec; unfold i32_min, i32_max in *; lia.
Qed.

(* Ratio::new divides both components by a common factor [k]: the gcd, negative when the
   denominator is *)
Lemma bigrat_new_spec n d :
  d <> 0 ->
  exists k n' d', bigrat_new n d = Some (n', d') /\ 0 < d' /\ Z.gcd n' d' = 1 /\ n = k * n' /\ d = k * d'.
Proof.
  intros Hd. unfold bigrat_new.
  destruct (Z.eqb_spec d 0) as [E|_]; [contradiction|].
  destruct (Z.eqb_spec n 0) as [->|_]; [exists d, 0, 1; repeat split; auto; lia|].
  destruct (Z.eqb_spec n d) as [->|_]; [exists d, 1, 1; repeat split; auto; lia|].
  cbv zeta. destruct (gcd_cofactors n d Hd) as (g & n' & d' & -> & -> & -> & Hg & Hn & Hdd & G).
  destruct (Z.ltb_spec d' 0).
  - exists (0 - g), (0 - n'), (0 - d'). rewrite gcd_0sub_l, gcd_0sub_r. repeat split; auto; lia.
  - exists g, n', d'. repeat split; auto. nia.
Qed.

(* on a positive i32 denominator Ratio::<i32>::new meets none of its overflows *)
Lemma rat32_new_big n d : 0 < d -> fits32 d = true -> rat32_new n d = bigrat_new n d.
Proof.
  intros Hd Fd. unfold rat32_new, bigrat_new. rewrite (gcd32_pos_r n d Hd Fd). cbv beta iota zeta.
  (* the reduced denominator is not negative, so the branch with the checked negations is not taken *)
  assert (Hg : 0 < Z.gcd n d) by (apply gcd_pos_r; lia).
  assert (E : (d ÷ Z.gcd n d <? 0) = false) by (apply Z.ltb_ge, Z.quot_pos; lia).
  rewrite E. reflexivity.
Qed.

Lemma fits32_factor k z : 0 < k -> fits32 (k * z) = true -> fits32 z = true.
Proof. intros Hk F. apply fits32_spec in F. apply fits32_spec. unfold i32_min, i32_max in *. nia. Qed.

(* ... so it cannot panic, and it reduces exactly *)
Lemma rat32_new_pos n d :
  0 < d -> fits32 n = true -> fits32 d = true ->
  exists n' d', rat32_new n d = Some (n', d') /\ 0 < d' /\ Z.gcd n' d' = 1 /\ n' * d = n * d' /\
                fits32 n' = true /\ fits32 d' = true.
Proof.
  intros Hd Fn Fd. rewrite (rat32_new_big n d Hd Fd).
  destruct (bigrat_new_spec n d) as (k & n' & d' & E & Hp & G & Hn & Hdd); [lia|].
  assert (Hk : 0 < k) by nia. rewrite Hn in Fn. rewrite Hdd in Fd.
  exists n', d'. repeat split; eauto using cross1, fits32_factor.
Qed.

Lemma rat32_new_id n d :
  0 < d -> Z.gcd n d = 1 -> fits32 n = true -> fits32 d = true -> rat32_new n d = Some (n, d).
Proof.
  intros Hd G Fn Fd. destruct (rat32_new_pos n d Hd Fn Fd) as [n' [d' [E [Hd' [G' [X _]]]]]].
  rewrite E. destruct (reduced_unique n' d' n d Hd' Hd G' G X) as [-> ->]. reflexivity.
Qed.

Lemma rat32_new_one_over_neg a : a < 0 -> fits32 a = true -> i32_min < a ->
  rat32_new 1 a = Some (-1, 0 - a).
Proof.
  intros Ha F Hm. unfold rat32_new.
  destruct (a =? 0) eqn:E0; [apply Z.eqb_eq in E0; lia|].
  change (1 =? 0) with false. cbv iota.
  destruct (1 =? a) eqn:E1; [apply Z.eqb_eq in E1; lia|].
  unfold gcd32. rewrite Z.gcd_1_l. change (chk32 1) with (Some 1). cbv iota beta.
  rewrite !Z.quot_1_r. apply Z.ltb_lt in Ha. rewrite Ha, (chk32_some _ (fits32_opp a F Hm)). reflexivity.
Qed.

Lemma of_bigint_spec z :
  is_integer (of_bigint z) /\ canonical (of_bigint z) /\ numer (of_bigint z) = z /\ denom (of_bigint z) = 1.
Proof. unfold of_bigint. destruct (fits_isize z) eqn:E; simpl; auto. Qed.

Lemma of_bigint_exact z N D : z * D = N -> Exact (Ok (of_bigint z)) N D.
Proof.
  intros <-. apply (exact_ok _ _ _ _ _ (proj2 (of_bigint_spec z))). lia.
Qed.

(* the checked isize operation and its BigInt fall-back produce the same value *)
Lemma chk_isize_of_bigint z :
  match chk_isize z with Some r => Ok (IntV r) | None => Ok (of_bigint z) end = Ok (of_bigint z).
Proof. unfold chk_isize, of_bigint. destruct (fits_isize z); reflexivity. Qed.

Lemma of_rat32_spec n d :
  0 < d -> Z.gcd n d = 1 -> fits32 n = true -> fits32 d = true ->
  canonical (of_rat32 n d) /\ numer (of_rat32 n d) = n /\ denom (of_rat32 n d) = d.
Proof.
  intros Hd G Fn Fd. unfold of_rat32.
  destruct (d =? 1) eqn:E1.
  - apply Z.eqb_eq in E1. subst. simpl. auto using fits32_isize.
  - apply Z.eqb_neq in E1. destruct (n =? i32_min) eqn:E2; simpl.
    + apply Z.eqb_eq in E2. repeat split; auto; try lia;
        try (rewrite Fn, Fd; subst n; reflexivity).
    + apply Z.eqb_neq in E2. apply fits32_spec in Fn, Fd. repeat split; auto; lia.
Qed.

Lemma of_rat32_exact n d N D :
  0 < d -> Z.gcd n d = 1 -> fits32 n = true -> fits32 d = true -> n * D = N * d ->
  Exact (Ok (of_rat32 n d)) N D.
Proof.
  intros Hd G Fn Fd. apply exact_ok, of_rat32_spec; assumption.
Qed.

Lemma of_bigrat_spec n d :
  0 < d -> Z.gcd n d = 1 ->
  exists v, of_bigrat n d = Ok v /\ canonical v /\ numer v = n /\ denom v = d.
Proof.
  intros Hd G. unfold of_bigrat.
  destruct (d =? 1) eqn:E1.
  - apply Z.eqb_eq in E1. subst. exists (of_bigint n). split; auto.
    apply of_bigint_spec.
  - apply Z.eqb_neq in E1.
    destruct (fits32 n && fits32 d && negb (n =? i32_min)) eqn:F.
    + apply andb_true_iff in F as [F F3]. apply andb_true_iff in F as [F1 F2].
      rewrite rat32_new_id by auto.
      exists (of_rat32 n d). split; auto. apply of_rat32_spec; auto.
    + exists (BigRat n d). simpl. repeat split; auto. lia.
Qed.

Lemma of_bigrat_exact n d N D : 0 < d -> Z.gcd n d = 1 -> n * D = N * d -> Exact (of_bigrat n d) N D.
Proof.
  intros Hd G. destruct (of_bigrat_spec n d Hd G) as [v [-> S]]. exact (exact_ok _ _ _ _ _ S).
Qed.

Lemma of_bigrat_new_exact n d N D : d <> 0 -> n * D = N * d -> Exact (of_bigrat_new n d) N D.
Proof.
  intros Hd H. unfold of_bigrat_new.
  destruct (bigrat_new_spec n d Hd) as (k & n' & d' & E & Hp & G & Hn & Hdd). rewrite E.
  apply (exact_scale _ n d); [apply of_bigrat_exact; eauto using cross1|exact Hd|exact H].
Qed.

Lemma omul32_inv a b r : omul32 a b = Some r -> r = a * b /\ fits32 (a * b) = true.
Proof. apply chk32_inv. Qed.

Definition chk_ok (c : chk) (N D : Z) : Prop :=
  match c with
  | CPanic => False
  | COverflow => True
  | CVal n d => 0 < d /\ Z.gcd n d = 1 /\ fits32 n = true /\ fits32 d = true /\ n * D = N * d
  end.

(* both operations end in Ratio::new on a positive denominator *)
Lemma chk_new s l N D : 0 < l -> fits32 s = true -> fits32 l = true -> s * D = N * l ->
  chk_ok (match rat32_new s l with Some (n, d) => CVal n d | None => CPanic end) N D.
Proof.
  intros Hl Fs Fl X. destruct (rat32_new_pos s l Hl Fs Fl) as [n' [d' [E [Hp [G [Y [Fn Fd]]]]]]].
  rewrite E. repeat split; try assumption. apply (cross_trans _ _ s l); [lia|exact Y|exact X].
Qed.

Lemma addsub_spec sub n1 d1 n2 d2 :
  0 < d1 -> 0 < d2 -> fits32 d2 = true ->
  chk_ok (rat32_checked_addsub sub n1 d1 n2 d2)
         (if sub then n1 * d2 - n2 * d1 else n1 * d2 + n2 * d1) (d1 * d2).
Proof.
  intros H1 H2 F2. unfold rat32_checked_addsub. rewrite (gcd32_pos_r d1 d2 H2 F2).
  destruct (gcd_cofactors d1 d2) as (g & q1 & q2 & -> & -> & _ & Hg & -> & -> & _); [lia|].
  assert (Hq1 : 0 < q1) by nia.
  destruct (omul32 q1 (g * q2)) as [lcm|] eqn:EL; [|exact I]. apply omul32_inv in EL as [EL FL].
  (* the common denominator is q1 * d2 = q2 * d1, so dividing it by d1 and d2 gives the cofactors back *)
  assert (L1 : lcm ÷ (g * q1) = q2) by (replace lcm with (q2 * (g * q1)) by lia; apply Z.quot_mul; lia).
  assert (L2 : lcm ÷ (g * q2) = q1) by (rewrite EL; apply Z.quot_mul; lia).
  rewrite L1, L2.
  destruct (omul32 q2 n1) as [l|] eqn:El; [|exact I]. destruct (omul32 q1 n2) as [r|] eqn:Er; [|exact I].
  apply omul32_inv in El as [-> _]. apply omul32_inv in Er as [-> _].
  destruct (chk32 _) as [s|] eqn:Es; [|exact I]. apply chk32_inv in Es as [-> Fs].
  subst lcm. apply chk_new; [apply Z.mul_pos_pos; assumption|exact Fs|exact FL|destruct sub; lia].
Qed.

Lemma mul_spec n1 d1 n2 d2 :
  0 < d1 -> 0 < d2 -> fits32 d1 = true -> fits32 d2 = true ->
  chk_ok (rat32_checked_mul n1 d1 n2 d2) (n1 * n2) (d1 * d2).
Proof.
  intros H1 H2 F1 F2. unfold rat32_checked_mul.
  rewrite (gcd32_pos_r n1 d2 H2 F2), (gcd32_pos_l d1 n2 H1 F1), (Z.gcd_comm d1 n2).
  destruct (gcd_cofactors n1 d2) as (gad & a1 & b1 & -> & -> & -> & Hg1 & -> & -> & _); [lia|].
  destruct (gcd_cofactors n2 d1) as (gbc & a2 & b2 & -> & -> & -> & Hg2 & -> & -> & _); [lia|].
  destruct (omul32 a1 a2) as [n|] eqn:En; [|exact I]. destruct (omul32 b2 b1) as [d|] eqn:Ed; [|exact I].
  apply omul32_inv in En as [-> Fn]. apply omul32_inv in Ed as [-> Fd].
  apply chk_new; [nia|exact Fn|exact Fd|lia].
Qed.

(* the three outcomes of a checked Ratio<i32> operation, as add_rat32 / mul_rat32 consume them *)
Lemma chk_exact c big site N D :
  chk_ok c N D -> Exact big N D ->
  Exact (match c with CVal n d => Ok (of_rat32 n d) | COverflow => big | CPanic => Panic site end) N D.
Proof.
  destruct c as [| |n d]; [auto|contradiction|]. intros [Hp [G [Fn [Fd X]]]] _. apply of_rat32_exact; assumption.
Qed.

(* [add_two] / [multiply_two] are one dispatch over the pairs of representations; [op2] ranges over the model's own two
   functions, so no copy of the dispatch.  Per member: integer op, Ratio<i32> op, BigRational fall-back, panic site. *)
Inductive bop := OAdd | OMul.
Definition op2 (o : bop) : num -> num -> res := match o with OAdd => add_two | OMul => multiply_two end.
Definition zop2 (o : bop) : Z -> Z -> Z := match o with OAdd => Z.add | OMul => Z.mul end.
Definition rop2 (o : bop) : Z -> Z -> Z -> Z -> res := match o with OAdd => add_rat32 | OMul => mul_rat32 end.
Definition bop2 (o : bop) : Z -> Z -> Z -> Z -> res := match o with OAdd => big_add | OMul => big_mul end.
(* numerator of the result from numerators and denominators of the operands; the denominator is d1 * d2 *)
Definition num2 (o : bop) (n1 d1 n2 d2 : Z) : Z := match o with OAdd => n1 * d2 + n2 * d1 | OMul => n1 * n2 end.

Lemma op2_exact o x y : canonical x -> canonical y ->
  Exact (op2 o x y) (num2 o (numer x) (denom x) (numer y) (denom y)) (denom x * denom y).
Proof.
  intros Cx Cy.
  pose proof (canonical_denom_pos x Cx) as Px. pose proof (canonical_denom_pos y Cy) as Py.
  (* the four facts: two integers; the BigRational fall-back; the Ratio<i32> operation (a value, or the fall-back
     on overflow); an integer beside a Rational32 *)
  assert (Hz : forall a b, Exact (Ok (of_bigint (zop2 o a b))) (num2 o a 1 b 1) (1 * 1))
    by (intros a b; apply of_bigint_exact; destruct o; cbn [zop2 num2]; lia).
  assert (Hb : forall n1 d1 n2 d2, 0 < d1 -> 0 < d2 -> Exact (bop2 o n1 d1 n2 d2) (num2 o n1 d1 n2 d2) (d1 * d2))
    by (destruct o; intros; apply of_bigrat_new_exact; (nia || reflexivity)).
  assert (Hr : forall n1 d1 n2 d2, 0 < d1 -> 0 < d2 -> fits32 d1 = true -> fits32 d2 = true ->
            Exact (rop2 o n1 d1 n2 d2) (num2 o n1 d1 n2 d2) (d1 * d2))
    by (destruct o; intros; (apply chk_exact; [first [apply (addsub_spec false) | apply mul_spec] | apply Hb]);
        assumption).
  (* promoted to Rational32 when it fits, to BigRational otherwise *)
  assert (Hm : forall site n d i, 0 < d -> fits32 d = true ->
            Exact (if fits32 i
                   then match rat32_new i 1 with Some (i', one) => rop2 o n d i' one | None => Panic site end
                   else bop2 o n d i 1) (num2 o n d i 1) (d * 1)).
  { intros site n d i Hd Fd. destruct (fits32 i) eqn:Fi; [|apply Hb; lia].
    rewrite rat32_new_id by (auto using Z.gcd_1_r; lia). apply Hr; auto; lia. }
  assert (Fd : forall n d, canonical (Rat32 n d) -> fits32 d = true)
    by (intros n d C; apply (canonical_Rat32_inv n d C)).
  assert (Sw : forall r n1 d1 n2 d2, Exact r (num2 o n2 d2 n1 d1) (d2 * d1) -> Exact r (num2 o n1 d1 n2 d2) (d1 * d2)).
  { intros r n1 d1 n2 d2. replace (num2 o n2 d2 n1 d1) with (num2 o n1 d1 n2 d2) by (destruct o; cbn [num2]; lia).
    rewrite Z.mul_comm. auto. }
  (* every pair of representations is an instance of Hz, Hr, Hm or Hb, for the operands as given or swapped *)
  destruct o, x as [a|a|n1 d1|n1 d1], y as [b|b|n2 d2|n2 d2];
    cbn [op2 zop2 rop2 bop2 add_two multiply_two numer denom] in *; rewrite ?chk_isize_of_bigint;
    first [ apply Hb; assumption | apply Hz | apply Hm; eauto | apply Hr; eauto
          | apply Sw; first [apply Hb; assumption | apply Hz | apply Hm; eauto] ].
Qed.

Lemma negate_exact a : canonical a -> Exact (negate a) (- numer a) (denom a).
Proof.
  intros Ca. pose proof (canonical_denom_pos a Ca) as Pa.
  destruct a as [a|a|n d|n d]; cbn [negate numer denom] in *.
  - rewrite chk_isize_of_bigint. apply of_bigint_exact. lia.
  - apply of_bigint_exact. lia.
  - destruct (canonical_Rat32_inv _ _ Ca) as [G [Fn [Fd Hm]]].
    pose proof (fits32_opp n Fn Hm) as F. rewrite <- (gcd_0sub_l n d) in G.
    rewrite (chk32_some _ F), rat32_new_id by assumption. apply of_rat32_exact; auto; lia.
  - destruct Ca as [_ [G _]]. apply of_bigrat_exact; [exact Pa|rewrite gcd_0sub_l; exact G|lia].
Qed.

Lemma abs_exact a : canonical a -> Exact (abs a) (Z.abs (numer a)) (denom a).
Proof.
  intros Ca. pose proof (canonical_denom_pos a Ca) as Pa.
  destruct a as [a|a|n d|n d]; cbn [abs numer denom] in *.
  - rewrite chk_isize_of_bigint. apply of_bigint_exact. lia.
  - apply of_bigint_exact. lia.
  - destruct (canonical_Rat32_inv _ _ Ca) as [G [Fn [Fd Hm]]].
    destruct (n <? 0) eqn:E.
    + apply Z.ltb_lt in E. pose proof (fits32_opp n Fn Hm) as F. rewrite <- (gcd_0sub_l n d) in G.
      rewrite (chk32_some _ F). apply of_rat32_exact; auto. lia.
    + apply Z.ltb_ge in E. apply of_rat32_exact; auto. lia.
  - destruct Ca as [_ [G _]]. apply of_bigrat_exact; [exact Pa|rewrite Z.gcd_abs_l; exact G|lia].
Qed.

Lemma recip_exact a :
  canonical a -> numer a <> 0 -> Exact (recip a) (denom a) (numer a).
Proof.
  intros Ca Nz. pose proof (canonical_denom_pos a Ca) as Pa.
  pose proof (proj2 (Z.eqb_neq _ _) Nz) as Ez.
  destruct a as [a|a|n d|n d]; cbn [recip numer denom] in *; rewrite ?Ez.
  - destruct (fits32 a) eqn:Fa; [|apply of_bigrat_new_exact; auto].
    destruct (Z.eqb_spec a i32_min) as [|E1]; [apply of_bigrat_new_exact; auto|].
    assert (Hm : i32_min < a) by (apply fits32_spec in Fa; lia).
    destruct (Z_lt_le_dec a 0) as [E3|E3].
    + rewrite rat32_new_one_over_neg by assumption.
      apply of_rat32_exact; auto using fits32_opp; try lia.
      rewrite gcd_0sub_r. apply Z.gcd_1_l.
    + rewrite rat32_new_id by (auto using Z.gcd_1_l; lia).
      apply of_rat32_exact; auto using Z.gcd_1_l; lia.
  - apply of_bigrat_new_exact; auto.
  - destruct (canonical_Rat32_inv _ _ Ca) as [G [Fn [Fd Hm]]]. rewrite Z.gcd_comm in G.
    destruct (Z.ltb_spec 0 n) as [E1|E1]; [apply of_rat32_exact; auto; lia|].
    assert (F1 : fits32 (0 - d) = true) by (apply fits32_opp; [exact Fd|unfold i32_min; lia]).
    rewrite (chk32_some _ F1), (chk32_some _ (fits32_opp n Fn Hm)).
    apply of_rat32_exact; auto using fits32_opp; try lia.
    rewrite gcd_0sub_l, gcd_0sub_r. exact G.
  - destruct Ca as [_ [G _]]. rewrite Z.gcd_comm in G.
    destruct (Z.ltb_spec 0 n) as [E1|E1]; [apply of_bigrat_exact; auto; lia|].
    apply of_bigrat_exact; [lia|rewrite gcd_0sub_l, gcd_0sub_r; exact G|lia].
Qed.

Definition ExactQ (r : res) (q : Q) : Prop :=
  exists v, r = Ok v /\ canonical v /\ (denote v == q)%Q.

Lemma ExactQ_proper r q q' : (q == q')%Q -> ExactQ r q -> ExactQ r q'.
Proof. intros H [v [E [C X]]]. exists v. repeat split; auto. now rewrite X. Qed.

(* The bridge between the two levels: the denominator of a canonical value is the positive under its [denote].
   Once the denominators of the operands are written so, [+], [*], [-], [Qabs], [==], [?=] on denotations unfold to
   the cross-multiplied integers of the Z level, and a reading in Q is its [Exact] statement up to conversion. *)
Lemma denom_pos v : canonical v -> denom v = Z.pos (Qden (denote v)).
Proof. intros C. symmetry. apply Z2Pos.id, canonical_denom_pos, C. Qed.

Lemma Exact_Q r N p : Exact r N (Z.pos p) -> ExactQ r (N # p).
Proof. intros [v [E [C X]]]. rewrite (denom_pos v C) in X. exists v. exact (conj E (conj C X)). Qed.

Lemma denote_zero a : (denote a == 0)%Q <-> numer a = 0.
Proof. unfold denote, Qeq. simpl. lia. Qed.

Fixpoint all_canonical (l : list num) : Prop :=
  match l with [] => True | x :: r => canonical x /\ all_canonical r end.

Fixpoint qsum (l : list num) : Q := match l with [] => 0%Q | x :: r => (denote x + qsum r)%Q end.
Fixpoint qprod (l : list num) : Q := match l with [] => 1%Q | x :: r => (denote x * qprod r)%Q end.

(* [add_n] / [mul_n]: a left fold of an exact binary operation computes the right-nested
   sum / product [qfold], for any operation [qop] on Q that is associative with right unit [u] *)
Section Fold.
  Variables (f : num -> num -> res) (qop : Q -> Q -> Q) (u : num).
  Definition qfold : list num -> Q :=
    fix go l := match l with [] => denote u | x :: r => qop (denote x) (go r) end.
  Hypothesis Hf : forall a b, canonical a -> canonical b -> ExactQ (f a b) (qop (denote a) (denote b)).
  Hypothesis Hcomp : Proper (Qeq ==> Qeq ==> Qeq) qop.
  Hypothesis Hassoc : forall x y z, (qop x (qop y z) == qop (qop x y) z)%Q.
  Hypothesis Hunit : forall x, (qop x (denote u) == x)%Q.
  Hypothesis Hu : canonical u.

  Lemma fold_res_Q l : forall acc, canonical acc -> all_canonical l ->
    ExactQ (fold_res f acc l) (qop (denote acc) (qfold l)).
  Proof.
    induction l as [|z zs IH]; intros acc Ca Cl; simpl.
    - exists acc. repeat split; auto. symmetry. apply Hunit.
    - destruct Cl as [Cz Cl]. destruct (Hf acc z Ca Cz) as [v [E [Cv X]]].
      rewrite E. simpl. eapply ExactQ_proper; [|apply IH; auto].
      rewrite Hassoc. apply Hcomp; [exact X|reflexivity].
  Qed.

  Lemma fold_n_Q l : all_canonical l ->
    ExactQ (match l with [] => Ok u | x :: ys => fold_res f x ys end) (qfold l).
  Proof.
    destruct l as [|x ys]; simpl.
    - intros _. exists u. repeat split; auto; reflexivity.
    - intros [Cx Cy]. apply fold_res_Q; auto.
  Qed.
End Fold.

Lemma denote_eq_cross a b : canonical a -> canonical b ->
  (denote a == denote b)%Q <-> numer a * denom b = numer b * denom a.
Proof. intros Ca Cb. rewrite (denom_pos a Ca), (denom_pos b Cb). reflexivity. Qed.

(* a canonical value is determined by its numerator and denominator: the ranges of the two integer
   and of the two rational representations are disjoint *)
Lemma canonical_repr_inj a b :
  canonical a -> canonical b -> numer a = numer b -> denom a = denom b -> a = b.
Proof.
  assert (X : forall n d n' d', canonical (Rat32 n d) -> canonical (BigRat n' d') -> n = n' -> d = d' -> False).
  { intros n d n' d' C [_ [_ F]] <- <-. destruct (canonical_Rat32_inv n d C) as [_ [Fn [Fd Hm]]].
    rewrite Fn, Fd in F. apply Z.lt_neq, not_eq_sym, Z.eqb_neq in Hm. rewrite Hm in F. discriminate. }
  destruct a, b; simpl numer; simpl denom; intros Ca Cb En Ed; subst; try reflexivity;
    try (simpl in Ca, Cb; congruence); try (simpl in Ca, Cb; lia); exfalso; eauto.
Qed.

Lemma int_of_integer v : is_integer v -> int_of v = Some (numer v).
Proof. destruct v; simpl; intros H; try contradiction; reflexivity. Qed.

Lemma quot_abs_le a b : b <> 0 -> Z.abs (Z.quot a b) <= Z.abs a.
Proof.
  intros Hb. rewrite <- Z.quot_abs by auto.
  destruct (Z.eq_dec a 0) as [->|Ha]; [rewrite Z.quot_0_l by lia; simpl; lia|].
  apply Z.quot_le_upper_bound; try lia; nia.
Qed.

Definition ExactZ (r : res) (z : Z) : Prop :=
  exists v, r = Ok v /\ canonical v /\ is_integer v /\ numer v = z.

Lemma of_bigint_Z z : ExactZ (Ok (of_bigint z)) z.
Proof. exists (of_bigint z). destruct (of_bigint_spec z) as [I [C [N _]]]. auto. Qed.

Lemma int_div_op_spec f site :
  (forall l r, r <> 0 -> fits_isize l = true -> fits_isize r = true ->
               ~ (l = isize_min /\ r = -1) -> fits_isize (f l r) = true) ->
  forall a b, canonical a -> canonical b -> is_integer a -> is_integer b ->
  if numer b =? 0 then int_div_op f site a b = ErrDivZero
  else ExactZ (int_div_op f site a b) (f (numer a) (numer b)).
Proof.
  intros Hf a b Ca Cb Ia Ib.
  destruct a as [l|l|?|?], b as [r|r|?|?]; simpl in Ia, Ib; try contradiction;
    cbn [int_div_op int_of numer]; destruct (r =? 0) eqn:E0; try reflexivity; try apply of_bigint_Z.
  apply Z.eqb_neq in E0.
  destruct ((l =? isize_min) && (r =? -1)) eqn:E1; [apply of_bigint_Z|].
  assert (H : ~ (l = isize_min /\ r = -1)).
  { intros [-> ->]. rewrite !Z.eqb_refl in E1. discriminate. }
  unfold chk_isize. rewrite (Hf l r E0 Ca Cb H).
  exists (IntV (f l r)). split; [reflexivity|]. split; [simpl; apply Hf; auto|]. split; [exact I | reflexivity].
Qed.

(* in a two's-complement range [-m, m-1] only MIN / -1 leaves the range *)
Lemma quot_range m l r : r <> 0 -> - m <= l <= m - 1 -> ~ (l = - m /\ r = -1) ->
  - m <= Z.quot l r <= m - 1.
Proof.
  intros Hr Hl Hn.
  destruct (Z.eq_dec l (- m)) as [->|El]; [|pose proof (quot_abs_le l r Hr); lia].
  destruct (Z.eq_dec r 1) as [->|R1]; [rewrite Z.quot_1_r; lia|].
  (* |l| = m: the quotient reaches m only for r = -1 *)
  assert (Z.abs (Z.quot (- m) r) < m); [|lia].
  rewrite <- Z.quot_abs by assumption. replace (Z.abs (- m)) with m by lia. apply Z.quot_lt; lia.
Qed.

Lemma fits_quot l r : r <> 0 -> fits_isize l = true -> fits_isize r = true ->
  ~ (l = isize_min /\ r = -1) -> fits_isize (Z.quot l r) = true.
Proof.
  intros Hr Fl _ Hn. apply fits_isize_spec in Fl. apply fits_isize_spec.
  exact (quot_range 9223372036854775808 l r Hr Fl Hn).
Qed.

Lemma fits_below f : (forall l r, r <> 0 -> Z.abs (f l r) < Z.abs r) ->
  forall l r, r <> 0 -> fits_isize l = true -> fits_isize r = true ->
  ~ (l = isize_min /\ r = -1) -> fits_isize (f l r) = true.
Proof.
  intros Hf l r Hr _ Fr _. apply fits_isize_spec in Fr. apply fits_isize_spec.
  pose proof (Hf l r Hr). unfold isize_min, isize_max in *. lia.
Qed.

Lemma abs_integer a : is_integer a -> ExactZ (abs a) (Z.abs (numer a)).
Proof.
  intros Ia. destruct a as [z|z|?|?]; simpl in Ia; try contradiction; cbn [abs numer];
    rewrite ?chk_isize_of_bigint; apply of_bigint_Z.
Qed.

Lemma gcd_loop_S f a b z : int_of b = Some z ->
  gcd_loop (S f) a b =
  if z =? 0 then Some (abs a) else match modulo a b with Ok m => gcd_loop f b m | e => Some e end.
Proof. intros H. cbn [gcd_loop]. rewrite H. destruct z; reflexivity. Qed.

