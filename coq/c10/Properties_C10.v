(* C10 — the property theorems.  The exactness theorems read a Z-level statement of Proofs_C10.v ([Exact]) in Q
   through [Exact_Q]; the variadic ones instantiate [fold_n_Q].
   The statements are checked again in Pins_C10.v (compiled on every run together with Print Assumptions). *)
From Coq Require Import ZArith List QArith Qabs Lia.
From SV Require Import c10.Model_C10 c10.Proofs_C10.
Import ListNotations.

(* On canonical operands every exact operation succeeds (no Panic, no spurious error), returns a
   canonical value, and that value denotes the mathematically exact result. *)
Theorem C10_add_exact : forall a b, canonical a -> canonical b ->
  exists v, add_two a b = Ok v /\ canonical v /\ (denote v == denote a + denote b)%Q.
Proof.
  intros a b Ca Cb. pose proof (op2_exact OAdd a b Ca Cb) as H.
  rewrite (denom_pos a Ca), (denom_pos b Cb) in H. exact (Exact_Q _ _ _ H).
Qed.

Theorem C10_mul_exact : forall a b, canonical a -> canonical b ->
  exists v, multiply_two a b = Ok v /\ canonical v /\ (denote v == denote a * denote b)%Q.
Proof.
  intros a b Ca Cb. pose proof (op2_exact OMul a b Ca Cb) as H.
  rewrite (denom_pos a Ca), (denom_pos b Cb) in H. exact (Exact_Q _ _ _ H).
Qed.

Theorem C10_neg_exact : forall a, canonical a ->
  exists v, negate a = Ok v /\ canonical v /\ (denote v == - denote a)%Q.
Proof.
  intros a Ca. pose proof (negate_exact a Ca) as H. rewrite (denom_pos a Ca) in H. exact (Exact_Q _ _ _ H).
Qed.

Theorem C10_abs_exact : forall a, canonical a ->
  exists v, abs a = Ok v /\ canonical v /\ (denote v == Qabs (denote a))%Q.
Proof.
  intros a Ca. pose proof (abs_exact a Ca) as H. rewrite (denom_pos a Ca) in H. exact (Exact_Q _ _ _ H).
Qed.

Theorem C10_recip_exact : forall a, canonical a -> ~ (denote a == 0)%Q ->
  exists v, recip a = Ok v /\ canonical v /\ (denote v == / denote a)%Q.
Proof.
  intros a Ca Nz.
  assert (Hn : numer a <> 0) by (intros E; apply Nz; now apply denote_zero).
  pose proof (recip_exact a Ca Hn) as H. rewrite (denom_pos a Ca) in H.
  unfold Qinv. cbn [denote Qnum].
  (* [Qinv] keeps the denominator positive: under a negative numerator it negates both components *)
  destruct (numer a) as [|p|p]; [congruence| |]; apply Exact_Q; [exact H|].
  apply (exact_scale _ _ _ _ _ H); lia.
Qed.

Theorem C10_recip_zero : forall a, canonical a -> numer a = 0 -> recip a = ErrDivZero.
Proof.
  intros a Ca Nz. pose proof (canonical_reduced a Ca) as G. pose proof (canonical_denom_pos a Ca) as P.
  rewrite Nz, Z.gcd_0_l in G.
  destruct a as [a|a|n d|n d]; cbn [numer denom] in *;
    [subst; reflexivity|subst; discriminate Ca|simpl in Ca; lia..].
Qed.

(* `+` `*` `-` `/` as registered (add_primitive, multiply_primitive_impl, subtract_primitive, divide_primitive)
   fold the binary operations over the argument list: on canonical arguments the result is the exact sum /
   product / difference / quotient, one operand of `-` is negated and of `/` inverted, and a divisor whose
   value is zero gives the division-by-zero error. *)
Theorem C10_add_variadic : forall l, all_canonical l ->
  exists v, add_n l = Ok v /\ canonical v /\ (denote v == qsum l)%Q.
Proof.
  (* by conversion only: [qfold Qplus (IntV 0)] is [qsum], and C10_add_exact states [ExactQ (add_two a b) _] unfolded *)
  apply (fold_n_Q add_two Qplus (IntV 0) C10_add_exact Qplus_comp Qplus_assoc Qplus_0_r). reflexivity.
Qed.

Theorem C10_mul_variadic : forall l, all_canonical l ->
  exists v, mul_n l = Ok v /\ canonical v /\ (denote v == qprod l)%Q.
Proof.
  apply (fold_n_Q multiply_two Qmult (IntV 1) C10_mul_exact Qmult_comp Qmult_assoc Qmult_1_r). reflexivity.
Qed.

Theorem C10_sub_variadic : forall x ys, canonical x -> all_canonical ys ->
  exists r, sub_n (x :: ys) = Some r /\
    ExactQ r (match ys with [] => - denote x | _ => denote x - qsum ys end)%Q.
Proof.
  intros x ys Cx Cy. destruct ys as [|y ys'].
  - simpl. eexists; split; eauto. now apply C10_neg_exact.
  - cbn [sub_n]. eexists; split; [reflexivity|].
    destruct (C10_add_variadic (y :: ys') Cy) as [s [Es [Cs Xs]]]. rewrite Es. cbn [bind].
    destruct (C10_neg_exact s Cs) as [m [Em [Cm Xm]]]. rewrite Em. cbn [bind].
    eapply ExactQ_proper; [|apply C10_add_exact; auto]. rewrite Xm, Xs. reflexivity.
Qed.

(* division by an exact zero is the error value, never a panic *)
Lemma recip_total_Q d : canonical d ->
  if Qeq_bool (denote d) 0 then recip d = ErrDivZero else ExactQ (recip d) (/ denote d).
Proof.
  intros Cd. destruct (Qeq_bool (denote d) 0) eqn:E.
  - apply Qeq_bool_iff, denote_zero in E. apply C10_recip_zero; assumption.
  - apply C10_recip_exact; [exact Cd|]. rewrite <- Qeq_bool_iff, E. discriminate.
Qed.

Lemma div_two_Q x d q : canonical x -> canonical d -> (denote d == q)%Q ->
  if Qeq_bool q 0 then bind (recip d) (fun r => multiply_two x r) = ErrDivZero
  else ExactQ (bind (recip d) (fun r => multiply_two x r)) (denote x / q).
Proof.
  intros Cx Cd Hq. pose proof (recip_total_Q d Cd) as R.
  assert (E : Qeq_bool (denote d) 0 = Qeq_bool q 0) by (rewrite Hq; reflexivity). rewrite E in R.
  destruct (Qeq_bool q 0); [rewrite R; reflexivity|].
  destruct R as [v [Ev [Cv Xv]]]. rewrite Ev. cbn [bind].
  eapply ExactQ_proper; [|apply C10_mul_exact; auto]. rewrite Xv, Hq. reflexivity.
Qed.

Theorem C10_div_variadic : forall x ys, canonical x -> all_canonical ys ->
  exists r, div_n (x :: ys) = Some r /\
    match ys with
    | [] => if Qeq_bool (denote x) 0 then r = ErrDivZero else ExactQ r (/ denote x)
    | _ => if Qeq_bool (qprod ys) 0 then r = ErrDivZero else ExactQ r (denote x / qprod ys)
    end.
Proof.
  intros x ys Cx Cy. destruct ys as [|y [|z zs]]; cbn [div_n]; eexists; (split; [reflexivity|]).
  - apply recip_total_Q, Cx.
  - apply div_two_Q; [exact Cx|apply Cy|]. simpl. ring.
  - destruct (C10_mul_variadic (y :: z :: zs) Cy) as [d [Ed [Cd Xd]]]. rewrite Ed. cbn [bind].
    apply div_two_Q; assumption.
Qed.

Theorem C10_canonical_unique : forall a b, canonical a -> canonical b ->
  (denote a == denote b)%Q -> a = b.
Proof.
  intros a b Ca Cb E. apply denote_eq_cross in E; [|assumption..].
  destruct (reduced_unique _ _ _ _ (canonical_denom_pos a Ca) (canonical_denom_pos b Cb)
              (canonical_reduced a Ca) (canonical_reduced b Cb) E).
  apply canonical_repr_inj; assumption.
Qed.

(* comparison is consistent with the exact values; canonical forms are unique, so the
   representation-based `=` of the implementation is the mathematical one *)
Theorem C10_eq_correct : forall a b, canonical a -> canonical b ->
  (num_eq a b = true <-> (denote a == denote b)%Q).
Proof.
  intros a b Ca Cb. split.
  - rewrite denote_eq_cross by assumption.
    destruct a, b; try discriminate; intros E; apply Z.eqb_eq in E; cbn [numer denom]; lia.
  - intros E. rewrite <- (C10_canonical_unique a b Ca Cb E). destruct a; simpl; apply Z.eqb_refl.
Qed.

Theorem C10_cmp_correct : forall a b, canonical a -> canonical b ->
  num_cmp a b = (denote a ?= denote b)%Q.
Proof.
  intros a b Ca Cb. unfold num_cmp. rewrite (denom_pos a Ca), (denom_pos b Cb). reflexivity.
Qed.

(* integer division family: exact for integers of any magnitude (fixnum and bignum operands in every
   combination), division by zero is an error value, never a panic *)
Theorem C10_quotient_exact : forall a b, canonical a -> canonical b -> is_integer a -> is_integer b ->
  if (numer b =? 0)%Z then quotient a b = ErrDivZero
  else exists v, quotient a b = Ok v /\ canonical v /\ is_integer v /\ numer v = Z.quot (numer a) (numer b).
Proof. exact (int_div_op_spec _ _ fits_quot). Qed.

Theorem C10_remainder_exact : forall a b, canonical a -> canonical b -> is_integer a -> is_integer b ->
  if (numer b =? 0)%Z then remainder a b = ErrDivZero
  else exists v, remainder a b = Ok v /\ canonical v /\ is_integer v /\ numer v = Z.rem (numer a) (numer b).
Proof. exact (int_div_op_spec _ _ (fits_below _ Z.rem_bound_abs)). Qed.

Theorem C10_modulo_exact : forall a b, canonical a -> canonical b -> is_integer a -> is_integer b ->
  if (numer b =? 0)%Z then modulo a b = ErrDivZero
  else exists v, modulo a b = Ok v /\ canonical v /\ is_integer v /\ numer v = Z.modulo (numer a) (numer b).
Proof. exact (int_div_op_spec _ _ (fits_below _ Z.mod_bound_abs)). Qed.

(* gcd as the library defines it (Euclid over modulo) is the mathematical gcd; the fuel bound is explicit *)
Theorem C10_gcd_exact : forall fuel a b, canonical a -> canonical b -> is_integer a -> is_integer b ->
  (Z.to_nat (Z.abs (numer b)) < fuel)%nat ->
  exists v, gcd_loop fuel a b = Some (Ok v) /\ canonical v /\ is_integer v /\
            numer v = Z.gcd (numer a) (numer b).
Proof.
  induction fuel as [|f IH]; intros a b Ca Cb Ia Ib Hf; [lia|].
  rewrite (gcd_loop_S f a b _ (int_of_integer b Ib)).
  pose proof (C10_modulo_exact a b Ca Cb Ia Ib) as M.
  destruct (Z.eqb_spec (numer b) 0) as [E|E].
  - destruct (abs_integer a Ia) as [v [Ev [Cv [Iv Nv]]]].
    exists v. rewrite Ev. repeat split; auto. rewrite Nv, E, Z.gcd_0_r. reflexivity.
  - destruct M as [m [Em [Cm [Im Nm]]]]. rewrite Em.
    pose proof (Z.mod_bound_abs (numer a) (numer b) E) as Hlt.
    destruct (IH b m Cb Cm Ib Im) as [v [Ev [Cv [Iv Nv]]]]; [rewrite Nm; lia|].
    exists v. repeat split; auto. rewrite Nv, Nm.
    rewrite Z.gcd_comm, Z.gcd_mod by auto. apply Z.gcd_comm.
Qed.

Theorem C10_exact_integer_sqrt : forall a, canonical a -> is_integer a -> (0 <= numer a)%Z ->
  exists s r, exact_integer_sqrt a = Some (s, r) /\ canonical s /\ canonical r /\
              (numer s * numer s + numer r = numer a)%Z /\
              (numer s * numer s <= numer a < (numer s + 1) * (numer s + 1))%Z /\ (0 <= numer s)%Z.
Proof.
  intros a Ca Ia Hn. unfold exact_integer_sqrt. rewrite (int_of_integer a Ia).
  destruct (Z.ltb_spec (numer a) 0); [lia|].
  set (n := numer a) in *. set (s := Z.sqrt n).
  destruct (of_bigint_spec s) as [_ [Cs [Ns _]]]. destruct (of_bigint_spec (n - s * s)) as [_ [Cr [Nr _]]].
  do 2 eexists. split; [reflexivity|]. rewrite Ns, Nr.
  pose proof (Z.sqrt_spec n Hn) as S. pose proof (Z.sqrt_nonneg n). fold s in S.
  repeat split; auto; unfold Z.succ in *; lia.
Qed.

(* non-vacuity: the hypotheses are met by boundary values of every representation *)
Example C10_nonvacuous :
  canonical (IntV isize_max) /\ canonical (BigNum (isize_max + 1)) /\
  canonical (Rat32 (i32_min + 1) 3) /\ canonical (BigRat i32_min 3) /\
  canonical (BigRat 1 (i32_max + 1)).
Proof. repeat split; vm_compute; congruence. Qed.
