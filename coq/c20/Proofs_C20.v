From Coq Require Import ZArith List Bool String Lia.
From SV Require Import c20.Types_C20 gen.Gen_C20 c20.Model_C20 lib.ListFacts.
Import ListNotations.
Open Scope Z_scope.

(* two's complement with half range [h]: a value inside the range is its own representative *)
Lemma wrap_half_id : forall h z, -h <= z < h ->
  (if h <=? z mod (2 * h) then z mod (2 * h) - 2 * h else z mod (2 * h)) = z.
Proof.
  intros h z H. destruct (Z_lt_dec z 0) as [Hn|Hn].
  - rewrite <- (Z.mod_unique z (2 * h) (-1) (z + 2 * h)) by lia.
    destruct (Z.leb_spec h (z + 2 * h)); lia.
  - rewrite Z.mod_small by lia. destruct (Z.leb_spec h z); lia.
Qed.

Lemma wrap64_id : forall z, isize_min <= z <= isize_max -> wrap true 64 z = z.
Proof. intros z H. unfold isize_min, isize_max in H. apply (wrap_half_id (2 ^ 63)). lia. Qed.

Lemma fits_isize_iff : forall z, fits_isize z = true <-> isize_min <= z <= isize_max.
Proof.
  intros z. unfold fits_isize. rewrite andb_true_iff, !Z.leb_le. tauto.
Qed.

Lemma in_range_iff : forall t z, in_range t z = true <-> lo t <= z <= hi t.
Proof.
  intros t z. unfold in_range. rewrite andb_true_iff, !Z.leb_le. tauto.
Qed.

Lemma into_exact : forall t m x, into_ok t m = true -> in_range t x = true ->
  wf_sint (into_script m x) /\ sint_val (into_script m x) = x.
Proof.
  intros t m x Hok Hr. destruct m; cbn [into_script].
  - cbn [into_ok] in Hok. apply andb_true_iff in Hok. destruct Hok as [H1 H2].
    apply Z.leb_le in H1. apply Z.leb_le in H2. apply in_range_iff in Hr.
    assert (Hx : isize_min <= x <= isize_max) by lia.
    rewrite (wrap64_id x Hx). cbn [wf_sint sint_val]. split; [apply fits_isize_iff; exact Hx | reflexivity].
  - destruct (fits_isize x) eqn:E; cbn [wf_sint sint_val]; auto.
Qed.

(* a mode that is sound for a type is the range test on the value of every well-formed script integer *)
Lemma from_checked : forall t m v, from_ok t m = true -> wf_sint v ->
  from_script t m v = if in_range t (sint_val v) then COk (sint_val v) else CErr.
Proof.
  intros t m v Hok Hwf.
  destruct m; [| |destruct v; reflexivity]; cbn [from_ok] in Hok; apply andb_true_iff in Hok; destruct Hok as [H1 H2].
  - (* FromAs: only the type that is exactly the fixnum type, whose range test is [fits_isize] *)
    apply Z.eqb_eq in H2.
    replace (in_range t (sint_val v)) with (fits_isize (sint_val v)) by (unfold in_range, lo, hi; rewrite H1, H2; reflexivity).
    destruct v as [z | z]; cbn [from_script sint_val wf_sint] in *; rewrite Hwf; [|reflexivity].
    rewrite H1, H2, wrap64_id by (apply fits_isize_iff, Hwf). reflexivity.
  - (* FromChecked refuses a bignum: the type's range lies inside the fixnum range, a well-formed bignum outside *)
    apply Z.leb_le in H1, H2. destruct v as [z | z]; cbn [from_script sint_val wf_sint] in *; [reflexivity|].
    destruct (in_range t z) eqn:E; [|reflexivity]. apply in_range_iff in E.
    rewrite (proj2 (fits_isize_iff z)) in Hwf by lia. discriminate.
Qed.

Lemma table_ok : forallb row_ok conv_table = true.
Proof. vm_compute. reflexivity. Qed.

Lemma table_row_modes : forall t, In t conv_table ->
  (forall m, ty_into t = Some m -> into_ok t m = true) /\ (forall m, ty_from t = Some m -> from_ok t m = true).
Proof.
  intros t Hin. pose proof (proj1 (forallb_forall row_ok conv_table) table_ok t Hin) as H. unfold row_ok in H.
  apply andb_true_iff in H. destruct H as [H Hf]. apply andb_true_iff in H. destruct H as [_ Hi].
  split; intros m E; [rewrite E in Hi; exact Hi|rewrite E in Hf; exact Hf].
Qed.

Lemma conv_range : forall t m, In t conv_table -> ty_from t = Some m ->
  forall v, wf_sint v ->
    (in_range t (sint_val v) = true -> from_script t m v = COk (sint_val v)) /\
    (forall z, from_script t m v = COk z -> z = sint_val v /\ in_range t z = true).
Proof.
  intros t m Hin Hm v Hwf. rewrite (from_checked t m v (proj2 (table_row_modes t Hin) m Hm) Hwf).
  destruct (in_range t (sint_val v)) eqn:E; split; intros; try discriminate; auto.
  inversion H; subst. auto.
Qed.

Lemma conv_into_exact : forall t mi, In t conv_table -> ty_into t = Some mi ->
  forall x, in_range t x = true ->
    wf_sint (into_script mi x) /\ sint_val (into_script mi x) = x.
Proof.
  intros t mi Hin Hm x Hr. apply (into_exact t); [| exact Hr].
  exact (proj1 (table_row_modes t Hin) mi Hm).
Qed.

Lemma conv_roundtrip : forall t mi mf, In t conv_table -> ty_into t = Some mi -> ty_from t = Some mf ->
  forall x, in_range t x = true -> from_script t mf (into_script mi x) = COk x.
Proof.
  intros t mi mf Hin Hi Hf x Hr.
  destruct (conv_into_exact t mi Hin Hi x Hr) as [Hwf Hv].
  destruct (conv_range t mf Hin Hf (into_script mi x) Hwf) as [H _].
  rewrite Hv in H. exact (H Hr).
Qed.

Lemma find_ty_some : forall tbl n t, find_ty tbl n = Some t -> In t tbl /\ ty_name t = n.
Proof. intros tbl n t H. apply find_some in H. destruct H as [H1 H2]. apply String.eqb_eq in H2. auto. Qed.

Section WrapperProofs.
  Variable A H : Type.

  (* parameter j (declaration order) was obtained by converting argument slot off+j with the j-th
     declared parameter type *)
  Definition conv_at (sig : list (A -> option H)) (off : nat) (args : list A) (hs : list H) : Prop :=
    List.length hs = List.length sig /\
    forall j p, nth_error sig j = Some p ->
      exists a h, nth_error args (off + j) = Some a /\ nth_error hs j = Some h /\ p a = Some h.

  Lemma read_params_seq : forall sig off args hs,
    read_params sig (seq off (List.length sig)) args = Call hs -> conv_at sig off args hs.
  Proof.
    induction sig as [| p sig IH]; intros off args hs E.
    - cbn in E. inversion E; subst hs. split; [reflexivity |].
      intros j p Hj. destruct j; discriminate Hj.
    - cbn [List.length seq read_params] in E.
      destruct (nth_error args off) as [a |] eqn:Ea; [| discriminate E].
      destruct (p a) as [h |] eqn:Ep; [| discriminate E].
      destruct (read_params sig (seq (S off) (List.length sig)) args) as [hs' | | |] eqn:Er;
        try discriminate E.
      inversion E; subst hs. destruct (IH (S off) args hs' Er) as [Hl Hc].
      split; [cbn [List.length]; congruence |].
      intros j q Hj. destruct j as [| j].
      + cbn in Hj. inversion Hj; subst q. exists a, h.
        rewrite Nat.add_0_r. cbn [nth_error]. auto.
      + cbn [nth_error] in Hj. destruct (Hc j q Hj) as [a' [h' [H1 [H2 H3]]]].
        exists a', h'. rewrite Nat.add_succ_r. cbn [nth_error]. cbn [Nat.add] in H1. auto.
  Qed.

  Lemma nat_list_eqb_eq : forall a b, nat_list_eqb a b = true -> a = b.
  Proof. intros a b. apply (eqb_list_eq _ Nat.eqb_eq). Qed.

  Lemma wrapper_sound_row : forall row sig args hs, wrow_ok row = true ->
    List.length sig = fst row -> wrapper row sig args = Call hs ->
    List.length args = fst row /\ conv_at sig 0 args hs.
  Proof.
    intros [k idx] sig args hs Hrow Hsig E. unfold wrow_ok in Hrow. cbn [fst snd] in *.
    apply nat_list_eqb_eq in Hrow. subst idx. unfold wrapper in E. cbn [fst snd] in E.
    destruct (Nat.eqb (List.length args) k) eqn:Ek; [| discriminate E].
    apply Nat.eqb_eq in Ek. split; [exact Ek |].
    rewrite <- Hsig in E. apply read_params_seq. exact E.
  Qed.

  (* a receiver function is a plain one whose parameter 0 is the receiver, read from slot 0 *)
  Lemma self_wrapper_sound_row : forall row recv sig args hs, self_wrow_ok row = true ->
    S (List.length sig) = fst row -> self_wrapper row recv sig args = Call hs ->
    List.length args = fst row /\
    exists a0 h0 hs', nth_error args 0 = Some a0 /\ recv a0 = Some h0 /\ hs = h0 :: hs' /\
                      conv_at sig 1 args hs'.
  Proof.
    intros [k idx] recv sig args hs Hrow Hsig E. unfold self_wrow_ok in Hrow. cbn [fst snd] in *. subst k.
    destruct (wrapper_sound_row (S (List.length sig), 0%nat :: idx) (recv :: sig) args hs Hrow eq_refl E) as [Hl [Hn Hc]].
    split; [exact Hl|]. destruct hs as [|h0 hs']; [discriminate Hn|].
    destruct (Hc 0%nat recv eq_refl) as (a0 & h & Ea & Eh & Ep). injection Eh as <-.
    exists a0, h0, hs'. repeat split; auto. intros j p Hj. exact (Hc (S j) p Hj).
  Qed.
End WrapperProofs.

Lemma wrapper_tables_ok :
  forallb wrow_ok wrapper_table = true /\ forallb self_wrow_ok self_wrapper_table = true /\
  wrapper_shapes_ok = true.
Proof. repeat split; vm_compute; reflexivity. Qed.

Lemma wrapper_sound : forall (A H : Type) row (sig : list (A -> option H)) args hs,
  In row wrapper_table -> List.length sig = fst row -> wrapper row sig args = Call hs ->
  List.length args = fst row /\ conv_at A H sig 0 args hs.
Proof.
  intros A H row sig args hs Hin. apply wrapper_sound_row.
  exact (proj1 (forallb_forall wrow_ok wrapper_table) (proj1 wrapper_tables_ok) row Hin).
Qed.

Definition entry_ok (e : option ident * option ident * bool) : Prop :=
  snd e = true -> exists id, fst (fst e) = Some id /\ snd (fst e) = Some id.

Definition inv (st : lstate) : Prop :=
  memory st = match current st with None => [] | Some id => [id] end /\ Forall entry_ok (log st).

Lemma step_inv : forall c st o, inv st /\ current st = c -> inv (step st o) /\ current (step st o) = c.
Proof.
  intros c st o [[Hm Hl] Hc]. destruct o; cbn [step]; (split; [split; [exact Hm|]|exact Hc]); cbn [log]; try exact Hl.
  constructor; [| exact Hl]. unfold entry_ok. cbn [fst snd]. intros Hok.
  destruct (lookup s (slots st)) as [i |]; [| discriminate Hok].
  (* [use_upgrades] is a generated fact; it has to unfold to true here *)
  unfold upgrade_ok, use_upgrades in Hok. rewrite Hm in Hok.
  destruct (current st) as [id |]; cbn [existsb] in Hok; [|discriminate Hok].
  rewrite orb_false_r in Hok. apply Nat.eqb_eq in Hok. subst i. exists id. auto.
Qed.

Lemma run_ops_inv : forall c ops st, inv st /\ current st = c -> inv (run_ops st ops) /\ current (run_ops st ops) = c.
Proof. intros c. exact (fold_left_inv _ _ _ step (step_inv c)). Qed.

(* between evaluations no lending is in progress, so no strong owner is left *)
Lemma run_event_inv : forall st e, inv st /\ current st = None -> inv (run_event st e) /\ current (run_event st e) = None.
Proof.
  intros st e [[Hm Hl] Hc]. destruct e as [ops | ops]; cbn [run_event]; [|apply run_ops_inv; repeat split; assumption].
  rewrite Hc in Hm.
  destruct (run_ops_inv (Some (next st)) ops (mk_lstate (next st :: memory st) (S (next st))
              (bind_slot 0 (Some (next st)) (slots st)) (Some (next st)) (log st))) as [[Hm2 Hl2] Hc2].
  { repeat split; cbn [memory current log]; [rewrite Hm; reflexivity | exact Hl]. }
  rewrite Hc2 in Hm2. split; [|reflexivity]. split; cbn [memory current log]; [|exact Hl2].
  (* [lend_frees], the conjunction of the four generated facts about the lending call, evaluates to true *)
  rewrite Hm2. reflexivity.
Qed.

Lemma lend_scoped : forall h e, In e (log (run_history h)) -> snd e = true ->
  exists id, fst (fst e) = Some id /\ snd (fst e) = Some id.
Proof.
  intros h e Hin. unfold run_history.
  destruct (fold_left_inv _ _ _ run_event run_event_inv h init) as [[_ Hl] _]; [repeat split; constructor|].
  exact (proj1 (Forall_forall entry_ok _) Hl e Hin).
Qed.

