(* C20 — the property theorems; Pins_C20.v, compiled on every run, checks each statement again and prints its
   assumptions. *)
From Coq Require Import ZArith List Bool String Lia.
From SV Require Import c20.Types_C20 gen.Gen_C20 c20.Model_C20 c20.Proofs_C20.
Import ListNotations.
Open Scope Z_scope.

(* script -> host, every integer type of the generated table, every script integer: Ok iff the value is
   in the type's range, and then the same mathematical integer (never a truncation) *)
Theorem C20_conv_range : forall t m, In t conv_table -> ty_from t = Some m ->
  forall v, wf_sint v ->
    (in_range t (sint_val v) = true -> from_script t m v = COk (sint_val v)) /\
    (forall z, from_script t m v = COk z -> z = sint_val v /\ in_range t z = true).
Proof. exact conv_range. Qed.

(* host -> script: every value of every host integer type arrives as the same mathematical integer in
   canonical representation (fixnum, or bignum above isize::MAX) *)
Theorem C20_conv_into_exact : forall t mi, In t conv_table -> ty_into t = Some mi ->
  forall x, in_range t x = true ->
    wf_sint (into_script mi x) /\ sint_val (into_script mi x) = x.
Proof. exact conv_into_exact. Qed.

(* from (into x) = Ok x for every x in range, every width *)
Theorem C20_conv_roundtrip : forall t mi mf, In t conv_table -> ty_into t = Some mi -> ty_from t = Some mf ->
  forall x, in_range t x = true -> from_script t mf (into_script mi x) = COk x.
Proof. exact conv_roundtrip. Qed.

(* non-vacuity: the generated table has both directions for each of these types *)
Theorem C20_table_covers : forall n, In n ["i8"; "i16"; "i32"; "i64"; "isize"; "u8"; "u16"; "u32"; "u64"; "usize"]%string ->
  exists t, find_ty conv_table n = Some t /\ In t conv_table /\ ty_name t = n /\
            ty_into t <> None /\ ty_from t <> None.
Proof.
  intros n H.
  assert (Hb : match find_ty conv_table n with
               | Some t => match ty_into t, ty_from t with Some _, Some _ => true | _, _ => false end
               | None => false
               end = true) by (revert n H; apply Forall_forall; repeat constructor).
  destruct (find_ty conv_table n) as [t|] eqn:E; [|discriminate]. exists t.
  destruct (find_ty_some _ _ _ E). destruct (ty_into t), (ty_from t); try discriminate.
  repeat split; auto; discriminate.
Qed.

(* the rows of the table of the tree before the repair that the refutations below use *)
Definition old_i32 : ity := mk_ity "i32" true 32 (Some IntoAs) (Some FromAs).
Definition old_u64 : ity := mk_ity "u64" false 64 (Some IntoAs) (Some FromAs).
Lemma old_i32_row : In old_i32 old_conv_table.
Proof. exact (proj1 (find_ty_some old_conv_table "i32" old_i32 eq_refl)). Qed.
Lemma old_u64_row : In old_u64 old_conv_table.
Proof. exact (proj1 (find_ty_some old_conv_table "u64" old_u64 eq_refl)). Qed.

(* the table of the tree before the repair violates conv_range (finding F12): 2^32 -> i32 gives 0 *)
Theorem C20_conv_refuted_truncates : exists t m v z,
  In t old_conv_table /\ ty_from t = Some m /\ wf_sint v /\
  from_script t m v = COk z /\ z <> sint_val v.
Proof.
  exists old_i32, FromAs, (SInt 4294967296), 0.
  repeat split; [exact old_i32_row|discriminate].
Qed.

(* -1 -> u64 gives u64::MAX *)
Theorem C20_conv_refuted_sign : exists t m v z,
  In t old_conv_table /\ ty_from t = Some m /\ wf_sint v /\
  from_script t m v = COk z /\ in_range t (sint_val v) = false /\ z = 18446744073709551615.
Proof.
  exists old_u64, FromAs, (SInt (-1)), 18446744073709551615.
  repeat split. exact old_u64_row.
Qed.

(* 2^63 (a bignum, within u64) was rejected *)
Theorem C20_conv_refuted_bignum : exists t m v,
  In t old_conv_table /\ ty_from t = Some m /\ wf_sint v /\
  in_range t (sint_val v) = true /\ from_script t m v = CErr.
Proof.
  exists old_u64, FromAs, (SBig 9223372036854775808).
  repeat split. exact old_u64_row.
Qed.

(* host u64::MAX reached the script as -1 *)
Theorem C20_into_refuted : exists t m x,
  In t old_conv_table /\ ty_into t = Some m /\ in_range t x = true /\
  into_script m x = SInt (-1) /\ x = 18446744073709551615.
Proof.
  exists old_u64, IntoAs, 18446744073709551615.
  repeat split. exact old_u64_row.
Qed.

(* both host -> script encodings of None are #f (generated fact) *)
Theorem C20_option_none_false : option_none_into = false /\ option_none_from = false.
Proof. split; reflexivity. Qed.

(* Option<T> round-trips whenever the payload's encoding is not #f *)
Theorem C20_opt_roundtrip : forall enc, enc = false ->
  from_opt (into_opt enc None) = None /\
  forall v, v <> VBool false -> from_opt (into_opt enc (Some v)) = Some v.
Proof.
  intros enc ->. split; [reflexivity |].
  intros v Hv. cbn [into_opt]. unfold from_opt.
  destruct v as [s | [|] | n]; cbn [truthy]; try reflexivity. congruence.
Qed.

(* ... and does not otherwise: Some(false) / Some(None) come back as None (known finding C20-OPT-FALSY) *)
Theorem C20_opt_refuted_falsy_payload : forall enc, from_opt (into_opt enc (Some (VBool false))) = None.
Proof. intros enc. reflexivity. Qed.

(* with the old From<Option<T>> encoding None came back as Some(#t) *)
Theorem C20_opt_refuted_none_true : from_opt (into_opt true None) = Some (VBool true).
Proof. reflexivity. Qed.

(* a registered function's body runs only with exactly its declared number of arguments, the j-th
   host argument being the conversion of the j-th script argument at the j-th declared type *)
Theorem C20_wrapper_sound : forall (A H : Type) row (sig : list (A -> option H)) args hs,
  In row wrapper_table -> List.length sig = fst row -> wrapper row sig args = Call hs ->
  List.length args = fst row /\ conv_at A H sig 0 args hs.
Proof. exact wrapper_sound. Qed.

(* the impl_register_fn! wrapper (register_fn.rs) tests the argument count before it reads any slot: with another
   count the script gets ArityMismatch (stop!), for any wrapper row, listed in the generated table or not - neither
   an index panic nor a call of the body *)
Theorem C20_wrapper_arity : forall (A H : Type) row (sig : list (A -> option H)) args,
  List.length args <> fst row -> wrapper row sig args = ErrArity.
Proof.
  intros A H row sig args Hne. unfold wrapper.
  destruct (Nat.eqb (List.length args) (fst row)) eqn:E; [| reflexivity].
  apply Nat.eqb_eq in E. contradiction.
Qed.

(* the same for &T / &mut T receiver functions *)
Theorem C20_self_wrapper_sound : forall (A H : Type) row recv (sig : list (A -> option H)) args hs,
  In row self_wrapper_table -> S (List.length sig) = fst row -> self_wrapper row recv sig args = Call hs ->
  List.length args = fst row /\
  exists a0 h0 hs', nth_error args 0 = Some a0 /\ recv a0 = Some h0 /\ hs = h0 :: hs' /\
                    conv_at A H sig 1 args hs'.
Proof.
  intros A H row recv sig args hs Hin. apply self_wrapper_sound_row.
  exact (proj1 (forallb_forall self_wrow_ok self_wrapper_table) (proj1 (proj2 wrapper_tables_ok)) row Hin).
Qed.

(* generated facts the two theorems above rest on *)
Theorem C20_wrapper_tables_ok : forallb wrow_ok wrapper_table = true /\ forallb self_wrow_ok self_wrapper_table = true /\
  wrapper_shapes_ok = true.
Proof. exact wrapper_tables_ok. Qed.

(* the 16-ary row of the tree before the repair handed parameter 13 the value of slot 14 *)
Theorem C20_wrapper_refuted : wrapper (16%nat, [0;1;2;3;4;5;6;7;8;9;10;11;12;14;14;15]%nat) (repeat (fun z : Z => Some z) 16)
          [0;1;2;3;4;5;6;7;8;9;10;11;12;13;14;15] = Call [0;1;2;3;4;5;6;7;8;9;10;11;12;14;14;15].
Proof. vm_compute. reflexivity. Qed.

(* integer parameters: the host sees the script's integer, within the declared type's range; non-integers are errors *)
Theorem C20_int_param_sound : forall t m v z, In t conv_table -> ty_from t = Some m ->
  int_param t m v = Some z ->
  exists s, v = VInt s /\ (wf_sint s -> z = sint_val s /\ in_range t z = true).
Proof.
  intros t m v z Hin Hm E. destruct v as [s | b | n]; cbn [int_param] in E; try discriminate E.
  exists s. split; [reflexivity |]. intros Hwf.
  destruct (from_script t m s) as [z' |] eqn:Ef; [| discriminate E]. inversion E; subst z'.
  exact (proj2 (conv_range t m Hin Hm s Hwf) z Ef).
Qed.

(* for every history of lending calls and later evaluations, every script (operation sequence) and every
   slot a handle was copied to: a use succeeds only during a lending call and only through the handle that
   very call created *)
Theorem C20_lend_scoped : forall h e, In e (log (run_history h)) -> snd e = true ->
  exists id, fst (fst e) = Some id /\ snd (fst e) = Some id.
Proof. exact lend_scoped. Qed.

(* in particular every use after the lending call returned is an error *)
Theorem C20_lend_scoped_outside : forall h cur hd ok, In (cur, hd, ok) (log (run_history h)) ->
  cur = None -> ok = false.
Proof.
  intros h cur hd ok Hin Hc. destruct ok; [| reflexivity].
  destruct (lend_scoped h (cur, hd, true) Hin eq_refl) as [id [H1 _]]. cbn in H1. congruence.
Qed.

Example C20_lend_nonvacuous : log (run_history [ELend [Use 0; Stash 5; Use 5]; EScript [Use 5; Copy 5 6; Use 6];
                    ELend [Use 5; Use 0]]) =
  [(Some 1%nat, Some 1%nat, true); (Some 1%nat, Some 0%nat, false);
   (None, Some 0%nat, false); (None, Some 0%nat, false);
   (Some 0%nat, Some 0%nat, true); (Some 0%nat, Some 0%nat, true)].
Proof. vm_compute. reflexivity. Qed.
