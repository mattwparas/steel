From Coq Require Import List Arith Lia Bool ZArith.
From SV Require Import c07.Model_C07.
Import ListNotations.

Lemma sps_ok_mono : forall fs n m, sps_ok n fs -> n <= m -> sps_ok m fs.
Proof. intros [|f r] n m H Hnm; [exact I|]. destruct H as [Hf Hr]. split; [lia | exact Hr]. Qed.

Lemma sps_ok_split : forall above fk below n,
  sps_ok n (above ++ fk :: below) -> f_sp fk <= n /\ sps_ok (f_sp fk) below.
Proof.
  induction above as [|a r IH]; cbn; intros fk below n H.
  - exact H.
  - destruct H as [Ha H]. apply IH in H. destruct H. split; auto. lia.
Qed.

Lemma sps_ok_app_r : forall above rest n, sps_ok n (above ++ rest) -> sps_ok n rest.
Proof.
  induction above as [|a r IH]; cbn; intros rest n H; [exact H|].
  destruct H as [Ha H]. apply (sps_ok_mono rest (f_sp a) n (IH rest _ H) Ha).
Qed.

Definition nohandler (f : frame) : Prop := f_handler f = None.

Lemma handler_split : forall l : list frame,
  Forall nohandler l \/ exists a fk b h, l = a ++ fk :: b /\ Forall nohandler a /\ f_handler fk = Some h.
Proof.
  induction l as [|f r IH].
  - left; constructor.
  - destruct (f_handler f) as [h|] eqn:E.
    + right. exists [], f, r, h. repeat split; auto.
    + destruct IH as [IH | (a & fk & b & h & -> & Ha & Hk)].
      * left; constructor; auto.
      * right. exists (f :: a), fk, b, h. split; [reflexivity|]. split; auto.
Qed.

Lemma weight_app : forall a b, weight (a ++ b) = weight a + weight b.
Proof. induction a; cbn; intros; auto. rewrite IHa. lia. Qed.

Lemma weight_no_dummy : forall l, no_dummy l -> weight l = length l.
Proof. induction 1 as [|f r Hf _ IH]; cbn; [reflexivity|]. rewrite Hf, IH. reflexivity. Qed.

Lemma dummies_ok_tail : forall f r, dummies_ok (f :: r) -> dummies_ok r.
Proof. intros f [|g r] H; cbn in *; auto. destruct H; auto. Qed.

Lemma dummies_ok_head : forall f g r, dummies_ok (f :: g :: r) -> f_dummy f = false.
Proof. intros f g r H. exact (proj1 H). Qed.

Lemma dummies_ok_app : forall a f r, dummies_ok (a ++ f :: r) -> no_dummy a /\ dummies_ok (f :: r).
Proof.
  induction a as [|x a IH]; intros f r H.
  - split; [constructor | exact H].
  - change ((x :: a) ++ f :: r) with (x :: (a ++ f :: r)) in H.
    destruct (a ++ f :: r) as [|y t] eqn:E. { destruct a; discriminate. }
    pose proof (dummies_ok_head _ _ _ H) as Hx. apply dummies_ok_tail in H. rewrite <- E in H.
    apply IH in H. destruct H. split; auto. constructor; auto.
Qed.

Lemma dummies_ok_handler : forall f r h, dummies_ok (f :: r) -> f_handler f = Some h -> f_dummy f = false.
Proof.
  intros f [|g r] h H E; cbn in H.
  - destruct (f_dummy f); auto. rewrite H in E; auto; discriminate.
  - tauto.
Qed.

Lemma resume_ok : forall fk below n, dummies_ok (fk :: below) -> f_dummy fk = false ->
  f_sp fk <= n -> sps_ok (f_sp fk) below ->
  inv_ctx [] (resume_frames fk below) (S (S (weight below))) /\ sps_ok n (resume_frames fk below).
Proof. intros fk [|g r] n H E H1 H2; unfold resume_frames; cbn in *; rewrite E; cbn; intuition. Qed.

(* both loops pass over a handler-free prefix, one pop_count each *)
Lemma unwind_top_skip : forall e above fs stk k, Forall nohandler above ->
  unwind_top e (above ++ fs) stk (length above + k) = unwind_top e fs stk k.
Proof.
  induction above as [|a r IH]; intros fs stk k Hn; [reflexivity|].
  inversion Hn as [|? ? Ha Hr]; subst. unfold nohandler in Ha.
  cbn [app length Nat.add unwind_top Nat.eqb]. rewrite Ha, Nat.sub_succ, Nat.sub_0_r. apply IH. exact Hr.
Qed.

Lemma unwind_nested_skip : forall e above fs stk k, Forall nohandler above ->
  unwind_nested e (above ++ fs) stk (length above + k) = unwind_nested e fs stk k.
Proof.
  induction above as [|a r IH]; intros fs stk k Hn; [reflexivity|].
  inversion Hn as [|? ? Ha Hr]; subst. unfold nohandler in Ha.
  cbn [app length Nat.add unwind_nested Nat.eqb]. rewrite Ha, Nat.sub_succ, Nat.sub_0_r. apply IH. exact Hr.
Qed.

(* [weight] does not count a dummy bottom frame: pop_count is then the number of frames, still enough to pass them
   all, so UNone and not UEarly *)
Lemma unwind_top_none : forall e fs stk pc,
  Forall nohandler fs -> dummies_ok fs -> pc = S (weight fs) -> unwind_top e fs stk pc = UNone.
Proof.
  induction fs as [|f r IH]; intros stk pc Hn Hd Hpc; [reflexivity|].
  inversion Hn as [|? ? Hf Hr]; subst. unfold nohandler in Hf. cbn [unwind_top Nat.eqb]. rewrite Hf.
  replace (S (weight (f :: r)) - 1) with (weight (f :: r)) by lia.
  destruct r as [|g r'].
  - reflexivity.
  - apply IH; auto. { eapply dummies_ok_tail; eauto. }
    cbn [weight]. rewrite (dummies_ok_head _ _ _ Hd). lia.
Qed.

Lemma unwind_top_handler : forall e above fk below h stk pc,
  Forall nohandler above -> f_handler fk = Some h -> dummies_ok (above ++ fk :: below) ->
  pc = S (weight (above ++ fk :: below)) ->
  unwind_top e (above ++ fk :: below) stk pc =
    UHandler (firstn (f_sp fk) stk ++ [e]) (resume_frames fk below) (S (S (weight below))).
Proof.
  intros e above fk below h stk pc Hn Hk Hd ->. destruct (dummies_ok_app _ _ _ Hd) as [Hna Hd'].
  rewrite weight_app, (weight_no_dummy _ Hna). cbn [weight]. rewrite (dummies_ok_handler _ _ _ Hd' Hk).
  replace (S (length above + (1 + weight below))) with (length above + S (S (weight below))) by lia.
  rewrite unwind_top_skip by exact Hn. cbn [unwind_top Nat.eqb]. rewrite Hk. f_equal. lia.
Qed.

Lemma unwind_nested_none : forall e own base rest stk,
  Forall nohandler own -> f_handler base = None ->
  unwind_nested e (own ++ base :: rest) stk (S (length own)) = NNone rest.
Proof.
  intros e own base rest stk Hn Hb. rewrite <- Nat.add_1_r, unwind_nested_skip by exact Hn.
  cbn. rewrite Hb. destruct rest; reflexivity.
Qed.

Lemma unwind_nested_handler : forall e above fk bo base rest h stk,
  Forall nohandler above -> f_handler fk = Some h ->
  unwind_nested e ((above ++ fk :: bo) ++ base :: rest) stk (S (length (above ++ fk :: bo))) =
    NHandler (firstn (f_sp fk) stk ++ [e]) (mkFrame (f_sp fk) None (f_dummy fk) :: bo ++ base :: rest) (S (S (length bo))).
Proof.
  intros e above fk bo base rest h stk Hn Hk. rewrite <- app_assoc, app_length. cbn [app length].
  replace (S (length above + S (length bo))) with (length above + S (S (length bo))) by lia.
  rewrite unwind_nested_skip by exact Hn. cbn [unwind_nested Nat.eqb]. rewrite Hk. unfold resume_frames.
  destruct (bo ++ base :: rest) eqn:E; [destruct bo; discriminate|]. f_equal. lia.
Qed.

Lemma raise_ok : forall e cs fs stk pc g,
  inv_ctx cs fs pc -> sps_ok (length stk) fs ->
  match raise e cs fs stk pc g with
  | Resumed s' => Inv s'
  | Escaped t => t = fresh g
  end.
Proof.
  induction cs as [|c cs IH]; intros fs stk pc g Hi Hs.
  - cbn [raise]. cbn in Hi. destruct Hi as [Hpc Hd].
    destruct (handler_split fs) as [Hn | (a & fk & b & h & -> & Ha & Hk)].
    + rewrite unwind_top_none; auto.
    + rewrite unwind_top_handler with (h := h); auto.
      apply dummies_ok_app in Hd. destruct Hd as [Hna Hd].
      apply sps_ok_split in Hs. destruct Hs as [Hs1 Hs2].
      apply resume_ok; cbn [stack]; auto. { exact (dummies_ok_handler _ _ _ Hd Hk). }
      rewrite app_length, firstn_length. cbn. lia.
  - cbn [raise]. cbn in Hi. destruct Hi as (own & base & rest & -> & Hpc & Hnd & Hb & Hbd & Hsp & Hi).
    subst pc.
    destruct (handler_split own) as [Hn | (a & fk & b & h & -> & Ha & Hk)].
    + rewrite unwind_nested_none; auto.
      apply sps_ok_split in Hs. destruct Hs as [Hs1 Hs2].
      apply IH; auto. rewrite firstn_length. rewrite <- Hsp. rewrite Nat.min_l; auto.
    + rewrite unwind_nested_handler with (h := h); auto.
      split; cbn.
      * exists (mkFrame (f_sp fk) None (f_dummy fk) :: b), base, rest. cbn. repeat split; auto.
        apply Forall_app in Hnd. destruct Hnd as [_ Hnd]. inversion Hnd; subst. constructor; auto.
      * rewrite <- app_assoc in Hs. cbn in Hs. apply sps_ok_split in Hs. destruct Hs as [Hs1 Hs2].
        split; auto. rewrite app_length, firstn_length. cbn. lia.
Qed.

Definition good (o : outcome) : Prop :=
  match o with
  | Running s => Inv s
  | Done _ t => t = fresh (t_globals t)
  | Failed _ t => t = fresh (t_globals t)
  | Panic => False
  end.

Lemma weight_zero : forall fs, dummies_ok fs -> weight fs = 0 -> tl fs = [].
Proof.
  intros [|f [|g r]] Hd Hw; cbn in *; auto.
  destruct Hd as [Hf _]. rewrite Hf in Hw. discriminate.
Qed.

Lemma inv_ctx_pos : forall cs fs, ~ inv_ctx cs fs 0.
Proof. intros [|c cs] fs; cbn; [intros [H _] | intros (? & ? & ? & _ & H & _)]; discriminate H. Qed.

Lemma inv_ctx_push : forall cs fs pc n h, inv_ctx cs fs pc -> inv_ctx cs (mkFrame n h false :: fs) (S pc).
Proof.
  intros [|c cs] fs pc n h; cbn.
  - intros [-> Hd]. split; [reflexivity|]. destruct fs; cbn; auto. discriminate.
  - intros (own & base & rest & -> & -> & Hnd & H).
    exists (mkFrame n h false :: own), base, rest. repeat split; try apply H. constructor; auto.
Qed.

(* with pop_count at least 2 the innermost run owns a frame, and popping it keeps the invariant *)
Lemma inv_ctx_pop : forall cs fs n, inv_ctx cs fs (S (S n)) ->
  exists last fr, fs = last :: fr /\ inv_ctx cs fr (S n).
Proof.
  intros [|c cs] fs n; cbn.
  - intros [Hpc Hd]. destruct fs as [|last fr]; cbn in Hpc; [discriminate Hpc|]. exists last, fr. split; [reflexivity|].
    assert (Hl : f_dummy last = false).
    { destruct fr; [destruct (f_dummy last); auto; discriminate Hpc | eapply dummies_ok_head; eauto]. }
    rewrite Hl in Hpc. split; [lia | eapply dummies_ok_tail; eauto].
  - intros (own & base & rest & -> & Hpc & Hnd & H). destruct own as [|last own]; [discriminate Hpc|].
    exists last, (own ++ base :: rest). split; [reflexivity|]. exists own, base, rest.
    inversion Hnd; subst. cbn in Hpc. repeat split; try apply H; auto.
Qed.

Lemma run_good : forall ops s, Inv s -> good (run ops s).
Proof.
  induction ops as [|o rest IH]; intros s HI. { exact HI. }
  destruct s as [stk fs pc cs g]. destruct HI as [Hi Hs]. cbn in Hi, Hs.
  destruct o as [v | k v | args h | | v | e]; cbn [run stack frames Model_C07.pc ctxs globals].
  - (* OPush *) apply IH. split; cbn; auto. eapply sps_ok_mono; eauto. rewrite app_length; cbn; lia.
  - (* ODefine *) apply IH. split; cbn; auto.
  - (* OCall *) apply IH. split; cbn; [apply inv_ctx_push; exact Hi|]. rewrite app_length. split; [lia | exact Hs].
  - (* ONested *) apply IH. split; cbn.
    + exists [], (mkFrame (length stk) None false), fs. cbn. repeat split; auto. constructor.
    + split; auto.
  - (* ORet *)
    destruct pc as [|[|pc2]]; [destruct (inv_ctx_pos cs fs Hi) | |].
    + (* this dispatch loop returns *)
      destruct cs as [|c cs']; cbn in Hi.
      * destruct Hi as [Hpc Hd]. injection Hpc as Hpc. symmetry in Hpc. apply (weight_zero fs Hd) in Hpc.
        destruct fs as [|f r]; cbn in Hpc |- *; [| rewrite Hpc]; reflexivity.
      * destruct Hi as (own & base & rest0 & -> & Hpc & _ & _ & _ & Hsp & Hi).
        destruct own; [|discriminate Hpc]. cbn [app tl]. apply IH. split; cbn; [exact Hi|].
        destruct Hs as [Hs1 Hs2]. eapply sps_ok_mono; eauto. rewrite app_length, !firstn_length. cbn [length]. lia.
    + (* an inner return *)
      destruct (inv_ctx_pop cs fs pc2 Hi) as (last & fr' & -> & Hi'). destruct Hs as [Hs1 Hs2].
      rewrite (proj2 (Nat.leb_le _ _)) by (rewrite app_length; cbn [length]; lia).
      apply IH. split; cbn; [exact Hi'|].
      eapply sps_ok_mono; eauto. rewrite !app_length, firstn_length, app_length. cbn [length]. lia.
  - (* ORaise *)
    pose proof (raise_ok e cs fs stk pc g Hi Hs) as H.
    destruct (raise e cs fs stk pc g) as [s' | t].
    + apply IH, H.
    + cbn. subst t. reflexivity.
Qed.

Lemma Inv_start : forall g, Inv (mkSt [] [] 1 [] g).
Proof. intro g. split; cbn; auto. Qed.

Lemma execute_good : forall ops g o, execute ops (fresh g) = o -> good o.
Proof. intros ops g o <-. apply run_good, Inv_start. Qed.

Lemma fresh_clean : forall t, t = fresh (t_globals t) ->
  t_stack t = [] /\ t_frames t = [] /\ forall q, execute q t = execute q (fresh (t_globals t)).
Proof. intros t ->. cbn. auto. Qed.

(* the loop as it was before 6614f321 discards a caller frame and skips the caller's handler:
   frames (top first): F (the nested run's frame), G (plain caller frame), H (caller frame with a handler),
   in a top-level run (pop_count 3 saved, nested pop_count 1) *)
Definition old_witness_frames : list frame :=
  [mkFrame 2 None false; mkFrame 1 None false; mkFrame 0 (Some 7) false].

Lemma build_fail_restores : forall u m m', build u m = (false, m') -> m' = m.
Proof. unfold build. intros u m m'. destruct (resolves u (intern_all u m)); intro H; inversion H; auto. Qed.

Open Scope Z_scope.
Lemma slice_ok : forall len a b, a <= b <= len -> slice len a b = COk (a, b).
Proof.
  intros len a b H. unfold slice. rewrite (proj2 (Z.leb_le a b)), (proj2 (Z.leb_le b len)) by lia. reflexivity.
Qed.

(* each check either refuses or hands slice a range it accepts *)
Definition range_ok (len : Z) (r : chk (Z * Z)) : Prop :=
  match r with COk (a, b) => 0 <= a <= b /\ b <= len | CErr => True | CPanic => False end.

Lemma bytes_to_string_spec : forall len s e r, bytes_to_string_range len s e = r -> range_ok len r.
Proof.
  intros len s e r <-. unfold bytes_to_string_range.
  set (s0 := match s with Some s => s | None => 0 end). set (e0 := match e with Some e => e | None => len end).
  rewrite Z.gtb_ltb.
  destruct (Z.ltb_spec s0 0); [exact I|]. destruct (Z.ltb_spec e0 0); [exact I|]. destruct (Z.ltb_spec e0 s0); [exact I|].
  destruct (Z.ltb_spec len e0); [exact I|]. rewrite slice_ok by lia. cbn. lia.
Qed.

Lemma string_bounds_spec : forall n i j r, string_bounds n i j = r -> range_ok n r.
Proof.
  intros n i j r <-. unfold string_bounds. set (i0 := match i with Some i => i | None => 0 end).
  rewrite !Z.gtb_ltb.
  destruct (Z.ltb_spec i0 0); [exact I|]. destruct (Z.ltb_spec n i0); [exact I|]. destruct j as [j|].
  - rewrite !Z.gtb_ltb. destruct (Z.ltb_spec j 0); [exact I|]. destruct (Z.ltb_spec j i0); [exact I|].
    destruct (Z.ltb_spec n j); [exact I|]. rewrite slice_ok by lia. cbn. lia.
  - rewrite slice_ok by lia. cbn. lia.
Qed.
Close Scope Z_scope.
