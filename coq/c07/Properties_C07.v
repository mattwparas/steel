(* C07 — the property theorems; Pins_C07.v repeats each statement. *)
From Coq Require Import List Arith ZArith Lia.
From SV Require Import c07.Model_C07 c07.Proofs_C07.
Import ListNotations.

Theorem C07_unwind_clean : forall ops g e t,
  execute ops (fresh g) = Failed e t ->
  t_stack t = [] /\ t_frames t = [] /\ forall q, execute q t = execute q (fresh (t_globals t)).
Proof. intros ops g e t H. exact (fresh_clean t (execute_good _ _ _ H)). Qed.

Theorem C07_done_clean : forall ops g v t,
  execute ops (fresh g) = Done v t ->
  t_stack t = [] /\ t_frames t = [] /\ forall q, execute q t = execute q (fresh (t_globals t)).
Proof. intros ops g v t H. exact (fresh_clean t (execute_good _ _ _ H)). Qed.

Theorem C07_no_panic_run : forall ops g, execute ops (fresh g) <> Panic.
Proof. intros ops g. exact (execute_good ops g Panic). Qed.

Theorem C07_history_clean : forall units g,
  Forall (fun u => forall g', completed (execute u (fresh g'))) units ->
  exists g', history units (fresh g) = fresh g'.
Proof.
  induction units as [|u rest IH]; intros g H.
  - exists g; reflexivity.
  - inversion H; subst. cbn [history].
    pose proof (execute_good u g _ eq_refl) as G. pose proof (H2 g) as C.
    destruct (execute u (fresh g)) as [s | v t | e t |] eqn:E; cbn in C; try contradiction; cbn [thread_after];
      cbn in G; rewrite G; apply IH; auto.
Qed.

Theorem C07_handler_unwinds : forall e above fk below h stk g,
  Forall nohandler above -> f_handler fk = Some h ->
  Inv (mkSt stk (above ++ fk :: below) (S (weight (above ++ fk :: below))) [] g) ->
  exists s', raise e [] (above ++ fk :: below) stk (S (weight (above ++ fk :: below))) g = Resumed s' /\
    stack s' = firstn (f_sp fk) stk ++ [e] /\
    frames s' = resume_frames fk below /\ ctxs s' = [] /\ globals s' = g /\ Inv s'.
Proof.
  intros e above fk below h stk g Hn Hk [Hi Hs]. cbn in Hi, Hs.
  pose proof (raise_ok e [] _ stk _ g Hi Hs) as R.
  cbn [raise] in *. destruct Hi as [_ Hd].
  rewrite unwind_top_handler with (h := h) in *; auto.
  eexists. split; [reflexivity|]. cbn. tauto.
Qed.

Theorem C07_handler_unwinds_nested : forall e above fk bo base rest h stk c cs g,
  Forall nohandler above -> f_handler fk = Some h ->
  Inv (mkSt stk ((above ++ fk :: bo) ++ base :: rest) (S (length (above ++ fk :: bo))) (c :: cs) g) ->
  exists s', raise e (c :: cs) ((above ++ fk :: bo) ++ base :: rest) stk (S (length (above ++ fk :: bo))) g = Resumed s' /\
    stack s' = firstn (f_sp fk) stk ++ [e] /\
    frames s' = mkFrame (f_sp fk) None (f_dummy fk) :: bo ++ base :: rest /\ ctxs s' = c :: cs /\ Inv s'.
Proof.
  intros e above fk bo base rest h stk c cs g Hn Hk [Hi Hs]. cbn in Hi, Hs.
  pose proof (raise_ok e (c :: cs) _ stk _ g Hi Hs) as R.
  cbn [raise] in *.
  rewrite unwind_nested_handler with (h := h) in *; auto.
  eexists. split; [reflexivity|]. cbn. tauto.
Qed.

Theorem C07_nested_escape_keeps_callers : forall e own base rest stk c cs g,
  Forall nohandler own -> f_handler base = None ->
  raise e (c :: cs) (own ++ base :: rest) stk (S (length own)) g =
  raise e cs rest (firstn (c_prev_len c) stk) (c_saved_pc c) g.
Proof. intros. cbn [raise]. rewrite unwind_nested_none; auto. Qed.

Theorem C07_old_nested_unwind_refuted : Inv (mkSt [10; 11] old_witness_frames 1 [mkCtx 3 2] []) /\
  raise_old 99 [mkCtx 3 2] old_witness_frames [10; 11] 1 [] = Escaped (mkThread [10; 11] [] []) /\
  (exists s', raise 99 [mkCtx 3 2] old_witness_frames [10; 11] 1 [] = Resumed s' /\ stack s' = [99] /\
              frames s' = [mkFrame 0 None false; mkFrame 0 None true]).
Proof.
  split; [|split].
  - split; cbn.
    + exists [], (mkFrame 2 None false), [mkFrame 1 None false; mkFrame 0 (Some 7) false].
      cbn. repeat split; auto; try constructor; try discriminate.
    + lia.
  - reflexivity.
  - eexists. split; [reflexivity|]. cbn. auto.
Qed.

Theorem C07_failed_unit_no_effect : forall u trace en en',
  fst (build u (e_sym en)) = false -> eval_unit u trace en = (false, en') -> en' = en.
Proof.
  intros u trace en en' Hb He. unfold eval_unit in He.
  destruct (build u (e_sym en)) as [b m'] eqn:E. cbn in Hb. subst b.
  apply build_fail_restores in E. subst m'. inversion He. destruct en; reflexivity.
Qed.

Theorem C07_roll_back_old_refuted : let m0 := sm_add 5 (mkSym [] [] [] []) in
  let u := mkUnit [5] [9] in
  lookup 5 (sm_map m0) = Some 0 /\
  fst (build_old u m0) = false /\ lookup 5 (sm_map (snd (build_old u m0))) = None /\
  snd (build u m0) = m0.
Proof. cbn. repeat split; reflexivity. Qed.

Theorem C07_no_panic_bytes_to_string : forall len s e, (0 <= len)%Z -> bytes_to_string_range len s e <> CPanic.
Proof.
  intros len s e _. exact (bytes_to_string_spec len s e CPanic).
Qed.

Theorem C07_bytes_to_string_old_refuted : bytes_to_string_range_old 0%Z (Some 2%Z) (Some 9223372036854775807%Z) = CPanic.
Proof. reflexivity. Qed.

Theorem C07_no_panic_string_bounds : forall n i j, (0 <= n)%Z -> string_bounds n i j <> CPanic.
Proof.
  intros n i j _. exact (string_bounds_spec n i j CPanic).
Qed.

Theorem C07_string_bounds_sound : forall n i j a b, string_bounds n i j = COk (a, b) -> (0 <= a <= b /\ b <= n)%Z.
Proof.
  intros n i j a b. exact (string_bounds_spec n i j (COk (a, b))).
Qed.

Theorem C07_ref_index_sound : forall len i, ref_index len i <> CPanic /\ (forall k, ref_index len i = COk k -> k = i /\ (0 <= i < len)%Z).
Proof.
  intros len i. unfold ref_index.
  destruct (Z.ltb_spec i 0) as [A | A]; [split; [discriminate | intros k H; discriminate]|].
  rewrite Z.geb_leb. destruct (Z.leb_spec len i) as [B | B]; [split; [discriminate | intros k H; discriminate]|].
  split; [discriminate|]. intros k H. injection H as <-. lia.
Qed.

Example C07_nonvacuous :
  (* an error in a nested run (callback of a built-in) two calls below a handler is caught by that handler,
     the run completes and leaves a clean thread; the same error without a handler fails and leaves a clean thread *)
  execute [OCall [] (Some 7); OCall [1] None; ONested; OPush 5; OCall [6] None; ORaise 42; ORet 8; ORet 9]
          (fresh [(0, 3)]) = Done 9 (fresh [(0, 3)]) /\
  execute [ODefine 1 4; OCall [1] None; ONested; OPush 5; OCall [6] None; ORaise 42; ORet 8]
          (fresh []) = Failed 42 (fresh [(1, 4)]).
Proof. split; reflexivity. Qed.
