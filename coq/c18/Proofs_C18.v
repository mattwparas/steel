(* C18 — the lemmas under Properties_C18.v; Section Tri is shared with c04/Proofs_C04.v. *)
From Coq Require Import List Arith Lia Bool Permutation.
From Coq Require String.
From SV Require Import c18.Model_C18 gen.Gen_C18 lib.ListFacts.
Import ListNotations.

Lemma tsize_pos : forall t, 1 <= tsize t.
Proof. destruct t; cbn; lia. Qed.

Lemma qsize_app : forall a b, qsize (a ++ b) = qsize a + qsize b.
Proof. intros. unfold qsize. rewrite map_app, list_sum_app. reflexivity. Qed.

Lemma qsize_zero : forall q, qsize q = 0 -> q = [].
Proof. destruct q as [|t q]; auto. unfold qsize; cbn. pose proof (tsize_pos t). lia. Qed.

Lemma qsize_cons : forall t q, qsize (t :: q) = tsize t + qsize q.
Proof. reflexivity. Qed.

Lemma tsize_node : forall a ks, tsize (Node a ks) = S (qsize ks).
Proof. reflexivity. Qed.

Lemma denote_visits : forall ks, flat_map denote (map IVisit ks) = flat_map render ks.
Proof. induction ks; cbn; auto. rewrite IHks. reflexivity. Qed.

Lemma swork_app : forall a b, swork (a ++ b) = swork a + swork b.
Proof. intros. unfold swork. rewrite map_app, list_sum_app. reflexivity. Qed.

Lemma swork_cons : forall i s, swork (i :: s) = iwork i + swork s.
Proof. reflexivity. Qed.

Lemma swork_visits : forall ks, swork (map IVisit ks) = 2 * qsize ks.
Proof.
  induction ks as [|t ks IH]. { reflexivity. }
  cbn [map]. rewrite swork_cons, qsize_cons, IH. cbn [iwork]. lia.
Qed.

Lemma count_children : forall E n m, count_occ Nat.eq_dec (children E n) m = cnt E n m.
Proof.
  induction E as [|[a b] E IH]; intros n m; [reflexivity|].
  unfold children, cnt in *. cbn [filter fst snd].
  destruct (a =? n) eqn:An; cbn [andb map].
  - cbn [count_occ snd]. destruct (Nat.eq_dec b m) as [->|Hne].
    + rewrite Nat.eqb_refl. cbn [length]. f_equal. apply IH.
    + apply Nat.eqb_neq in Hne. rewrite Hne. apply IH.
  - apply IH.
Qed.

Lemma indeg_release : forall E s rc' n m, rel s n = false ->
  indeg_live E s m = indeg_live E (mkD rc' (upd (rel s) n true)) m + cnt E n m.
Proof.
  induction E as [|[a b] E IH]; intros s rc' n m Hn; [reflexivity|].
  unfold indeg_live, cnt in *. rewrite !filter_len_cons. cbn [fst snd rel].
  rewrite (IH s rc' n m Hn). unfold upd.
  destruct (a =? n) eqn:An.
  - apply Nat.eqb_eq in An. subst a. rewrite Hn. cbn. destruct (b =? m); cbn; lia.
  - cbn. destruct ((b =? m) && negb (rel s a)); lia.
Qed.

Lemma live_edges_release : forall E s rc' n, rel s n = false ->
  live_edges E s = live_edges E (mkD rc' (upd (rel s) n true)) + length (children E n).
Proof.
  induction E as [|[a b] E IH]; intros s rc' n Hn; [reflexivity|].
  unfold live_edges, children in *. rewrite !filter_len_cons. cbn [fst snd filter rel].
  rewrite (IH s rc' n Hn). unfold upd.
  destruct (a =? n) eqn:An.
  - apply Nat.eqb_eq in An. subst a. rewrite Hn. cbn. lia.
  - cbn. destruct (negb (rel s a)); lia.
Qed.

Lemma pending_cons_ne : forall n q m, m <> n -> pending (n :: q) m = pending q m.
Proof. intros. unfold pending. cbn. destruct (Nat.eq_dec n m); [subst; contradiction|reflexivity]. Qed.

Lemma pending_cons_eq : forall n q, pending (n :: q) n = S (pending q n).
Proof. intros. unfold pending. cbn. destruct (Nat.eq_dec n n); [reflexivity|contradiction]. Qed.

Lemma upd_eq : forall A (f : nat -> A) n x, upd f n x n = x.
Proof. intros. unfold upd. rewrite Nat.eqb_refl. reflexivity. Qed.

Lemma upd_neq : forall A (f : nat -> A) n x m, m <> n -> upd f n x m = f m.
Proof. intros A f n x m H. unfold upd. apply Nat.eqb_neq in H. rewrite H. reflexivity. Qed.

Section Drop.
  Variable policy : policy_t.
  Hypothesis policy_perm : forall q cs, Permutation (policy q cs) (cs ++ q).
  Variables (V : list nat) (E : edges) (ext : nat -> nat).

  Lemma pending_policy : forall q cs m, pending (policy q cs) m = count_occ Nat.eq_dec cs m + pending q m.
  Proof.
    intros. unfold pending.
    rewrite (proj1 (Permutation_count_occ Nat.eq_dec _ _) (policy_perm q cs) m).
    apply count_occ_app.
  Qed.

  Lemma DInv_head : forall n q s, DInv V E ext (n :: q) s ->
    rel s n = false /\ rc s n = ext n + indeg_live E s n + S (pending q n).
  Proof.
    intros n q s HI. destruct (HI n) as (Hl & Hr & _). rewrite pending_cons_eq in Hl, Hr.
    destruct (rel s n); [destruct (Hr eq_refl) as (_ & _ & _ & Hpn); discriminate|auto].
  Qed.

  Lemma DInv_release : forall n q s, DInv V E ext (n :: q) s -> rc s n = 1 ->
    DInv V E ext (policy q (children E n)) (mkD (upd (rc s) n 0) (upd (rel s) n true)).
  Proof.
    intros n q s HI Rc m. destruct (DInv_head n q s HI) as [Hlive Hl].
    pose proof (indeg_release E s (upd (rc s) n 0) n m Hlive) as Hd.
    rewrite pending_policy, count_children. cbn [rc rel].
    destruct (Nat.eq_dec m n) as [->|Hne].
    - rewrite !upd_eq. repeat split; intros; try discriminate; lia.
    - rewrite !upd_neq by exact Hne. destruct (HI m) as (Hl' & Hr' & Hp'). rewrite pending_cons_ne in Hl', Hr' by auto.
      split; [intro H; specialize (Hl' H); lia|split; [intro H; destruct (Hr' H) as (? & ? & ? & ?); lia|exact Hp']].
  Qed.

  Lemma DInv_dec : forall n q s k, DInv V E ext (n :: q) s -> rc s n = S (S k) ->
    DInv V E ext q (mkD (upd (rc s) n (S k)) (rel s)).
  Proof.
    intros n q s k HI Rc m. destruct (DInv_head n q s HI) as [Hlive Hl].
    change (indeg_live E (mkD (upd (rc s) n (S k)) (rel s)) m) with (indeg_live E s m). cbn [rc rel].
    destruct (Nat.eq_dec m n) as [->|Hne].
    - rewrite upd_eq, Hlive. repeat split; intros; try discriminate; lia.
    - rewrite upd_neq by exact Hne. destruct (HI m) as (Hl' & Hr' & Hp'). rewrite pending_cons_ne in Hl', Hr' by auto.
      auto.
  Qed.

  Lemma drop_loop_ok : forall fuel q s,
    DInv V E ext q s -> length q + live_edges E s <= fuel ->
    exists s', drop_loop policy fuel E q s = Some s' /\ DInv V E ext [] s'.
  Proof.
    induction fuel as [|f IH]; intros q s HI Hf.
    - destruct q; [|cbn in Hf; lia]. exists s; split; auto.
    - destruct q as [|n q']. { exists s; split; auto. }
      cbn [drop_loop length] in *. destruct (DInv_head n q' s HI) as [Hlive Hl].
      destruct (rc s n) as [|[|k]] eqn:Rc; [lia| |]; apply IH.
      + apply DInv_release; assumption.
      + rewrite (Permutation_length (policy_perm _ _)), app_length.
        rewrite (live_edges_release E s (upd (rc s) n 0) n Hlive) in Hf. lia.
      + apply DInv_dec; assumption.
      + change (live_edges E (mkD (upd (rc s) n (S k)) (rel s))) with (live_edges E s). lia.
  Qed.
End Drop.

Section Final.
  Variables (V : list nat) (E : edges) (ext : nat -> nat) (s : dstate).
  Hypothesis HI : DInv V E ext [] s.

  Lemma no_live_to_released : forall m n, In (m, n) E -> rel s n = true -> rel s m = true.
  Proof.
    intros m n Hin Hn. destruct (HI n) as (_ & Hr & _). destruct (Hr Hn) as (_ & _ & Hd & _).
    destruct (rel s m) eqn:Rm; auto. exfalso.
    assert (P : 1 <= indeg_live E s n); [|lia].
    apply filter_nonempty. exists (m, n). cbn [fst snd]. rewrite Nat.eqb_refl, Rm. auto.
  Qed.

  Lemma reach_live : forall n, reach E ext n -> rel s n = false.
  Proof.
    induction 1 as [n Hr | m n Hm IH Hin].
    - destruct (rel s n) eqn:R; auto. destruct (HI n) as (_ & Hx & _). destruct (Hx R) as (_ & He & _). lia.
    - destruct (rel s n) eqn:R; auto. rewrite (no_live_to_released m n Hin R) in IH. discriminate.
  Qed.

  Lemma live_pred : forall n, In n V -> rel s n = false -> ext n = 0 -> exists m, In (m, n) E /\ rel s m = false.
  Proof.
    intros n Hn Hl Ex. destruct (HI n) as (Hl' & _ & Hp). specialize (Hl' Hl). specialize (Hp Hn Hl).
    unfold pending in Hl'. cbn in Hl'.
    assert (Hd : 1 <= indeg_live E s n) by lia. apply filter_nonempty in Hd.
    destruct Hd as ([m n'] & Hin & Hf). cbn in Hf. apply andb_true_iff in Hf. destruct Hf as [Hf1 Hf2].
    apply Nat.eqb_eq in Hf1. subst n'. apply negb_true_iff in Hf2. eauto.
  Qed.

  Lemma live_reach : forall rank B, closedV V E -> acyclic E rank -> (forall x, In x V -> rank x <= B) ->
    forall k n, In n V -> rel s n = false -> B - rank n <= k -> reach E ext n.
  Proof.
    intros rank B HV Hac HB. induction k as [|k IH]; intros n Hn Hl Hk;
      (destruct (ext n) eqn:Ex; [|apply reach_root; lia]);
      destruct (live_pred n Hn Hl Ex) as (m & Hin & Hm);
      pose proof (Hac m n Hin); destruct (HV m n Hin) as [HmV _]; pose proof (HB m HmV).
    - lia.
    - apply reach_step with (m := m); auto. apply IH; auto. lia.
  Qed.
End Final.

Lemma start_inv : forall V E ext0 s r, start_ok V E ext0 s -> 1 <= ext0 r -> DInv V E (dec_ext ext0 r) [r] s.
Proof.
  intros V E ext0 s r (Hrel & Hrc & Hpos) Hr n.
  assert (Hind : indeg_live E s n = length (filter (fun e => snd e =? n) E)).
  { unfold indeg_live. f_equal. apply filter_ext. intros e. rewrite Hrel. cbn. apply andb_true_r. }
  split; [|split].
  - intros _. rewrite Hrc, Hind. unfold dec_ext, upd, pending. cbn.
    destruct (Nat.eq_dec r n) as [->|Hne].
    + rewrite Nat.eqb_refl. lia.
    + assert (Hnr : n =? r = false) by (apply Nat.eqb_neq; auto). rewrite Hnr. lia.
  - intro H. rewrite Hrel in H. discriminate.
  - intros Hin _. auto.
Qed.

Lemma live_edges_le : forall E s, live_edges E s <= length E.
Proof. intros. unfold live_edges. apply filter_len_le. Qed.

Lemma drop_run : forall policy, (forall q cs, Permutation (policy q cs) (cs ++ q)) ->
  forall V E ext0 s r, start_ok V E ext0 s -> 1 <= ext0 r ->
  exists s', drop_loop policy (S (length E)) E [r] s = Some s' /\ DInv V E (dec_ext ext0 r) [] s'.
Proof.
  intros policy Hpol V E ext0 s r Hst Hr. apply (drop_loop_ok policy Hpol V E (dec_ext ext0 r)).
  - apply start_inv; auto.
  - pose proof (live_edges_le E s). cbn. lia.
Qed.

Lemma fifo_perm : forall q cs, Permutation (fifo q cs) (cs ++ q).
Proof. intros. unfold fifo. apply Permutation_app_comm. Qed.
Lemma lifo_perm : forall q cs, Permutation (lifo q cs) (cs ++ q).
Proof. intros. unfold lifo. apply Permutation_refl. Qed.

(* Marking any graph, whatever the loop: [B] holds of the nodes marked so far, [G] lists those waiting.  What is marked
   or waiting is reachable from [q0]; every node of [q0], and every successor of a marked node, is marked or waiting.
   A loop that keeps this and ends with nothing waiting has marked exactly what is reachable. *)
Section Tri.
  Context {A : Type}.

  Inductive reachA (succ : A -> list A) (q0 : list A) : A -> Prop :=
  | ra_root : forall x, In x q0 -> reachA succ q0 x
  | ra_step : forall x y, reachA succ q0 x -> In y (succ x) -> reachA succ q0 y.

  Variables (succ : A -> list A) (q0 : list A).

  Definition tri (B : A -> Prop) (G : list A) : Prop :=
    (forall x, B x \/ In x G -> reachA succ q0 x) /\
    (forall x, In x q0 -> B x \/ In x G) /\
    (forall x y, B x -> In y (succ x) -> B y \/ In y G).

  Lemma tri_init : forall B : A -> Prop, (forall x, ~ B x) -> tri B q0.
  Proof.
    intros B N. split; [intros x [H|H]; [destruct (N x H) | apply ra_root, H]|].
    split; [auto | intros x y H; destruct (N x H)].
  Qed.

  Lemma tri_drop : forall B n G, tri B (n :: G) -> B n -> tri B G.
  Proof.
    intros B n G (I1 & I2 & I3) Hn. split; [intros x [H|H]; apply I1; [left | right; right]; exact H|].
    split; [intros x H; destruct (I2 x H) as [H1|[<-|H1]] | intros x y Hx Hy; destruct (I3 x y Hx Hy) as [H1|[<-|H1]]]; auto.
  Qed.

  Lemma tri_mark : forall (B B' : A -> Prop) n G G', tri B (n :: G) ->
    (forall y, B' y <-> y = n \/ B y) -> (forall y, In y G' <-> In y (succ n) \/ In y G) -> tri B' G'.
  Proof.
    intros B B' n G G' (I1 & I2 & I3) HB HG.
    assert (Hn : reachA succ q0 n) by (apply I1; right; left; reflexivity).
    assert (ADV : forall y, B y \/ In y (n :: G) -> B' y \/ In y G').
    { intros y [H|[<-|H]]; [left; apply HB; right; exact H | left; apply HB; left; reflexivity | right; apply HG; right; exact H]. }
    split; [|split].
    - intros x [H|H]; [apply HB in H as [->|H]; [exact Hn | apply I1; left; exact H]|].
      apply HG in H as [H|H]; [eapply ra_step; eassumption | apply I1; right; right; exact H].
    - intros x H. apply ADV, I2, H.
    - intros x y Hx Hy. apply HB in Hx as [->|Hx]; [right; apply HG; left; exact Hy | apply ADV, (I3 x y Hx Hy)].
  Qed.

  Lemma tri_done : forall B, tri B [] -> forall x, B x <-> reachA succ q0 x.
  Proof.
    intros B (I1 & I2 & I3) x. split; [intro H; apply I1; left; exact H|].
    induction 1 as [x Hx | x y _ IHx Hy]; [destruct (I2 x Hx) as [H|[]] | destruct (I3 x y IHx Hy) as [H|[]]]; exact H.
  Qed.
End Tri.

Section MarkProofs.
  Context {A : Type} (eqb : A -> A -> bool).
  Hypothesis eqb_spec : forall x y, eqb x y = true <-> x = y.

  Lemma mem_In : forall x l, mem eqb x l = true <-> In x l.
  Proof. exact (existsb_eqb_In eqb eqb_spec). Qed.

  Definition term (succ : A -> list A) (vis : list A) (n : A) : nat :=
    if mem eqb n vis then 0 else S (length (succ n)).

  Lemma term_mono : forall succ vis n x, term succ (n :: vis) x <= term succ vis x.
  Proof.
    intros. unfold term, mem. cbn [existsb].
    destruct (existsb (eqb x) vis); [rewrite orb_true_r; lia|destruct (eqb x n); cbn [orb]; lia].
  Qed.

  Lemma unvis_mark : forall succ U vis n, In n U -> mem eqb n vis = false ->
    unvis_work eqb succ U (n :: vis) + S (length (succ n)) <= unvis_work eqb succ U vis.
  Proof.
    intros succ U vis n Hin Hm. apply (sum_drop (term succ vis) (term succ (n :: vis)) U n); [apply term_mono | exact Hin|].
    unfold term. rewrite Hm, (proj2 (mem_In n (n :: vis))) by (left; reflexivity). lia.
  Qed.

  Lemma mark_inv : forall succ q0 fuel q vis r, tri succ q0 (fun x => In x vis) q -> mark_loop eqb fuel succ q vis = Some r ->
    tri succ q0 (fun x => In x r) [].
  Proof.
    intros succ q0. induction fuel as [|f IH]; intros q vis r T Hrun.
    - destruct q; [|discriminate]. inversion Hrun; subst. exact T.
    - destruct q as [|n q']. { inversion Hrun; subst; exact T. }
      cbn [mark_loop] in Hrun. destruct (mem eqb n vis) eqn:M; eapply IH; try exact Hrun.
      + eapply tri_drop; [exact T | apply mem_In, M].
      + eapply tri_mark; [exact T | intro y; cbn [In]; split; intros [H|H]; auto | intro y; apply in_app_iff].
  Qed.
End MarkProofs.

Lemma pair_eqb_spec : forall p q, pair_eqb p q = true <-> p = q.
Proof.
  intros [a b] [c d]. unfold pair_eqb. cbn. rewrite andb_true_iff, !Nat.eqb_eq. split.
  - intros [-> ->]; reflexivity.
  - intro H; inversion H; auto.
Qed.

(* eq_loop follows mark_loop on the product graph, or stops early with `false` *)
Lemma eq_follows_mark : forall lab1 lab2 ch1 ch2 fuel q vis r,
  mark_loop pair_eqb fuel (pair_succ ch1 ch2) q vis = Some r ->
  exists b, eq_loop fuel lab1 lab2 ch1 ch2 q vis = Some b.
Proof.
  intros lab1 lab2 ch1 ch2. induction fuel as [|f IH]; intros q vis r H.
  - destruct q; [|discriminate]. eexists; reflexivity.
  - destruct q as [|[a b] q']; [eexists; reflexivity|].
    cbn [mark_loop eq_loop] in *. destruct (mem pair_eqb (a, b) vis).
    + eapply IH; eauto.
    + destruct (negb ((lab1 a =? lab2 b) && (length (ch1 a) =? length (ch2 b)))); [eexists; reflexivity|].
      eapply IH. unfold pair_succ in H. cbn in H. eauto.
Qed.

Import String.
Definition rec_arms (t : list (string * string * arm)) : list (string * string) :=
  map (fun x => fst x) (filter (fun x => match snd x with Rec => true | _ => false end) t).

Definition arm_of (t : list (string * string * arm)) (op kind : string) : option arm :=
  match filter (fun x => String.eqb (fst (fst x)) op && String.eqb (snd (fst x)) kind) t with
  | x :: _ => Some (snd x)
  | [] => None
  end.

Definition all_queue (t : list (string * string * arm)) (op : string) (kinds : list string) : bool :=
  forallb (fun k => match arm_of t op k with Some Queue => true | _ => false end) kinds.

