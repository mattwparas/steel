(* C18 — the property theorems.  Pins_C18.v, compiled on every run, checks each statement again. *)
From Coq Require Import String List Arith Lia Bool Permutation.
From SV Require Import c18.Model_C18 gen.Gen_C18 c18.Proofs_C18 lib.ListFacts.
Import ListNotations.
Open Scope string_scope.

Theorem C18_worklist_eq_recursive_drop : forall fuel q, qsize q <= fuel -> Permutation (drop_wl fuel q) (flat_map nodes q).
Proof.
  induction fuel as [|f IH]; intros q H.
  - assert (q = []) by (apply qsize_zero; lia). subst. constructor.
  - destruct q as [|[a ks] q']; [constructor|].
    cbn [drop_wl flat_map nodes]. cbn [app]. apply perm_skip.
    rewrite (IH (q' ++ ks)%list).
    + rewrite flat_map_app. apply Permutation_app_comm.
    + rewrite qsize_app. rewrite qsize_cons, tsize_node in H. lia.
Qed.

Theorem C18_worklist_eq_recursive_size : forall fuel q acc, qsize q <= fuel -> size_wl fuel q acc = acc + qsize q.
Proof.
  induction fuel as [|f IH]; intros q acc H.
  - assert (q = []) by (apply qsize_zero; lia). subst. cbn. lia.
  - destruct q as [|[a ks] q']; [cbn; lia|].
    cbn [size_wl]. rewrite qsize_cons, tsize_node in *. rewrite IH; rewrite qsize_app; lia.
Qed.

Theorem C18_worklist_eq_recursive_print : forall fuel s, swork s <= fuel -> print_wl fuel s = flat_map denote s.
Proof.
  induction fuel as [|f IH]; intros s H.
  - destruct s as [|i s]; auto. exfalso. rewrite swork_cons in H.
    destruct i as [t|k]; cbn [iwork] in H; [pose proof (tsize_pos t)|]; lia.
  - destruct s as [|i s']; auto. rewrite swork_cons in H. destruct i as [[a ks]|k]; cbn [print_wl iwork] in H |- *.
    + rewrite tsize_node in H. rewrite IH.
      * rewrite flat_map_app, denote_visits. cbn. rewrite <- app_assoc. reflexivity.
      * rewrite swork_app, swork_visits, swork_cons. cbn [iwork]. lia.
    + rewrite IH; auto. lia.
Qed.

Theorem C18_drop_all : forall policy, (forall q cs, Permutation (policy q cs) (cs ++ q)) ->
  forall V E ext0 s r rank B,
  closedV V E -> acyclic E rank -> (forall x, In x V -> rank x <= B) ->
  start_ok V E ext0 s -> 1 <= ext0 r ->
  exists s', drop_loop policy (S (length E)) E [r] s = Some s' /\
    forall n, In n V -> (rel s' n = true <-> ~ reach E (dec_ext ext0 r) n).
Proof.
  intros policy Hpol V E ext0 s r rank B HV Hac HB Hst Hr.
  destruct (drop_run policy Hpol V E ext0 s r Hst Hr) as (s' & Hrun & HI).
  exists s'. split; auto. intros n Hn. split.
  - intros Hrel Hreach. rewrite (reach_live V E _ s' HI n Hreach) in Hrel. discriminate.
  - intros Hnr. destruct (rel s' n) eqn:R; auto. exfalso. apply Hnr.
    apply (live_reach V E _ s' HI rank B HV Hac HB (B - rank n) n Hn R). lia.
Qed.

(* the queue (implementation) and the stack (native recursion order) release the same objects *)
Theorem C18_worklist_eq_recursive_drop_shared : forall V E ext0 s r rank B,
  closedV V E -> acyclic E rank -> (forall x, In x V -> rank x <= B) ->
  start_ok V E ext0 s -> 1 <= ext0 r ->
  exists s1 s2, drop_loop fifo (S (length E)) E [r] s = Some s1 /\ drop_loop lifo (S (length E)) E [r] s = Some s2 /\
    forall n, In n V -> rel s1 n = rel s2 n.
Proof.
  intros V E ext0 s r rank B HV Hac HB Hst Hr.
  destruct (C18_drop_all fifo fifo_perm V E ext0 s r rank B HV Hac HB Hst Hr) as (s1 & R1 & C1).
  destruct (C18_drop_all lifo lifo_perm V E ext0 s r rank B HV Hac HB Hst Hr) as (s2 & R2 & C2).
  exists s1, s2. repeat split; auto. intros n Hn. apply eq_true_iff_eq. rewrite (C1 n Hn), (C2 n Hn). reflexivity.
Qed.

(* termination and memory safety on ANY graph (cycles included): the loop ends within |queue| + |E| steps and
   never meets a freed object; what stays reachable is not released *)
Theorem C18_drop_terminates_cyclic : forall policy, (forall q cs, Permutation (policy q cs) (cs ++ q)) ->
  forall V E ext0 s r, start_ok V E ext0 s -> 1 <= ext0 r ->
  exists s', drop_loop policy (S (length E)) E [r] s = Some s' /\
    (forall n, reach E (dec_ext ext0 r) n -> rel s' n = false).
Proof.
  intros policy Hpol V E ext0 s r Hst Hr.
  destruct (drop_run policy Hpol V E ext0 s r Hst Hr) as (s' & Hrun & HI).
  exists s'. split; auto. intros n Hn. eapply reach_live; eauto.
Qed.

(* explicit fuel bound: |queue| + sum over the universe of (1 + out-degree) *)
Theorem C18_mark_terminates : forall (A : Type) (eqb : A -> A -> bool), (forall x y, eqb x y = true <-> x = y) ->
  forall succ U, (forall x y, In x U -> In y (succ x) -> In y U) ->
  forall fuel q vis, (forall x, In x q -> In x U) -> length q + unvis_work eqb succ U vis <= fuel ->
  exists r, mark_loop eqb fuel succ q vis = Some r.
Proof.
  intros A eqb eqb_spec succ U Hcl. induction fuel as [|f IH]; intros q vis Hq Hf.
  - destruct q; [eexists; reflexivity | cbn in Hf; lia].
  - destruct q as [|n q']; [eexists; reflexivity|]. cbn [mark_loop]. cbn in Hf.
    apply incl_cons_inv in Hq. destruct Hq as [Hn Hq].
    destruct (mem eqb n vis) eqn:M; apply IH; [exact Hq|lia|exact (incl_app (fun y => Hcl n y Hn) Hq)|].
    pose proof (unvis_mark eqb eqb_spec succ U vis n Hn M). rewrite app_length. lia.
Qed.

(* what is marked: exactly what is reachable from the initial queue *)
Theorem C18_mark_reachable : forall (A : Type) (eqb : A -> A -> bool), (forall x y, eqb x y = true <-> x = y) ->
  forall succ q0 fuel r, mark_loop eqb fuel succ q0 [] = Some r ->
  forall x, In x r <-> reachA succ q0 x.
Proof.
  intros A eqb eqb_spec succ q0 fuel r Hrun.
  apply (tri_done succ q0 (fun x => In x r)), (mark_inv eqb eqb_spec succ q0 fuel q0 [] r); [|exact Hrun].
  apply tri_init. intros x [].
Qed.

Theorem C18_eq_terminates : forall lab1 lab2 ch1 ch2 U,
  (forall x y, In x U -> In y (pair_succ ch1 ch2 x) -> In y U) ->
  forall q, (forall x, In x q -> In x U) ->
  exists b, eq_loop (length q + unvis_work pair_eqb (pair_succ ch1 ch2) U []) lab1 lab2 ch1 ch2 q [] = Some b.
Proof.
  intros lab1 lab2 ch1 ch2 U Hcl q Hq.
  destruct (C18_mark_terminates _ pair_eqb pair_eqb_spec (pair_succ ch1 ch2) U Hcl
              (length q + unvis_work pair_eqb (pair_succ ch1 ch2) U []) q [] Hq (le_n _)) as (r & Hr).
  eapply eq_follows_mark; eauto.
Qed.

(* cycle-aware printing terminates: fuel bound |stack| + 2 * sum over the universe of (1 + out-degree) *)
Theorem C18_print_terminates : forall lab ch U, (forall x y, In x U -> In y (ch x) -> In y U) ->
  forall fuel s vis, (forall n, In (GVisit n) s -> In n U) -> gwork ch U vis s <= fuel ->
  exists out, printc_loop fuel lab ch s vis = Some out.
Proof.
  intros lab ch U Hcl. induction fuel as [|f IH]; intros s vis Hs Hf.
  - destruct s; [eexists; reflexivity | unfold gwork in Hf; cbn in Hf; lia].
  - destruct s as [|i s']; [eexists; reflexivity|]. cbn [printc_loop]. unfold gwork in *. cbn [length] in Hf.
    destruct i as [n|k].
    + destruct (mem Nat.eqb n vis) eqn:M.
      * apply option_map_some, IH; [intros; apply Hs; right; auto|lia].
      * apply option_map_some, IH.
        -- intros m Hm. apply in_app_or in Hm. destruct Hm as [Hm|[Hm|Hm]].
           ++ apply in_map_iff in Hm. destruct Hm as (y & Hy & Hin). inversion Hy; subst.
              apply Hcl with (x := n); auto. apply Hs. left; reflexivity.
           ++ discriminate.
           ++ apply Hs. right; auto.
        -- pose proof (unvis_mark Nat.eqb Nat.eqb_eq ch U vis n (Hs n (or_introl eq_refl)) M).
           rewrite app_length, map_length. cbn [length]. lia.
    + apply option_map_some, IH; [intros; apply Hs; right; auto|lia].
Qed.

Theorem C18_recursive_arms_listed : rec_arms arm_table = expected_rec.
Proof. vm_compute. reflexivity. Qed.

Theorem C18_drop_arms_queue : all_queue arm_table "drop" expected_queue_drop = true /\ all_queue arm_table "drop_entry" expected_drop_entry = true /\
  format_depth_guarded = true.
Proof. vm_compute. repeat split; reflexivity. Qed.

Example C18_nonvacuous :
  (* a shared DAG  0 -> 1, 0 -> 2, 1 -> 3, 2 -> 3, 4 -> 3 with external references to 0 and 4: dropping 0 releases
     0, 1, 2 and keeps 3 (still referenced by 4); a two-node cycle printed with a back reference; equal? of two
     one-node cycles *)
  (match drop_loop fifo 6 [(0,1); (0,2); (1,3); (2,3); (4,3)] [0]
           (mkD (fun n => match n with 0 => 1 | 1 => 1 | 2 => 1 | 3 => 3 | 4 => 1 | _ => 0 end) (fun _ => false)) with
   | Some s' => map (rel s') [0; 1; 2; 3; 4] = [true; true; true; false; false] /\ rc s' 3 = 1
   | None => False end) /\
  printc_loop 10 (fun n => n) (fun n => match n with 0 => [1] | 1 => [0] | _ => [] end) [GVisit 0] []
    = Some [TOpen 0; TOpen 1; TRef 0; TClose; TClose] /\
  eq_loop 5 (fun _ => 7) (fun _ => 7) (fun _ => [0]) (fun _ => [0]) [(0, 0)] [] = Some true.
Proof. vm_compute. repeat split; reflexivity. Qed.
