(* C15, visibility continued: the stopper's own steps preserve [Vis]; the bundle of invariants that holds along
   every run (C15_global_visible reads off it that a thread executing an instruction holds the current table). *)
From Coq Require Import List Arith Lia Bool.
Import ListNotations.
From SV Require Import c15.Conc c15.Model_C15 c15.Proofs_C15_Base c15.Proofs_C15_Step c15.Proofs_C15_Inv c15.Proofs_C15
  c15.Proofs_C15_Excl c15.Proofs_C15_Spawn c15.Proofs_C15_Visible.

(* the stopper never reads its own state through the handshake *)
Definition AccSelf (w : world) : Prop := forall h p k, pc (th w h) = Stw (SAccess p k) -> k <> h.

Lemma AccSelf_step : forall t w w', AccSelf w -> wstep cfg_fixed t w = Some w' -> AccSelf w'.
Proof.
  intros t w w' HA H h p k Hpc. destruct (Nat.eq_dec h t) as [->|Hne].
  - destruct (stw_or_not (pc (th w t))) as [[s0 Ept]|Hnot].
    + now destruct (stw_into_access _ _ _ _ _ _ _ Ept H Hpc) as (_ & Hk & _).
    + destruct (own_nonstw t w w' H Hnot) as (_ & _ & _ & _ & _ & _ & Hos). now destruct (Hos _ Hpc).
  - exact (HA h p k (stw_pc_other _ _ _ _ _ _ H Hne Hpc)).
Qed.

(* [Vis] from a description by the position of the unique stopper *)
Lemma Vis_intro : forall w' t, (forall h s, pc (th w' h) = Stw s -> h = t) ->
  match pc (th w' t) with
  | Stw s => match upd_pos s with
             | Some k => vis_at w' t k
             | None => (forall u, live (th w' u) = true -> seen (th w' u) = env_gen w') /\
                       (s = SThunk -> is_update (head (th w' t)) = true)
             end
  | _ => forall u, live (th w' u) = true -> seen (th w' u) = env_gen w'
  end -> Vis w'.
Proof.
  intros w' t Hst Hm. constructor.
  - intros h s k Hpc Hk. pose proof (Hst h s Hpc); subst h. rewrite Hpc, Hk in Hm. exact Hm.
  - intros Hnone u Hl. destruct (pc (th w' t)) eqn:E; auto.
    rewrite (Hnone t s E) in Hm. destruct Hm as [A _]. auto.
  - intros h Hpc. pose proof (Hst h _ Hpc); subst h. rewrite Hpc in Hm. simpl in Hm. destruct Hm as [_ B]. auto.
Qed.

Lemma idle_of : forall w t s0, Inv w -> Vis w -> pc (th w t) = Stw s0 -> upd_pos s0 = None ->
  forall u, live (th w u) = true -> seen (th w u) = env_gen w.
Proof.
  intros w t s0 HI HV Ept Hn. apply (V_idle w HV).
  intros h s Hpc. assert (h = t) by (eapply single_stopper_inv; eauto). subst. congruence.
Qed.

(* The stopper's own steps, by its position.  Only three change anything a generation speaks of: the update itself
   (SThunk: the generation advances, everybody now holds the previous table), the hand-over to thread k in the second
   pass (SAccess 2 k) and the stopper taking the new table itself at the end of that pass; a skipped thread is not a
   running one (no unregistered runner during a section). *)
Lemma Vis_step_stw : forall t w w' s0, Inv w -> Unreg w -> AccSelf w -> Vis w ->
  pc (th w t) = Stw s0 -> wstep cfg_fixed t w = Some w' -> Vis w'.
Proof.
  intros t w w' s0 HI HU HA HV Ept H.
  destruct (stw_step_spec _ _ _ _ _ Ept H) as (Hn & Hth & Hpc' & _ & _ & Hg).
  assert (Hseen : forall u, seen (th w' u) = stw_seen t s0 w u) by (intro; apply Hth).
  assert (Hhead : forall u, head (th w' u) = head (th w u)).
  { intro u. unfold head. now rewrite (proj2 (proj2 (proj2 (Hth u)))). }
  assert (Hlive : forall u, live (th w' u) = live (th w u)).
  { intro u. unfold live. destruct (Nat.eq_dec u t) as [->|Hu]; [|now rewrite Hpc'].
    rewrite Ept, Hn. destruct s0; cbn [stw_next];
      repeat match goal with |- context [if ?b then _ else _] => destruct b end; reflexivity. }
  assert (Htl : live (th w t) = true) by (unfold live; now rewrite Ept).
  assert (Hidle : upd_pos s0 = None -> forall u, live (th w u) = true -> seen (th w u) = env_gen w).
  { intro E. exact (idle_of w t s0 HI HV Ept E). }
  assert (Hupd : forall k, upd_pos s0 = Some k -> vis_at w t k) by (intros k E; exact (V_upd w HV t s0 k Ept E)).
  apply (Vis_intro w' t).
  { intros h s. exact (stopper_unique_step _ _ _ _ _ _ _ HI Ept H). }
  assert (Hquiet : upd_pos s0 = None -> (forall u, stw_seen t s0 w u = seen (th w u)) -> env_gen w' = env_gen w ->
                   forall u, live (th w' u) = true -> seen (th w' u) = env_gen w').
  { intros E Es Eg u. rewrite Hlive, Hseen, Es, Eg. now apply Hidle. }
  (* a step inside the second pass that hands out nothing and keeps the position *)
  assert (Hkeep : forall k, upd_pos s0 = Some k -> (forall u, stw_seen t s0 w u = seen (th w u)) ->
                  env_gen w' = env_gen w -> vis_at w' t k).
  { intros k E Es Eg. destruct (Hupd k E) as (A & B & C). unfold vis_at. rewrite Hhead, Hseen, Es, Eg.
    split; [exact A|]. split; [exact B|]. intros u Hu. rewrite Hlive, Hseen, Es. now apply C. }
  rewrite Hn. destruct s0; cbn [stw_next upd_pos stw_seen] in *.
  - split; [now apply Hquiet | discriminate].
  - split; [now apply Hquiet | discriminate].
  - destruct (k <? nthreads w); cbn [upd_pos]; (split; [now apply Hquiet | discriminate]).
  - destruct (p =? 2) eqn:Ep2; [now apply Hkeep | split; [now apply Hquiet | discriminate]].
  - (* SWait p k *)
    destruct (k <? nthreads w) eqn:Hk; cbn [andb negb] in *.
    + assert (Es : forall u, (if (u =? t) && false && is_update (head (th w t)) && negb (p =? 1)
                              then env_gen w else seen (th w u)) = seen (th w u)).
      { intro u. now rewrite andb_false_r. }
      destruct (negb (reg (th w k)) || (k =? t) || is_done (pc (th w k))) eqn:Hskip; cbn [upd_pos];
        (destruct (p =? 2) eqn:Ep2; [|split; [now apply Hquiet | discriminate]]).
      * (* k is skipped: it is the stopper, or not a running thread *)
        destruct (Hupd k eq_refl) as (A & B & C). unfold vis_at. rewrite Hhead, Hseen, Es, Hg.
        split; [exact A|]. split; [exact B|]. intros u Hu. rewrite Hlive, Hseen, Es. intros Hl.
        destruct (C u Hu Hl) as [C1 C2]. split; [|intro; apply C2; lia].
        intro Hlt. destruct (Nat.eq_dec u k) as [->|]; [|apply C1; lia]. exfalso.
        destruct (live_cases _ Hl) as [Hd _].
        rewrite (no_unregistered_runner_inv w t _ k HI HU Ept Hl), Hd in Hskip. cbn in Hskip.
        rewrite orb_false_r in Hskip. apply Nat.eqb_eq in Hskip. congruence.
      * now apply Hkeep.
    + (* end of a pass *)
      destruct (is_update (head (th w t))) eqn:Hup; cbn [andb] in *.
      * destruct (p =? 1) eqn:Ep1; cbn [upd_pos negb andb] in *.
        -- assert (Ep2 : (p =? 2) = false) by (apply Nat.eqb_eq in Ep1; now subst).
           rewrite Ep2 in *. split; [|intros _; rewrite Hhead; exact Hup].
           apply Hquiet; auto. intro u. now rewrite andb_false_r.
        -- (* the stopper takes the new table itself *)
           split; [|discriminate]. intros u. rewrite Hlive, Hseen, Hg. intros Hl.
           destruct (Nat.eqb_spec u t) as [->|Hu]; cbn [andb]; [reflexivity|].
           destruct (p =? 2) eqn:Ep2; [|now apply Hidle].
           destruct (Hupd k eq_refl) as (_ & _ & C). apply (C u Hu Hl).
           apply (flag_in_range live _ _ eq_refl) in Hl. apply Nat.ltb_ge in Hk. lia.
      * assert (Es : forall u, (if (u =? t) && true && false && negb (p =? 1)
                                then env_gen w else seen (th w u)) = seen (th w u)).
        { intro u. now rewrite andb_false_r. }
        cbn [upd_pos]. split; [|discriminate]. destruct (p =? 2) eqn:Ep2; [|now apply Hquiet].
        destruct (Hupd k eq_refl) as (A & _). rewrite Hup in A. discriminate.
  - (* SAccess p k *)
    destruct (p =? 2) eqn:Ep2.
    + (* thread k is handed the new table *)
      destruct (Hupd k eq_refl) as (A & B & C). pose proof (HA t p k Ept) as Hkt.
      unfold vis_at. rewrite Hhead, Hseen, Hg, A. cbn [andb].
      rewrite (proj2 (Nat.eqb_neq t k) (not_eq_sym Hkt)). cbn [andb].
      split; [reflexivity|]. split; [exact B|]. intros u Hu. rewrite Hlive, Hseen. intros Hl.
      destruct (Nat.eqb_spec u k) as [->|Hne]; cbn [andb].
      * apply (flag_in_range live _ _ eq_refl) in Hl. apply Nat.ltb_lt in Hl. rewrite Hl, A. split; [reflexivity | intro; lia].
      * destruct (C u Hu Hl) as [C1 C2]. split; intro; [apply C1 | apply C2]; lia.
    + split; [|discriminate]. apply Hquiet; auto. intro u. now rewrite !andb_false_r.
  - (* SThunk *)
    unfold vis_at. rewrite Hhead, Hseen, Hg. cbn [stw_seen].
    split; [apply (V_thunk w HV t Ept)|]. split; [f_equal; now apply Hidle|].
    intros u Hu. rewrite Hlive, Hseen. cbn [stw_seen]. intros Hl.
    split; [intro; lia | intros _; f_equal; now apply Hidle].
  - split; [now apply Hquiet | discriminate].
  - split; [now apply Hquiet | discriminate].
  - destruct (k <? nthreads w); cbn [upd_pos]; [split; [now apply Hquiet | discriminate] | now apply Hquiet].
Qed.

Record VInv (w : world) : Prop := { VI_inv : Inv w; VI_unreg : Unreg w; VI_acc : AccSelf w; VI_vis : Vis w }.

Lemma VInv_step : forall t w w', VInv w -> wstep cfg_fixed t w = Some w' -> VInv w'.
Proof.
  intros t w w' [HI HU HA HV] H. constructor.
  - eapply Inv_step; eauto.
  - eapply Unreg_step; eauto.
  - eapply AccSelf_step; eauto.
  - destruct (pc (th w t)) eqn:Ept.
    all: try (eapply Vis_step_other; eauto; intros x E; rewrite Ept in E; discriminate).
    eapply Vis_step_stw; eauto.
Qed.

Lemma seen_init : forall progs t, seen (th (init progs) t) = 0.
Proof. intros progs t. apply (init_threads progs t). Qed.

Lemma VInv_init : forall progs, VInv (init progs).
Proof.
  intros progs. constructor.
  - apply Inv_init.
  - apply Unreg_init.
  - intros h p k E. now apply init_no_stw in E.
  - constructor.
    + intros h s k E. now apply init_no_stw in E.
    + intros _ t _. rewrite seen_init. reflexivity.
    + intros h E. now apply init_no_stw in E.
Qed.

Lemma VInv_run : forall sched w, VInv w -> VInv (run cfg_fixed sched w).
Proof. intros. unfold run. apply invariant_run; auto. intros. eapply VInv_step; eauto. Qed.

(* with [Stopped]: outside the exit window the threads that still hold the previous table are stopped (C15_global_visible) *)
Lemma covered_second_pass : forall s k t, upd_pos s = Some k -> covered s t = true.
Proof.
  intros s k t H. destruct s; simpl in *; try discriminate.
  all: destruct (p =? 2) eqn:E; try discriminate; apply Nat.eqb_eq in E; subst; reflexivity.
Qed.

Definition vis_sched : list tid := wf_sched ++ [0;0;0;0] ++ [1;1].
