(* C15: visibility of completed global updates.  Invariant Vis (seen = generation of the table a thread holds, env_gen =
   completed updates): outside the second pass of an update every live thread holds the current table; at position k of
   it the threads below k hold the new table, the others and the stopper the previous one. *)
From Coq Require Import List Arith Lia Bool.
Import ListNotations.
From SV Require Import c15.Conc c15.Model_C15 c15.Proofs_C15_Base c15.Proofs_C15_Step c15.Proofs_C15_Inv c15.Proofs_C15
  c15.Proofs_C15_Excl c15.Proofs_C15_Spawn.

(* position of the second pass of a global update (the pass that hands out the new table) *)
Definition upd_pos (s : spc) : option nat :=
  match s with
  | SWaitLock p => if p =? 2 then Some 0 else None
  | SWait p k | SAccess p k => if p =? 2 then Some k else None
  | _ => None
  end.

Definition vis_at (w : world) (h k : tid) : Prop :=
  is_update (head (th w h)) = true /\ S (seen (th w h)) = env_gen w /\
  forall t, t <> h -> live (th w t) = true ->
            (t < k -> seen (th w t) = env_gen w) /\ (k <= t -> S (seen (th w t)) = env_gen w).

Record Vis (w : world) : Prop := {
  V_upd : forall h s k, pc (th w h) = Stw s -> upd_pos s = Some k -> vis_at w h k;
  V_idle : (forall h s, pc (th w h) = Stw s -> upd_pos s = None) ->
           forall t, live (th w t) = true -> seen (th w t) = env_gen w;
  V_thunk : forall h, pc (th w h) = Stw SThunk -> is_update (head (th w h)) = true
}.

(* outside a section's own steps a table is only copied: by a thread that moves, or to a thread it starts *)
Lemma seen_source : forall u w w' t, wstep cfg_fixed u w = Some w' -> (forall s, pc (th w u) <> Stw s) ->
  live (th w' t) = true -> exists t0, live (th w t0) = true /\ seen (th w' t) = seen (th w t0).
Proof.
  intros u w w' t H Hnot Hl. destruct (own_nonstw u w w' H Hnot) as (_ & _ & Hs & _ & Hd & Hn & _).
  assert (Hlu : live (th w u) = true) by (unfold live; now rewrite Hd, Hn).
  destruct (Nat.eq_dec t u) as [->|Hne]; [eauto|].
  destruct (step_other _ _ _ _ t H Hne) as (f & T & E). rewrite E in *.
  destruct T; try (now exists t); try (now exists u). now elim (Hnot _ H0).
Qed.

Lemma Vis_step_other : forall u w w', Inv w -> Vis w -> wstep cfg_fixed u w = Some w' ->
  (forall s, pc (th w u) <> Stw s) -> Vis w'.
Proof.
  intros u w w' HI HV H Hnot.
  assert (Hg : env_gen w' = env_gen w).
  { apply (own_step u w w' H). destruct (pc (th w u)); auto. now elim (Hnot s). }
  (* as in Proofs_C15_Excl.Stopped_step_other *)
  assert (Hsec : forall h s, pc (th w' h) = Stw s -> s <> SOwnFlag ->
            pc (th w h) = Stw s /\ th w' h = th w h /\
            forall t, live (th w' t) = true -> live (th w t) = true /\ seen (th w' t) = seen (th w t)).
  { intros h s Hpc Hs. destruct (stw_entered u w w' h s H Hnot Hpc) as [[Hne Hpcw]|[_ ->]]; [|now elim Hs].
    destruct (mutator_step u w w' h s HI Hpcw (not_eq_sym Hne) H) as (Hfr & _ & _ & Hseen & _ & _ & Hl & _).
    split; [exact Hpcw|]. split; [exact (Hfr h Hne)|]. intros t. destruct (Nat.eq_dec t u) as [->|Htu]; [auto|].
    now rewrite (Hfr t Htu). }
  constructor.
  - intros h s k Hpc Hk. destruct (Hsec h s Hpc) as (Hpcw & Eh & Hall); [intros ->; discriminate Hk|].
    destruct (V_upd w HV h s k Hpcw Hk) as (A & B & C). unfold vis_at. rewrite Eh, Hg.
    split; [exact A|]. split; [exact B|]. intros t Hth Hl. destruct (Hall t Hl) as [Hlw ->]. now apply C.
  - intros Hnone t Hl. destruct (seen_source u w w' t H Hnot Hl) as (t0 & Hl0 & ->). rewrite Hg.
    apply (V_idle w HV); auto. intros h s Hpc. apply (Hnone h s).
    assert (Hne : u <> h) by (intros ->; now elim (Hnot s)).
    now rewrite (proj1 (mutator_step u w w' h s HI Hpc Hne H) h (not_eq_sym Hne)).
  - intros h Hpc. destruct (Hsec h _ Hpc) as (Hpcw & -> & _); [discriminate|]. now apply (V_thunk w HV).
Qed.
