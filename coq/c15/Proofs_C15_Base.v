From Coq Require Import List Arith Lia Bool.
Import ListNotations.
From SV Require Import c15.Model_C15.

Lemma upd_length : forall A i (x : A) l, length (upd i x l) = length l.
Proof. intros A i x l. revert i. induction l; destruct i; simpl; auto. Qed.

Lemma nth_upd : forall A (l : list A) i j x d,
    nth j (upd i x l) d = if (j =? i) && (i <? length l) then x else nth j l d.
Proof.
  induction l as [|y r IH]; intros i j x d.
  - destruct i, j; simpl; rewrite ?andb_false_r; reflexivity.
  - destruct i, j; simpl; auto.
    rewrite IH. reflexivity.
Qed.

Lemma th_set_th : forall t x w u,
    th (set_th t x w) u = if (u =? t) && (t <? nthreads w) then x else th w u.
Proof. intros. unfold th, set_th, nthreads. simpl. apply nth_upd. Qed.

Lemma th_goto : forall t p w u,
    th (goto t p w) u = if (u =? t) && (t <? nthreads w) then with_pc p (th w t) else th w u.
Proof. intros. unfold goto. apply th_set_th. Qed.

Lemma th_set_paused : forall k b w u,
    th (set_paused k b w) u = if (u =? k) && (k <? nthreads w) then with_paused b (th w k) else th w u.
Proof. intros. unfold set_paused. apply th_set_th. Qed.

Lemma nthreads_set_th : forall t x w, nthreads (set_th t x w) = nthreads w.
Proof. intros. unfold nthreads, set_th. simpl. apply upd_length. Qed.
Lemma nthreads_goto : forall t p w, nthreads (goto t p w) = nthreads w.
Proof. intros. apply nthreads_set_th. Qed.
Lemma nthreads_set_paused : forall t p w, nthreads (set_paused t p w) = nthreads w.
Proof. intros. apply nthreads_set_th. Qed.
Lemma nthreads_set_heap : forall h w, nthreads (set_heap h w) = nthreads w. Proof. reflexivity. Qed.
Lemma nthreads_set_tmx : forall h w, nthreads (set_tmx h w) = nthreads w. Proof. reflexivity. Qed.
Lemma nthreads_set_gen : forall h w, nthreads (set_gen h w) = nthreads w. Proof. reflexivity. Qed.
Lemma nthreads_set_sh : forall h w, nthreads (set_sh h w) = nthreads w. Proof. reflexivity. Qed.

Lemma th_set_heap : forall h w u, th (set_heap h w) u = th w u. Proof. reflexivity. Qed.
Lemma th_set_tmx : forall h w u, th (set_tmx h w) u = th w u. Proof. reflexivity. Qed.
Lemma th_set_gen : forall h w u, th (set_gen h w) u = th w u. Proof. reflexivity. Qed.
Lemma th_set_sh : forall h w u, th (set_sh h w) u = th w u. Proof. reflexivity. Qed.

Lemma heap_set_th : forall t x w, heap (set_th t x w) = heap w. Proof. reflexivity. Qed.
Lemma heap_goto : forall t x w, heap (goto t x w) = heap w. Proof. reflexivity. Qed.
Lemma heap_set_paused : forall t x w, heap (set_paused t x w) = heap w. Proof. reflexivity. Qed.
Lemma heap_set_heap : forall h w, heap (set_heap h w) = h. Proof. reflexivity. Qed.
Lemma heap_set_tmx : forall h w, heap (set_tmx h w) = heap w. Proof. reflexivity. Qed.
Lemma heap_set_gen : forall h w, heap (set_gen h w) = heap w. Proof. reflexivity. Qed.
Lemma heap_set_sh : forall h w, heap (set_sh h w) = heap w. Proof. reflexivity. Qed.

Lemma tmx_set_th : forall t x w, tmx (set_th t x w) = tmx w. Proof. reflexivity. Qed.
Lemma tmx_goto : forall t x w, tmx (goto t x w) = tmx w. Proof. reflexivity. Qed.
Lemma tmx_set_paused : forall t x w, tmx (set_paused t x w) = tmx w. Proof. reflexivity. Qed.
Lemma tmx_set_heap : forall h w, tmx (set_heap h w) = tmx w. Proof. reflexivity. Qed.
Lemma tmx_set_tmx : forall h w, tmx (set_tmx h w) = h. Proof. reflexivity. Qed.
Lemma tmx_set_gen : forall h w, tmx (set_gen h w) = tmx w. Proof. reflexivity. Qed.
Lemma tmx_set_sh : forall h w, tmx (set_sh h w) = tmx w. Proof. reflexivity. Qed.

Lemma sh_set_th : forall t x w, sh (set_th t x w) = sh w. Proof. reflexivity. Qed.
Lemma sh_goto : forall t x w, sh (goto t x w) = sh w. Proof. reflexivity. Qed.
Lemma sh_set_paused : forall t x w, sh (set_paused t x w) = sh w. Proof. reflexivity. Qed.
Lemma sh_set_heap : forall h w, sh (set_heap h w) = sh w. Proof. reflexivity. Qed.
Lemma sh_set_tmx : forall h w, sh (set_tmx h w) = sh w. Proof. reflexivity. Qed.
Lemma sh_set_gen : forall h w, sh (set_gen h w) = sh w. Proof. reflexivity. Qed.
Lemma sh_set_sh : forall h w, sh (set_sh h w) = h. Proof. reflexivity. Qed.

Lemma gen_set_th : forall t x w, env_gen (set_th t x w) = env_gen w. Proof. reflexivity. Qed.
Lemma gen_goto : forall t x w, env_gen (goto t x w) = env_gen w. Proof. reflexivity. Qed.
Lemma gen_set_paused : forall t x w, env_gen (set_paused t x w) = env_gen w. Proof. reflexivity. Qed.
Lemma gen_set_heap : forall h w, env_gen (set_heap h w) = env_gen w. Proof. reflexivity. Qed.
Lemma gen_set_tmx : forall h w, env_gen (set_tmx h w) = env_gen w. Proof. reflexivity. Qed.
Lemma gen_set_gen : forall h w, env_gen (set_gen h w) = h. Proof. reflexivity. Qed.
Lemma gen_set_sh : forall h w, env_gen (set_sh h w) = env_gen w. Proof. reflexivity. Qed.

Lemma th_out_of_range : forall w t, nthreads w <= t -> th w t = dflt.
Proof. intros w t H. unfold th. apply nth_overflow. exact H. Qed.

(* a flag that the default record does not carry is only found inside the thread table *)
Lemma flag_in_range : forall (F : thd -> bool) w t, F dflt = false -> F (th w t) = true -> t < nthreads w.
Proof.
  intros F w t Hd H. destruct (lt_dec t (nthreads w)); auto. rewrite th_out_of_range, Hd in H by lia. discriminate.
Qed.

Lemma pc_with_pc : forall p x, pc (with_pc p x) = p. Proof. reflexivity. Qed.
Lemma head_with_pc : forall p x, head (with_pc p x) = head x. Proof. reflexivity. Qed.
Lemma paused_with_pc : forall p x, paused (with_pc p x) = paused x. Proof. reflexivity. Qed.
Lemma reg_with_pc : forall p x, reg (with_pc p x) = reg x. Proof. reflexivity. Qed.
Lemma prog_with_pc : forall p x, prog (with_pc p x) = prog x. Proof. reflexivity. Qed.
Lemma seen_with_pc : forall p x, seen (with_pc p x) = seen x. Proof. reflexivity. Qed.
Lemma pc_with_paused : forall p x, pc (with_paused p x) = pc x. Proof. reflexivity. Qed.
Lemma head_with_paused : forall p x, head (with_paused p x) = head x. Proof. reflexivity. Qed.
Lemma paused_with_paused : forall p x, paused (with_paused p x) = p. Proof. reflexivity. Qed.
Lemma reg_with_paused : forall p x, reg (with_paused p x) = reg x. Proof. reflexivity. Qed.
Lemma prog_with_paused : forall p x, prog (with_paused p x) = prog x. Proof. reflexivity. Qed.
Lemma seen_with_paused : forall p x, seen (with_paused p x) = seen x. Proof. reflexivity. Qed.
Lemma pc_with_reg : forall p x, pc (with_reg p x) = pc x. Proof. reflexivity. Qed.
Lemma head_with_reg : forall p x, head (with_reg p x) = head x. Proof. reflexivity. Qed.
Lemma paused_with_reg : forall p x, paused (with_reg p x) = paused x. Proof. reflexivity. Qed.
Lemma reg_with_reg : forall p x, reg (with_reg p x) = p. Proof. reflexivity. Qed.
Lemma prog_with_reg : forall p x, prog (with_reg p x) = prog x. Proof. reflexivity. Qed.
Lemma seen_with_reg : forall p x, seen (with_reg p x) = seen x. Proof. reflexivity. Qed.
Lemma pc_with_seen : forall p x, pc (with_seen p x) = pc x. Proof. reflexivity. Qed.
Lemma head_with_seen : forall p x, head (with_seen p x) = head x. Proof. reflexivity. Qed.
Lemma paused_with_seen : forall p x, paused (with_seen p x) = paused x. Proof. reflexivity. Qed.
Lemma reg_with_seen : forall p x, reg (with_seen p x) = reg x. Proof. reflexivity. Qed.
Lemma prog_with_seen : forall p x, prog (with_seen p x) = prog x. Proof. reflexivity. Qed.
Lemma seen_with_seen : forall p x, seen (with_seen p x) = p. Proof. reflexivity. Qed.
Lemma pc_pop : forall x, pc (pop x) = Run. Proof. reflexivity. Qed.
Lemma paused_pop : forall x, paused (pop x) = paused x. Proof. reflexivity. Qed.
Lemma reg_pop : forall x, reg (pop x) = reg x. Proof. reflexivity. Qed.
Lemma prog_pop : forall x, prog (pop x) = tl (prog x). Proof. reflexivity. Qed.
Lemma seen_pop : forall x, seen (pop x) = seen x. Proof. reflexivity. Qed.

(* destructs, one after the other, each scrutinee of a match or test in H that contains none itself, and drops the
   branches in which H equates [None] with [Some _]; the outcome of each test stays in the context under the name
   [destruct] gives it (Heqb, Heqb0, ... in the order of the tests), which is how the proofs refer to it *)
Ltac destr_match H :=
  repeat match type of H with
         | context [match ?x with _ => _ end] =>
             match x with
             | context [match _ with _ => _ end] => fail 1
             | _ => destruct x eqn:?; try discriminate H
             end
         | context [if ?x then _ else _] =>
             match x with
             | context [if _ then _ else _] => fail 1
             | context [match _ with _ => _ end] => fail 1
             | _ => destruct x eqn:?; try discriminate H
             end
         end.

(* Case analysis of a step: every way [wstep cfg t w] can return [Some w'].  Leaves one goal per
   case with w' replaced by its defining expression and the branch conditions as hypotheses; the cases in which a test on
   the current action came out against the action itself are dropped. *)
Ltac step_cases H :=
  unfold wstep in H; cbv zeta in H;
  destr_match H;
  try (unfold sp_closure in H; cbv zeta in H; destr_match H);
  try (unfold stw_step in H; cbv zeta in H; destr_match H);
  try discriminate H;
  injection H as <-;
  try match goal with E : _ = _ :> bool |- _ => discriminate E end.
