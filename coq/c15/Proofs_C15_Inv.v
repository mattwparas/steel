(* The lock / pause-flag invariant of the repaired handshake (cfg_fixed), what it makes of a step taken while another
   thread is inside a section ([mutator_step]), and its preservation by every step. *)
From Coq Require Import List Arith Lia Bool.
Import ListNotations.
From SV Require Import c15.Conc c15.Model_C15 c15.Proofs_C15_Base c15.Proofs_C15_Step.

(* actions whose first safepoint closure is heap.lock_arc(): allocation, global update and (with spawn_locked) spawn *)
Definition heap_act (a : act) : bool :=
  match a with AAlloc _ | AAllocJit _ | AUpdate | ASpawn _ => true | _ => false end.
Definition holds_heap (x : thd) : bool :=
  match pc x with Held | Stw _ | Rel | SpReg => true | SpParked | SpExitChecked => heap_act (head x) | _ => false end.
Definition holds_tmx (x : thd) : bool :=
  match pc x with Stw (SSetFlag _) | Stw (SWait _ _) | Stw (SAccess _ _) | Stw (SResume _) => true | _ => false end.
Definition flag_ok (s : spc) (t h : tid) (r : bool) : Prop :=
  match s with SResumeLock => r = true | SResume k => r = true /\ k <= t | _ => r = true \/ t = h end.

Definition stopper_ok (w : world) (u : tid) : Prop :=
  match heap w with
  | Some h => match pc (th w h) with Stw s => flag_ok s u h (reg (th w u)) | _ => False end
  | None => False
  end.

Record Inv (w : world) : Prop := {
  I_heap : forall u, holds_heap (th w u) = true <-> heap w = Some u;
  I_tmx : forall u, tmx w = Some u -> holds_tmx (th w u) = true;
  I_paused : forall u, paused (th w u) = true -> stopper_ok w u;
  I_nolock : forall u, pc (th w u) <> LockUnpub;
  I_reg : forall u, reg (th w u) = true -> pc (th w u) <> NotStarted
}.

Lemma owns_false : forall o t, owns o t = false -> o <> Some t.
Proof. intros [h|] t H E; [inversion E; subst; simpl in H; now rewrite Nat.eqb_refl in H|discriminate]. Qed.

Lemma edge_target : forall p a p', edge p a p' = true -> p' <> LockUnpub /\ p' <> NotStarted.
Proof. intros p a p' H. split; intros ->; destruct p; try discriminate H; destruct s; discriminate H. Qed.

(* A lock changes hands exactly when the stepping thread's position says so: [lock_next] is the holder afterwards, given
   whether t held the lock before (b) and holds it now (b'). *)
Definition lock_next (t : tid) (o : option tid) (b b' : bool) : option tid :=
  if b then (if b' then o else None) else (if b' then Some t else o).

Definition lock_moves (t : tid) (w : world) (b c : bool) (x' : thd) (w' : world) : Prop :=
  heap w' = lock_next t (heap w) b (holds_heap x') /\
  tmx w' = lock_next t (tmx w) c (holds_tmx x') /\
  (holds_heap x' = true -> b = false -> heap w = None).

(* The one sweep over the cases of [wstep] about the locks; each case evaluates [lock_next] at two known positions.  The
   invariant is needed where a thread at Rel does not own the guard. *)
Lemma locks_rec : forall t w w', Inv w -> wstep cfg_fixed t w = Some w' ->
  lock_moves t w (holds_heap (th w t)) (holds_tmx (th w t)) (th w' t) w'.
Proof.
  intros t w w' HI H. unfold holds_heap, holds_tmx.
  step_cases_fixed H.
  all: unfold goto; apply (self_at (lock_moves t w _ _)); [unfold set_paused; rewrite ?nthreads_set_th; assumption|].
  all: unfold lock_moves, holds_heap, holds_tmx;
       cbn [heap tmx set_th set_heap set_tmx set_gen set_sh set_paused pc with_pc pop]; rewrite ?head_with_pc.
  all: try (repeat split; try reflexivity; intros; first [assumption | discriminate]).
  all: rewrite ?th_set_sh, ?th_set_heap, ?(th_set_th_field _ head) by reflexivity;
       repeat match goal with E : head (th _ _) = _ |- _ => rewrite E; clear E end; cbn [heap_act].
  all: try (repeat split; try reflexivity; intros; first [assumption | discriminate]).
  - destruct (heap_act (head (th w t))); repeat split; congruence.
  - apply owns_false in Heqb0. elim Heqb0. apply (I_heap w HI t). unfold holds_heap. now rewrite Heqt0.
Qed.

Lemma locks_step : forall t w w', Inv w -> wstep cfg_fixed t w = Some w' ->
  (forall u, u <> t -> (heap w' = Some u <-> heap w = Some u) /\ (tmx w' = Some u -> tmx w = Some u)) /\
  (holds_heap (th w' t) = true <-> heap w' = Some t) /\
  (tmx w' = Some t -> holds_tmx (th w' t) = true).
Proof.
  intros t w w' HI H. destruct (locks_rec t w w' HI H) as (Eh & Et & Hn). rewrite Eh, Et.
  pose proof (I_heap w HI t) as Hh. pose proof (I_tmx w HI t) as Ht.
  split; [intros u Hu; split | split].
  1, 3: destruct (holds_heap (th w t)), (holds_heap (th w' t)); cbn [lock_next];
        try rewrite (proj1 Hh eq_refl); try rewrite (Hn eq_refl eq_refl); split; congruence || tauto.
  all: destruct (holds_tmx (th w t)), (holds_tmx (th w' t)); cbn [lock_next]; auto; congruence.
Qed.

Lemma flag_ok_mono : forall s u h r, flag_ok s u h r -> flag_ok s u h true.
Proof. intros s u h r H. destruct s; simpl in *; intuition. Qed.

Lemma stw_or_not : forall p, (exists s, p = Stw s) \/ (forall s, p <> Stw s).
Proof. intros []; eauto; right; discriminate. Qed.

(* a section holds the heap guard, so there is one stopper at a time *)
Lemma stw_holds_heap : forall w s x, Inv w -> pc (th w s) = Stw x -> heap w = Some s.
Proof.
  intros w s x HI H. apply (I_heap w HI s). unfold holds_heap. now rewrite H.
Qed.

Lemma single_stopper_inv : forall w s1 s2 x1 x2, Inv w ->
  pc (th w s1) = Stw x1 -> pc (th w s2) = Stw x2 -> s1 = s2.
Proof.
  intros w s1 s2 x1 x2 HI H1 H2.
  pose proof (stw_holds_heap _ _ _ HI H1). pose proof (stw_holds_heap _ _ _ HI H2). congruence.
Qed.

Lemma not_holder : forall w t h, Inv w -> heap w = Some h -> t <> h -> holds_heap (th w t) = false.
Proof.
  intros w t h HI Hh Hne. destruct (holds_heap (th w t)) eqn:E; auto. apply (I_heap w HI t) in E. congruence.
Qed.

(* t does not hold the guard; every write to another thread's record, and to one's own flag or registration, is made
   under it *)
Lemma guarded_frame : forall t w w' u h, Inv w -> heap w = Some h -> t <> h -> wstep cfg_fixed t w = Some w' ->
  u <> t -> th w' u = th w u.
Proof.
  intros t w w' u h HI Hh Hth H Hne. pose proof (not_holder w t h HI Hh Hth) as Hnh. unfold holds_heap in Hnh.
  destruct (step_other _ _ _ _ u H Hne) as (f & T & ->).
  destruct T as [ | E _ | E _ | p E _ | [E|[_ E]] _ _ | E _ _ | _ _ E _ ]; try reflexivity; try discriminate E.
  all: rewrite E in Hnh; discriminate Hnh.
Qed.

Lemma guarded_keeps : forall t w w' h, Inv w -> heap w = Some h -> t <> h -> wstep cfg_fixed t w = Some w' ->
  paused (th w' t) = paused (th w t) /\ reg (th w' t) = reg (th w t).
Proof.
  intros t w w' h HI Hh Hth H. pose proof (not_holder w t h HI Hh Hth) as Hnh. unfold holds_heap in Hnh.
  destruct (own_nonstw t w w' H) as (A & [B|[B _]] & _); auto; try (rewrite B in Hnh; discriminate).
  intros s E. rewrite E in Hnh. discriminate.
Qed.

(* While h is inside a section it holds the heap guard, under which alone a thread is started, registered or a section
   entered: a step of another thread t moves t along its script and changes nothing else. *)
Lemma mutator_step : forall t w w' h s, Inv w -> pc (th w h) = Stw s -> t <> h -> wstep cfg_fixed t w = Some w' ->
  (forall u, u <> t -> th w' u = th w u) /\
  paused (th w' t) = paused (th w t) /\ reg (th w' t) = reg (th w t) /\ seen (th w' t) = seen (th w t) /\
  env_gen w' = env_gen w /\ heap w' = heap w /\ live (th w t) = true /\ (forall x, pc (th w' t) <> Stw x).
Proof.
  intros t w w' h s HI Hs Hne H. pose proof (stw_holds_heap _ _ _ HI Hs) as Hh.
  assert (Hnot : forall x, pc (th w t) <> Stw x) by (intros x E; exact (Hne (single_stopper_inv _ _ _ _ _ HI E Hs))).
  destruct (own_nonstw t w w' H Hnot) as (_ & _ & Hseen & _ & Hd & Hn & Hos).
  destruct (guarded_keeps t w w' h HI Hh Hne H) as [Hp Hr].
  split; [intros u Hu; exact (guarded_frame t w w' u h HI Hh Hne H Hu)|].
  repeat split; auto.
  - apply (own_step t w w' H). destruct (pc (th w t)); auto. now elim (Hnot s0).
  - rewrite Hh. now apply (proj1 (locks_step t w w' HI H) h (not_eq_sym Hne)).
  - unfold live. now rewrite Hd, Hn.
  - intros x E. destruct (Hos x E) as [_ E']. pose proof (not_holder w t h HI Hh Hne) as Hnh.
    unfold holds_heap in Hnh. rewrite E' in Hnh. discriminate.
Qed.

Lemma stw_entered : forall t w w' h s, wstep cfg_fixed t w = Some w' -> (forall x, pc (th w t) <> Stw x) ->
  pc (th w' h) = Stw s -> h <> t /\ pc (th w h) = Stw s \/ h = t /\ s = SOwnFlag.
Proof.
  intros t w w' h s H Hnot Hpc. destruct (Nat.eq_dec h t) as [->|Hne].
  - right. split; auto. now apply (own_nonstw t w w' H Hnot).
  - left. split; auto. exact (stw_pc_other _ _ _ _ _ _ H Hne Hpc).
Qed.

(* a set flag points at the section in progress.  Outside a section no flag changes and the stopper does not move;
   the stopper's own steps are followed one by one *)
Lemma pres_paused : forall t w w', Inv w -> wstep cfg_fixed t w = Some w' ->
  forall u, paused (th w' u) = true -> stopper_ok w' u.
Proof.
  intros t w w' HI H u Hp.
  destruct (stw_or_not (pc (th w t))) as [[s0 Ept]|Hnot].
  - assert (Hh : heap w = Some t) by (apply (I_heap w HI t); unfold holds_heap; now rewrite Ept).
    assert (Hold : forall v, paused (th w v) = true -> flag_ok s0 v t (reg (th w v))).
    { intros v Hv. pose proof (I_paused w HI v Hv) as Hs. unfold stopper_ok in Hs. now rewrite Hh, Ept in Hs. }
    destruct (stw_step_spec _ _ _ _ _ Ept H) as (Hn & Hth & _ & Hh' & _).
    destruct (Hth u) as (Hpu & _ & Hru & _). specialize (Hold u).
    unfold stopper_ok. rewrite Hh', Hh, Hn, Hru. rewrite Hpu in Hp.
    destruct s0; cbn [stw_next stw_paused flag_ok] in *;
      repeat match goal with |- context [if ?b then _ else _] => destruct b eqn:? end; cbn [flag_ok].
    all: try (apply Hold; exact Hp).
    + apply orb_true_iff in Hp. destruct Hp as [Hp|Hp]; [right; now apply Nat.eqb_eq | auto].
    + apply orb_true_iff in Hp. destruct Hp as [Hp|Hp]; [|auto].
      apply andb_true_iff in Hp. destruct Hp as [Hk Hr]. apply Nat.eqb_eq in Hk. subst. auto.
    + apply orb_true_iff in Hp. destruct Hp as [Hp|Hp]; [|auto].
      apply andb_true_iff in Hp. destruct Hp as [Hk Hr]. apply Nat.eqb_eq in Hk. subst. auto.
    + apply andb_true_iff in Hp. destruct Hp as [Hk Hp]. apply negb_true_iff, Nat.eqb_neq in Hk.
      destruct (Hold Hp); [assumption|contradiction].
    + split; [auto|lia].
    + apply andb_true_iff in Hp. destruct Hp as [Hk Hp]. destruct (Hold Hp) as [Hr Hle]. split; [exact Hr|].
      destruct (Nat.eq_dec u k) as [->|]; [|lia]. rewrite Nat.eqb_refl, Hr in Hk. discriminate.
    + apply andb_true_iff in Hp. destruct Hp as [_ Hp]. destruct (Hold Hp) as [_ Hle].
      apply (flag_in_range paused _ _ eq_refl) in Hp. apply Nat.ltb_ge in Heqb. lia.
  - assert (Hpw : paused (th w u) = true).
    { destruct (Nat.eq_dec u t) as [->|Hne]; [now rewrite <- (proj1 (own_nonstw t w w' H Hnot))|].
      destruct (step_other _ _ _ _ u H Hne) as (f & T & E). rewrite E in Hp.
      destruct T; cbn in Hp; auto; exfalso; eapply Hnot; eauto. }
    pose proof (I_paused w HI u Hpw) as Hs. unfold stopper_ok in *.
    destruct (heap w) as [h|] eqn:Hh; [|contradiction]. destruct (pc (th w h)) eqn:Eh; try contradiction.
    assert (Hne : t <> h) by (intros ->; eapply Hnot; eauto).
    destruct (mutator_step t w w' h s HI Eh Hne H) as (Hfr & _ & Hr & _ & _ & -> & _).
    rewrite Hh, (Hfr h (not_eq_sym Hne)), Eh.
    replace (reg (th w' u)) with (reg (th w u)); [exact Hs|]. destruct (Nat.eq_dec u t) as [->|Hu]; [auto | now rewrite Hfr].
Qed.

(* each clause of [Inv] after a step: [locks_step] and [edge_target] for the stepping thread; another thread keeps its
   program counter unless it is being started, and neither lock can pass to it *)
Lemma Inv_step : forall t w w', Inv w -> wstep cfg_fixed t w = Some w' -> Inv w'.
Proof.
  intros t w w' HI H. constructor; intro u.
  - (* I_heap *)
    destruct (Nat.eq_dec u t) as [->|Hne]; [apply (locks_step t w w' HI H)|].
    destruct (step_other _ _ _ _ u H Hne) as (f & T & ->).
    destruct (touch_frame _ _ _ _ _ T) as (Ep & Epc & _).
    assert (E : holds_heap (f (th w u)) = holds_heap (th w u)).
    { unfold holds_heap, head. rewrite Ep. destruct Epc as [->|[-> ->]]; reflexivity. }
    rewrite E, (I_heap w HI u).
    symmetry. apply (proj1 (locks_step t w w' HI H) u Hne).
  - (* I_tmx *)
    intro Hu. destruct (Nat.eq_dec u t) as [->|Hne]; [now apply (locks_step t w w' HI H)|].
    pose proof (I_tmx w HI u (proj2 (proj1 (locks_step t w w' HI H) u Hne) Hu)) as Hold.
    destruct (step_other _ _ _ _ u H Hne) as (f & T & ->).
    destruct (touch_frame _ _ _ _ _ T) as (_ & [Epc|[Epc _]] & _); unfold holds_tmx in *; rewrite Epc in *; auto.
    discriminate.
  - exact (pres_paused t w w' HI H u).
  - (* I_nolock *)
    destruct (Nat.eq_dec u t) as [->|Hne]; [apply (edge_target _ _ _ (proj1 (own_step t w w' H)))|].
    destruct (step_other _ _ _ _ u H Hne) as (f & T & ->).
    destruct (touch_frame _ _ _ _ _ T) as (_ & [->|[_ ->]] & _); [apply (I_nolock w HI)|discriminate].
  - (* I_reg *)
    destruct (Nat.eq_dec u t) as [->|Hne]; [intros _; apply (edge_target _ _ _ (proj1 (own_step t w w' H)))|].
    pose proof (I_reg w HI u) as Hold.
    destruct (step_other _ _ _ _ u H Hne) as (f & [] & ->);
      cbn [pc reg with_paused with_seen with_reg with_pc]; auto; try discriminate.
    intros _ E. rewrite E in *. discriminate.
Qed.

Lemma stopper_unique_step : forall cfg t w w' s0 h s, Inv w -> pc (th w t) = Stw s0 ->
  wstep cfg t w = Some w' -> pc (th w' h) = Stw s -> h = t.
Proof.
  intros cfg t w w' s0 h s HI Ept H Hpc. destruct (Nat.eq_dec h t) as [|Hne]; auto.
  exact (single_stopper_inv w h t s s0 HI (stw_pc_other _ _ _ _ _ _ H Hne Hpc) Ept).
Qed.

(* every thread record of an initial world (and the default record past the table) *)
Definition init_thd (x : thd) : Prop :=
  (pc x = Run /\ reg x = true \/ pc x = NotStarted /\ reg x = false \/ pc x = Done /\ reg x = false) /\
  paused x = false /\ seen x = 0.

Lemma init_thd_mk : forall b p, init_thd (mk_thd b p).
Proof. intros [] p; unfold init_thd, mk_thd; simpl; auto. Qed.

Lemma init_thd_nth : forall l u, Forall init_thd l -> init_thd (nth u l dflt).
Proof.
  intros l u Hl. revert u. induction Hl; destruct u; simpl; auto; unfold init_thd, dflt; simpl; auto.
Qed.

Lemma init_thd_map : forall b l, Forall init_thd (map (mk_thd b) l).
Proof. intros b l. apply Forall_forall. intros x Hx. apply in_map_iff in Hx. destruct Hx as [q [<- _]]. apply init_thd_mk. Qed.

Lemma init_threads : forall progs t, init_thd (th (init progs) t).
Proof.
  intros [|p r] t; apply init_thd_nth; simpl; constructor; [apply init_thd_mk | apply init_thd_map].
Qed.

Lemma init_all_threads : forall progs t, init_thd (th (init_all progs) t).
Proof. intros progs t. apply init_thd_nth. apply init_thd_map. Qed.

Lemma init_thd_pc : forall x, init_thd x -> pc x = Run \/ pc x = NotStarted \/ pc x = Done.
Proof. intros x ([[E _]|[[E _]|[E _]]] & _); auto. Qed.

Lemma Inv_of_init_thds : forall w, (forall u, init_thd (th w u)) -> heap w = None -> tmx w = None -> Inv w.
Proof.
  intros w Hall Hh Ht. constructor.
  - intro u. unfold holds_heap. rewrite Hh. destruct (init_thd_pc _ (Hall u)) as [E|[E|E]]; rewrite E; split; discriminate.
  - intros u E. congruence.
  - intros u E. destruct (Hall u) as (_ & Hp & _). congruence.
  - intros u. destruct (init_thd_pc _ (Hall u)) as [E|[E|E]]; rewrite E; discriminate.
  - intros u E. destruct (Hall u) as ([[E' _]|[[_ E']|[_ E']]] & _); congruence.
Qed.

Lemma Inv_init : forall progs, Inv (init progs).
Proof. intros progs. apply Inv_of_init_thds; try reflexivity. apply init_threads. Qed.

Lemma Inv_init_all : forall progs, Inv (init_all progs).
Proof. intros progs. apply Inv_of_init_thds; try reflexivity. apply init_all_threads. Qed.

Lemma Inv_run : forall sched w, Inv w -> Inv (run cfg_fixed sched w).
Proof. intros. unfold run. apply invariant_run; auto. intros. eapply Inv_step; eauto. Qed.
