(* A small generic interleaving library: a system is a partial step function per thread id; a schedule is a list
   of thread ids (a thread that is named while it has no enabled step is skipped); invariants are lifted to every
   schedule; fair infinite schedules + a variant lemma give termination. *)
From Coq Require Import List Arith Lia.
Import ListNotations.

Section Conc.
  Variable state : Type.
  Variable step : nat -> state -> option state.

  Definition exec1 (t : nat) (s : state) : state :=
    match step t s with Some s' => s' | None => s end.

  Fixpoint run (sched : list nat) (s : state) : state :=
    match sched with [] => s | t :: r => run r (exec1 t s) end.

  Definition reachable (init s : state) : Prop := exists sched, run sched init = s.

  Lemma run_app : forall a b s, run (a ++ b) s = run b (run a s).
  Proof. induction a; simpl; auto. Qed.

  Lemma reachable_refl : forall s, reachable s s.
  Proof. intro s; exists []; reflexivity. Qed.

  Lemma reachable_step : forall i s t s', reachable i s -> step t s = Some s' -> reachable i s'.
  Proof.
    intros i s t s' [sc H] Hs. exists (sc ++ [t]). rewrite run_app, H. simpl. unfold exec1. now rewrite Hs.
  Qed.

  Lemma invariant_run : forall (Inv : state -> Prop),
      (forall t s s', Inv s -> step t s = Some s' -> Inv s') ->
      forall sched s, Inv s -> Inv (run sched s).
  Proof.
    intros Inv Hp. induction sched as [|t r IH]; simpl; intros s Hs; auto.
    apply IH. unfold exec1. destruct (step t s) eqn:E; eauto.
  Qed.

  Lemma invariant_reachable : forall (Inv : state -> Prop) init,
      Inv init -> (forall t s s', Inv s -> step t s = Some s' -> Inv s') ->
      forall s, reachable init s -> Inv s.
  Proof. intros Inv init Hi Hp s [sc <-]. now apply invariant_run. Qed.

  Fixpoint effective (sched : list nat) (s : state) : nat :=
    match sched with
    | [] => 0
    | t :: r => (match step t s with Some _ => 1 | None => 0 end) + effective r (exec1 t s)
    end.

  Definition stream := nat -> nat.

  Fixpoint run_stream (f : stream) (n : nat) (s : state) : state :=
    match n with 0 => s | S k => exec1 (f k) (run_stream f k s) end.

  Definition shift (k : nat) (f : stream) : stream := fun i => f (k + i).

  (* a scheduled thread with no enabled step is skipped, so this is weak fairness of the system *)
  Definition fair (n : nat) (f : stream) : Prop := forall t k, t < n -> exists m, k <= m /\ f m = t.

  Lemma fair_shift : forall n k f, fair n f -> fair n (shift k f).
  Proof.
    intros n k f Hf t j Ht. destruct (Hf t (k + j) Ht) as [m [Hm E]].
    exists (m - k). split; [lia|]. unfold shift. replace (k + (m - k)) with m by lia. exact E.
  Qed.

  Lemma run_stream_shift : forall f a b s,
      run_stream f (a + b) s = run_stream (shift a f) b (run_stream f a s).
  Proof.
    intros f a b s. induction b as [|b IH].
    - now rewrite Nat.add_0_r.
    - replace (a + S b) with (S (a + b)) by lia. simpl. rewrite IH. reflexivity.
  Qed.

  Lemma run_stream_1 : forall f s, run_stream f 1 s = exec1 (f 0) s.
  Proof. reflexivity. Qed.

  Lemma invariant_stream : forall (Inv : state -> Prop),
      (forall t s s', Inv s -> step t s = Some s' -> Inv s') ->
      forall f n s, Inv s -> Inv (run_stream f n s).
  Proof.
    intros Inv Hp f. induction n; simpl; intros s Hs; auto.
    unfold exec1. destruct (step (f n) (run_stream f n s)) eqn:E; eauto.
  Qed.

  (* [helpful t s]: t is enabled, each of its steps decreases [M] or ends [Active], and it stays helpful while
     others' steps leave [M] unchanged *)
  Section Variant.
    Variable Inv Active : state -> Prop.
    Variable M : state -> nat.
    Variable n : nat.
    Variable helpful : nat -> state -> Prop.

    Hypothesis active_dec : forall s, Active s \/ ~ Active s.
    Hypothesis inv_step : forall t s s', Inv s -> step t s = Some s' -> Inv s'.
    Hypothesis non_increase : forall t s s', Inv s -> Active s -> step t s = Some s' -> Active s' -> M s' <= M s.
    Hypothesis some_helpful : forall s, Inv s -> Active s -> exists t, t < n /\ helpful t s.
    Hypothesis helpful_step : forall t s, Inv s -> Active s -> helpful t s ->
        exists s', step t s = Some s' /\ (Active s' -> M s' < M s).
    Hypothesis helpful_stable : forall t u s s', Inv s -> Active s -> helpful t s ->
        step u s = Some s' -> Active s' -> M s' = M s -> helpful t s'.

    Lemma until_scheduled : forall t m f s, Inv s -> Active s -> helpful t s -> f m = t ->
        exists k, k <= S m /\ (~ Active (run_stream f k s) \/ M (run_stream f k s) < M s).
    Proof.
      intros t m. induction m as [|m IH]; intros f s Hi Ha Hh Hf.
      - exists 1. split; [lia|]. simpl. unfold exec1. rewrite Hf.
        destruct (helpful_step t s Hi Ha Hh) as [s' [E Hd]]. rewrite E.
        destruct (active_dec s') as [A|A]; [right; auto|left; auto].
      - destruct (step (f 0) s) as [s1|] eqn:E1.
        + destruct (active_dec s1) as [A1|A1].
          * pose proof (non_increase _ _ _ Hi Ha E1 A1) as Hle.
            destruct (Nat.eq_dec (M s1) (M s)) as [Heq|Hne].
            -- assert (Hh1 : helpful t s1) by (eapply helpful_stable; eauto).
               assert (Hi1 : Inv s1) by eauto.
               destruct (IH (shift 1 f) s1 Hi1 A1 Hh1) as [k [Hk Hres]].
               { unfold shift. exact Hf. }
               exists (1 + k). split; [lia|].
               assert (R : run_stream f 1 s = s1) by (rewrite run_stream_1; unfold exec1; now rewrite E1).
               rewrite run_stream_shift, R. rewrite <- Heq. exact Hres.
            -- exists 1. split; [lia|]. simpl. unfold exec1. rewrite E1. right. lia.
          * exists 1. split; [lia|]. simpl. unfold exec1. rewrite E1. left. exact A1.
        + destruct (IH (shift 1 f) s Hi Ha Hh) as [k [Hk Hres]].
          { unfold shift. exact Hf. }
          exists (1 + k). split; [lia|].
          assert (R : run_stream f 1 s = s) by (rewrite run_stream_1; unfold exec1; now rewrite E1).
          rewrite run_stream_shift, R. exact Hres.
    Qed.

    Theorem variant_terminates : forall b f s, M s <= b -> fair n f -> Inv s ->
        exists k, ~ Active (run_stream f k s).
    Proof.
      induction b as [|b IH]; intros f s Hb Hf Hi.
      - destruct (active_dec s) as [Ha|Ha]; [|exists 0; exact Ha].
        destruct (some_helpful s Hi Ha) as [t [Ht Hh]].
        destruct (Hf t 0 Ht) as [m [_ Hm]].
        destruct (until_scheduled t m f s Hi Ha Hh Hm) as [k [_ [Hk|Hk]]]; [exists k; exact Hk|lia].
      - destruct (active_dec s) as [Ha|Ha]; [|exists 0; exact Ha].
        destruct (some_helpful s Hi Ha) as [t [Ht Hh]].
        destruct (Hf t 0 Ht) as [m [_ Hm]].
        destruct (until_scheduled t m f s Hi Ha Hh Hm) as [k [_ [Hk|Hk]]]; [exists k; exact Hk|].
        destruct (IH (shift k f) (run_stream f k s)) as [k1 Hk1].
        + lia.
        + now apply fair_shift.
        + now apply invariant_stream.
        + exists (k + k1). rewrite run_stream_shift. exact Hk1.
    Qed.
  End Variant.
End Conc.
