(* C15 — the property theorems (Pins_C15.v, compiled on every run, checks each statement again). *)
From Coq Require Import List Arith Lia Bool.
Import ListNotations.
From SV Require Import c15.Proofs_C15_Base c15.Proofs_C15_Inv.
From SV Require Import c15.Conc c15.Model_C15 c15.Proofs_C15 c15.Proofs_C15_Excl c15.Proofs_C15_Spawn c15.Proofs_C15_Visible c15.Proofs_C15_Visible2.

(* Serialisation (repaired lock discipline): for every number of threads, every script and every schedule,
   at most one thread is inside a stop-the-world section, and it owns the heap mutex. *)
Theorem C15_single_stopper : forall progs sched s1 s2 x1 x2,
  let w := run cfg_fixed sched (init progs) in
  pc (th w s1) = Stw x1 -> pc (th w s2) = Stw x2 -> s1 = s2 /\ heap w = Some s1.
Proof.
  intros progs sched s1 s2 x1 x2 w H1 H2.
  assert (HI : Inv w) by (apply Inv_run; apply Inv_init).
  split; [eapply single_stopper_inv; eauto | eapply stw_holds_heap; eauto].
Qed.

(* Pause flags are set only while a section is in progress: once it ended every flag is clear ... *)
Theorem C15_flags_cleared : forall progs sched t,
  let w := run cfg_fixed sched (init progs) in
  (forall s x, pc (th w s) <> Stw x) -> paused (th w t) = false.
Proof.
  intros progs sched t w Hn.
  assert (HI : Inv w) by (apply Inv_run; apply Inv_init).
  destruct (paused (th w t)) eqn:E; auto.
  destruct (paused_only_during_stw_inv w t HI E) as (s & x & Hs & _). exfalso. eapply Hn; eauto.
Qed.

(* ... and every thread parked at a safepoint can resume. *)
Theorem C15_parked_released : forall progs sched t,
  let w := run cfg_fixed sched (init progs) in
  (forall s x, pc (th w s) <> Stw x) ->
  pc (th w t) = PollParked \/ pc (th w t) = SpParked ->
  exists w', wstep cfg_fixed t w = Some w'.
Proof.
  intros progs sched t w Hn Hp.
  pose proof (C15_flags_cleared progs sched t Hn) as Hf. fold w in Hf.
  assert (Hlt : t < nthreads w).
  { destruct (lt_dec t (nthreads w)); auto. rewrite th_out_of_range in Hp by lia. simpl in Hp. destruct Hp; discriminate. }
  apply Nat.ltb_lt in Hlt. unfold wstep. rewrite Hlt. cbv zeta.
  destruct Hp as [E|E]; rewrite E, Hf; eexists; reflexivity.
Qed.

(* Exclusive access is REFUTED for the code's publish / retract order (F10): the stopper reads thread 1's
   state while thread 1, having read paused = false, goes on to retract its pointer and finish its instruction. *)
Theorem C15_stw_refuted : ~ Excl15 (run cfg_fixed f10_sched (init_all f10_progs)).
Proof.
  intro H. specialize (H 0 1 1). vm_compute in H. specialize (H eq_refl). discriminate. Qed.

Theorem C15_stw_refuted_thread_runs :
  let w := run cfg_fixed f10_sched (init_all f10_progs) in
  pc (th w 0) = Stw (SAccess 1 1) /\
  exists w', wstep cfg_fixed 1 w = Some w' /\ pc (th w' 0) = Stw (SAccess 1 1) /\ pc (th w' 1) = Run /\
             prog (th w' 1) = [ACompute].
Proof.
  cbv zeta. split. { vm_compute. reflexivity. }
  eexists. split. { vm_compute. reflexivity. }
  vm_compute. auto.
Qed.

(* Under cfg_pre_spawn_fix (spawn_locked = false, the tree before 56291059) visibility of a completed global update
   fails for a thread between its start and its registration: it executes an instruction with the old table after
   the update completed.  This is the failing history a reverted repair would bring back. *)
Theorem C15_global_visible_refuted_spawn_window :
  let w := run cfg_pre_spawn_fix spawn_sched (init spawn_progs) in
  (forall s x, pc (th w s) <> Stw x) /\ pc (th w 2) = Done /\ env_gen w = 1 /\ pc (th w 1) = Exec /\ seen (th w 1) = 0.
Proof.
  cbv zeta. split. { intros [|[|[|s]]] x; vm_compute; try (destruct s); intro E; inversion E. }
  vm_compute. auto.
Qed.

Theorem C15_unregistered_runner_before_fix :
  let w := run cfg_pre_spawn_fix spawn_overlap_sched (init spawn_progs) in
  exists s, pc (th w 2) = Stw s /\ live (th w 1) = true /\ reg (th w 1) = false.
Proof. vm_compute. eauto. Qed.

(* With thread creation under the heap guard (spawn_locked = true, the current tree): for every number of threads,
   every script (spawns included) and EVERY schedule, while any stop-the-world section is in progress every thread
   that has been started and has not finished is registered - the section's passes reach it. *)
Theorem C15_no_unregistered_runner_during_section : forall progs sched h s t,
  let w := run cfg_fixed sched (init progs) in
  pc (th w h) = Stw s -> live (th w t) = true -> reg (th w t) = true.
Proof.
  intros progs sched h s t w. apply no_unregistered_runner_inv.
  - apply Inv_run. apply Inv_init.
  - apply Unreg_run. apply Unreg_init.
Qed.

(* Exclusive access OUTSIDE the known windows.  known_window w (decidable): some thread is between its paused-load
   (which returned false) and ctx.store(None) while its flag has since been set, or some thread is running but not yet
   registered while a stop-the-world section is in progress.  For every number of threads, every script (spawns
   included) and every schedule none of whose worlds (from the initial one to the last) is in a known window: while
   a stopper reads / replaces thread k's state, k is parked or inside a primitive with its pause flag set. *)
Theorem C15_mutual_exclusion_outside_known : forall progs sched,
  window_free cfg_fixed sched (init progs) = true -> Excl15 (run cfg_fixed sched (init progs)).
Proof. intros. now apply mutual_exclusion_outside_exit_window_lemma, window_free_exit_free. Qed.

(* ... and from the end of the stopper's first pass until it resumes them, ALL registered unfinished threads are
   parked or inside a primitive: in particular, between the global update itself (SThunk) and the moment a thread
   has been handed the new table in the second pass, that thread executes no instruction. *)
Theorem C15_all_stopped_after_first_pass : forall progs sched h s t,
  window_free cfg_fixed sched (init progs) = true ->
  let w := run cfg_fixed sched (init progs) in
  pc (th w h) = Stw s -> covered s t = true -> t <> h -> reg (th w t) = true -> is_done (pc (th w t)) = false ->
  safe_to_access (th w t) = true.
Proof.
  intros progs sched h s t Hwf w Hpc Hc Hth Hr Hd.
  destruct (Big_run sched _ (Big_init progs) (window_free_exit_free _ _ Hwf)) as (_ & _ & _ & HS & _). eapply HS; eauto.
Qed.

Example C15_window_free_nonvacuous :
  window_free cfg_fixed wf_sched (init wf_progs) = true /\
  pc (th (run cfg_fixed (firstn 27 wf_sched) (init wf_progs)) 0) = Stw (SAccess 1 1) /\
  pc (th (run cfg_fixed (firstn 33 wf_sched) (init wf_progs)) 0) = Stw (SAccess 2 1) /\
  window_free cfg_fixed (firstn 33 wf_sched) (init wf_progs) = true /\
  env_gen (run cfg_fixed wf_sched (init wf_progs)) = 1.
Proof. vm_compute. auto. Qed.

(* Hence only the exit window is left: exclusive access along every run none of whose worlds has a thread between its
   paused-load (which returned false) and ctx.store(None) with its flag since set (exit_window, decidable) ... *)
Theorem C15_mutual_exclusion_outside_exit_window : forall progs sched,
  exit_window_free cfg_fixed sched (init progs) = true -> Excl15 (run cfg_fixed sched (init progs)).
Proof. exact mutual_exclusion_outside_exit_window_lemma. Qed.

(* ... and every started, unfinished thread the stopper's first pass has passed is parked or inside a primitive until
   the stopper resumes it ([live] in place of registered and unfinished). *)
Theorem C15_all_stopped_outside_exit_window : forall progs sched h s t,
  exit_window_free cfg_fixed sched (init progs) = true ->
  let w := run cfg_fixed sched (init progs) in
  pc (th w h) = Stw s -> covered s t = true -> t <> h -> live (th w t) = true ->
  safe_to_access (th w t) = true.
Proof. exact all_stopped_outside_exit_window_lemma. Qed.

Example C15_exit_window_free_nonvacuous :
  exit_window_free cfg_fixed wf_sched (init wf_progs) = true /\
  (let w := run cfg_fixed (firstn 6 wf_sched) (init wf_progs) in
   pc (th w 0) = SpReg /\ pc (th w 1) = Run /\ reg (th w 1) = false /\ heap w = Some 0) /\
  (let w := run cfg_fixed (firstn 10 wf_sched) (init wf_progs) in reg (th w 1) = true /\ heap w = None) /\
  pc (th (run cfg_fixed (firstn 27 wf_sched) (init wf_progs)) 0) = Stw (SAccess 1 1).
Proof. vm_compute. auto 10. Qed.

(* Visibility of completed global updates.  seen x = generation of the global table thread x holds, env_gen w = number
   of completed updates.  For every number of threads, every script and EVERY schedule: while the second pass of an
   update is at position k (upd_pos), the stopper and the started, unfinished threads from k on hold the previous
   table and those below k the new one; at all other times every started, unfinished thread holds the current table
   (a new thread copies its spawner's table under the heap guard). *)
Theorem C15_table_generations : forall progs sched,
  let w := run cfg_fixed sched (init progs) in
  (forall h s k, pc (th w h) = Stw s -> upd_pos s = Some k -> vis_at w h k) /\
  ((forall h s, pc (th w h) = Stw s -> upd_pos s = None) ->
   forall t, live (th w t) = true -> seen (th w t) = env_gen w).
Proof.
  intros progs sched w. assert (HV : Vis w) by (apply VI_vis, VInv_run, VInv_init).
  split; [exact (V_upd w HV) | exact (V_idle w HV)].
Qed.

(* Hence, along every run that avoids the exit window, a thread that executes an instruction holds the current
   global table: a completed definition / assignment is seen by every instruction executed afterwards. *)
Theorem C15_global_visible : forall progs sched t,
  exit_window_free cfg_fixed sched (init progs) = true ->
  let w := run cfg_fixed sched (init progs) in
  pc (th w t) = Exec -> seen (th w t) = env_gen w.
Proof.
  intros progs sched t Hwf w Hpc.
  assert (Hl : live (th w t) = true) by (unfold live; rewrite Hpc; reflexivity).
  apply (proj2 (C15_table_generations progs sched)); [|exact Hl].
  (* no second pass is under way: during one, t would be parked or inside a primitive *)
  intros h s Hh. fold w in Hh. destruct (upd_pos s) as [k|] eqn:Hk; [exfalso|reflexivity].
  assert (Hth : t <> h) by congruence.
  pose proof (C15_all_stopped_outside_exit_window progs sched h s t Hwf Hh (covered_second_pass s k t Hk) Hth Hl) as Hs.
  unfold safe_to_access in Hs. fold w in Hs. rewrite Hpc in Hs. discriminate.
Qed.

Example C15_global_visible_nonvacuous :
  exit_window_free cfg_fixed vis_sched (init wf_progs) = true /\
  (let w := run cfg_fixed vis_sched (init wf_progs) in
   pc (th w 1) = Exec /\ env_gen w = 1 /\ seen (th w 1) = 1 /\ seen (th w 0) = 1).
Proof. vm_compute. auto 10. Qed.

(* The pause flags during a section, for EVERY schedule (no window hypothesis): once the stopper's stop_threads pass
   has gone past a registered, unfinished thread, that thread's flag stays set until the stopper's resume pass clears
   it (flagged2_ok: below position k during SSetFlag k, everyone from the end of that pass to SResumeLock, from
   position k on during SResume k). *)
Theorem C15_flagged_until_resumed : forall progs sched h s,
  let w := run cfg_fixed sched (init progs) in
  pc (th w h) = Stw s -> flagged2_ok w h s.
Proof. intros progs sched h s w Hpc. exact (flagged_ok_flagged2 w h s (Flagged_run progs sched h s Hpc)). Qed.
