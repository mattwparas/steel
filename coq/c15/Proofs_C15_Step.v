(* The footprint of one step of thread t, each component read off the case analysis of [wstep] once: what it does to
   another thread ([touch]), to the stepping thread itself ([edge], [own_move]) and, inside a stop-the-world
   section, as functions of the stopper's position ([stw_next], [stw_paused], [stw_seen]); what it does to the two locks
   needs the invariant and stands with it ([locks_step], Proofs_C15_Inv).  The invariants of C15 and
   C16 are proved from these views. *)
From Coq Require Import List Arith Lia Bool.
Import ListNotations.
From SV Require Import c15.Conc c15.Model_C15 c15.Proofs_C15_Base.

Lemma th_set_th_other : forall t x w u, u <> t -> th (set_th t x w) u = th w u.
Proof. intros t x w u H. rewrite th_set_th. apply Nat.eqb_neq in H. now rewrite H. Qed.

Lemma th_set_th_field : forall A (F : thd -> A) k y w u,
  F y = F (th w k) -> F (th (set_th k y w) u) = F (th w u).
Proof.
  intros A F k y w u E. rewrite th_set_th.
  destruct (Nat.eqb_spec u k) as [->|]; [destruct (k <? nthreads w)|]; auto.
Qed.

Lemma wstep_lt : forall cfg t w w', wstep cfg t w = Some w' -> t < nthreads w.
Proof.
  intros cfg t w w' H. unfold wstep in H. destruct (t <? nthreads w) eqn:E; [|discriminate].
  now apply Nat.ltb_lt.
Qed.

Lemma owns_true : forall o t, owns o t = true -> o = Some t.
Proof. intros [h|] t H; simpl in H; [apply Nat.eqb_eq in H; now subst|discriminate]. Qed.

(* how a step of t rewrites the record of u <> t, and where t stands when it does *)
Inductive touch (cfg : config) (w : world) (t u : tid) : (thd -> thd) -> Prop :=
| tch_none : touch cfg w t u (fun x => x)
| tch_flag : pc (th w t) = Stw (SSetFlag u) -> reg (th w u) = true -> touch cfg w t u (with_paused true)
| tch_unflag : pc (th w t) = Stw (SResume u) -> reg (th w u) = true -> touch cfg w t u (with_paused false)
| tch_seen : forall p, pc (th w t) = Stw (SAccess p u) -> is_update (head (th w t)) && (p =? 2) = true ->
    touch cfg w t u (with_seen (env_gen w))
| tch_reg : pc (th w t) = SpReg \/ pc (th w t) = SpPub /\ spawn_locked cfg = false ->
    head (th w t) = ASpawn u -> is_notstarted (pc (th w u)) = false -> touch cfg w t u (with_reg true)
| tch_start : pc (th w t) = Held -> head (th w t) = ASpawn u -> is_notstarted (pc (th w u)) = true ->
    touch cfg w t u (fun x => with_seen (seen (th w t)) (with_pc Run x))
| tch_start_unlocked : pc (th w t) = Exec -> head (th w t) = ASpawn u -> spawn_locked cfg = false ->
    is_notstarted (pc (th w u)) = true -> touch cfg w t u (with_pc Run).

(* turns the conditional of [th_set_th] into a [touch] *)
Lemma touch_upd : forall cfg w t u k (g : thd -> thd), (u = k -> touch cfg w t u g) ->
  exists f, touch cfg w t u f /\
            (if (u =? k) && (k <? nthreads w) then g (th w k) else th w u) = f (th w u).
Proof.
  intros cfg w t u k g H. destruct (Nat.eqb_spec u k) as [->|]; [destruct (k <? nthreads w)|].
  - exists g. auto.
  - exists (fun x => x). split; [constructor|reflexivity].
  - exists (fun x => x). split; [constructor|reflexivity].
Qed.

Lemma step_rest : forall cfg t w w', wstep cfg t w = Some w' ->
  nthreads w' = nthreads w /\ forall u, u <> t -> exists f, touch cfg w t u f /\ th w' u = f (th w u).
Proof.
  intros cfg t w w' H. step_cases H.
  all: unfold goto, set_paused; split; [rewrite ?nthreads_set_th; reflexivity | intros u Hne].
  all: rewrite !th_set_th_other by assumption.
  all: try solve [exists (fun x => x); split; [constructor|reflexivity]].
  all: rewrite ?th_set_heap, ?th_set_tmx, ?th_set_gen, ?th_set_sh.
  all: rewrite th_set_th.
  all: first [ apply touch_upd
             | apply (touch_upd _ _ _ _ _ (fun x => with_seen (seen (th w t)) (with_pc Run x))) ].
  all: intros ->; try (now elim Hne); econstructor; eauto.
Qed.

Lemma step_other : forall cfg t w w' u, wstep cfg t w = Some w' -> u <> t ->
  exists f, touch cfg w t u f /\ th w' u = f (th w u).
Proof. intros cfg t w w' u H. apply (step_rest cfg t w w' H). Qed.

Lemma nthreads_step : forall cfg t w w', wstep cfg t w = Some w' -> nthreads w' = nthreads w.
Proof. intros cfg t w w' H. apply (step_rest cfg t w w' H). Qed.

Lemma touch_frame : forall cfg w t u f, touch cfg w t u f ->
  prog (f (th w u)) = prog (th w u) /\
  (pc (f (th w u)) = pc (th w u) \/ pc (th w u) = NotStarted /\ pc (f (th w u)) = Run) /\
  (reg (th w u) = true -> reg (f (th w u)) = true).
Proof.
  intros cfg w t u f [].
  all: cbn [prog pc reg with_paused with_seen with_reg with_pc]; auto.
  all: destruct (pc (th w u)); try discriminate; auto.
Qed.

Lemma done_stable : forall cfg t w w' u, wstep cfg t w = Some w' -> pc (th w u) = Done -> pc (th w' u) = Done.
Proof.
  intros cfg t w w' u H Hd. destruct (Nat.eq_dec u t) as [->|Hne].
  - unfold wstep in H. rewrite Hd in H. destruct (t <? nthreads w); discriminate.
  - destruct (step_other _ _ _ _ u H Hne) as (f & T & ->).
    destruct (touch_frame _ _ _ _ _ T) as (_ & [->|[E _]] & _); congruence.
Qed.

Lemma stw_pc_other : forall cfg t w w' h s, wstep cfg t w = Some w' -> h <> t ->
  pc (th w' h) = Stw s -> pc (th w h) = Stw s.
Proof.
  intros cfg t w w' h s H Hne Hpc. destruct (step_other _ _ _ _ h H Hne) as (f & T & E). rewrite E in Hpc.
  destruct (touch_frame _ _ _ _ _ T) as (_ & [Ep|[_ Ep]] & _); rewrite Ep in Hpc; [exact Hpc|discriminate].
Qed.

Lemma th_set_th_self : forall t x w, (t <? nthreads w) = true -> th (set_th t x w) t = x.
Proof. intros t x w H. now rewrite th_set_th, Nat.eqb_refl, H. Qed.

(* at a case of [wstep]: puts x for the stepping thread's new record in the whole goal at once (rewriting each occurrence
   is slow to check) *)
Lemma self_at : forall (Q : thd -> world -> Prop) t x w, (t <? nthreads w) = true -> Q x (set_th t x w) ->
  Q (th (set_th t x w) t) (set_th t x w).
Proof. intros Q t x w E H. now rewrite th_set_th_self. Qed.

(* [step_cases] for [cfg_fixed]: the configuration's tests are evaluated first, which leaves fewer cases *)
Ltac step_cases_fixed H :=
  unfold wstep in H; cbv zeta in H;
  simpl keep_guard in H; simpl jit_box_safepoint in H; simpl spawn_locked in H; simpl negb in H; rewrite ?andb_false_r in H;
  destr_match H;
  try (unfold sp_closure in H; cbv zeta in H; simpl spawn_locked in H; destr_match H);
  try (unfold stw_step in H; cbv zeta in H; destr_match H);
  try discriminate H;
  injection H as <-;
  try match goal with E : _ = _ :> bool |- _ => discriminate E end.

Definition is_join (a : act) := match a with AJoin _ => true | _ => false end.
Definition is_spawn_act (a : act) := match a with ASpawn _ => true | _ => false end.
Definition is_compute (a : act) := match a with ACompute => true | _ => false end.

Definition sedge (s s' : spc) : bool :=
  match s, s' with
  | SOwnFlag, SStopLock | SStopLock, SSetFlag 0 | SThunk, SWaitLock 2 | SOwnResume, SResumeLock
  | SResumeLock, SResume 0 | SSetFlag _, SWaitLock 1 | SWait _ _, SOwnResume => true
  | SSetFlag k, SSetFlag k' | SResume k, SResume k' => k' =? S k
  | SWaitLock p, SWait p' 0 => p' =? p
  | SWait p k, SWait p' k' | SAccess p k, SWait p' k' => (p' =? p) && (k' =? S k)
  | SWait p k, SAccess p' k' => (p' =? p) && (k' =? k)
  | SWait p _, SThunk => p =? 1
  | _, _ => false
  end.

(* the program counter of the stepping thread moves along an edge of this table, by its current action ([own_step]) *)
Definition edge (p : tpc) (a : act) (p' : tpc) : bool :=
  match p, p' with
  | Run, Done | Run, PollSeenPaused | Run, Exec | PollSeenPaused, PollParked | PollParked, PollExitChecked
  | PollExitChecked, Exec | SpParked, SpExitChecked | Rel, Run | SpPub, SpParked | LockUnpub, Held
  | Stw (SResume _), Rel => true
  | Exec, Run => is_compute a
  | Exec, SpPub => negb (is_compute a)
  | SpPub, SpJoin | SpJoin, SpParked => is_join a
  | SpJoin, Run => negb (is_join a)
  | SpReg, SpParked => is_spawn_act a
  | SpReg, Rel => negb (is_spawn_act a)
  | SpExitChecked, Held => lock_act a || is_spawn_act a
  | SpExitChecked, Rel => is_spawn_act a
  | SpExitChecked, Run => negb (lock_act a) && negb (is_spawn_act a)
  | Held, SpReg => is_spawn_act a
  | Held, Stw SOwnFlag => stw_act a
  | Held, Rel => negb (stw_act a) && negb (is_spawn_act a)
  | Stw s, Stw s' => sedge s s'
  | _, _ => false
  end.

Lemma wstep_stw : forall cfg t w w' s, pc (th w t) = Stw s -> wstep cfg t w = Some w' ->
  (t <? nthreads w) = true /\ stw_step t s w = Some w'.
Proof.
  intros cfg t w w' s E H. unfold wstep in H. destruct (t <? nthreads w); [|discriminate].
  cbv zeta in H. rewrite E in H. auto.
Qed.

(* one goal per branch of [stw_step], with the branch conditions as hypotheses *)
Ltac stw_cases H Ept :=
  apply (wstep_stw _ _ _ _ _ Ept) in H; destruct H as [?Hlt H];
  unfold stw_step in H; cbv zeta in H; destr_match H; injection H as <-.

(* One step of the stopper, by its position: its next program counter and, for every thread, the pause flag and the
   table generation afterwards.  (A position past the thread table touches nobody: reg dflt = false.) *)
Definition stw_next (t : tid) (s : spc) (w : world) : tpc :=
  match s with
  | SOwnFlag => Stw SStopLock
  | SStopLock => Stw (SSetFlag 0)
  | SSetFlag k => if k <? nthreads w then Stw (SSetFlag (S k)) else Stw (SWaitLock 1)
  | SWaitLock p => Stw (SWait p 0)
  | SWait p k =>
      if k <? nthreads w then
        if negb (reg (th w k)) || Nat.eqb k t || is_done (pc (th w k)) then Stw (SWait p (S k)) else Stw (SAccess p k)
      else if is_update (head (th w t)) && (p =? 1) then Stw SThunk else Stw SOwnResume
  | SAccess p k => Stw (SWait p (S k))
  | SThunk => Stw (SWaitLock 2)
  | SOwnResume => Stw SResumeLock
  | SResumeLock => Stw (SResume 0)
  | SResume k => if k <? nthreads w then Stw (SResume (S k)) else Rel
  end.

Definition stw_paused (t : tid) (s : spc) (w : world) (u : tid) : bool :=
  match s with
  | SOwnFlag => (u =? t) || paused (th w u)
  | SOwnResume => negb (u =? t) && paused (th w u)
  | SSetFlag k => (u =? k) && reg (th w k) || paused (th w u)
  | SResume k => negb ((u =? k) && reg (th w k)) && paused (th w u)
  | _ => paused (th w u)
  end.

Definition stw_seen (t : tid) (s : spc) (w : world) (u : tid) : nat :=
  match s with
  | SWait p k =>
      if (u =? t) && negb (k <? nthreads w) && is_update (head (th w t)) && negb (p =? 1)
      then env_gen w else seen (th w u)
  | SAccess p k =>
      if (u =? k) && (k <? nthreads w) && is_update (head (th w t)) && (p =? 2) then env_gen w else seen (th w u)
  | _ => seen (th w u)
  end.

Lemma stw_step_spec : forall cfg t w w' s, pc (th w t) = Stw s -> wstep cfg t w = Some w' ->
  pc (th w' t) = stw_next t s w /\
  (forall u, paused (th w' u) = stw_paused t s w u /\ seen (th w' u) = stw_seen t s w u /\
             reg (th w' u) = reg (th w u) /\ prog (th w' u) = prog (th w u)) /\
  (forall u, u <> t -> pc (th w' u) = pc (th w u)) /\
  heap w' = heap w /\
  (forall p k, s = SWait p k -> stw_next t s w = Stw (SAccess p k) -> published (pc (th w k)) = true) /\
  env_gen w' = match s with SThunk => S (env_gen w) | _ => env_gen w end.
Proof.
  intros cfg t w w' s Ept H. stw_cases H Ept.
  all: split; [unfold goto; rewrite th_set_th_self by (unfold set_paused; rewrite ?nthreads_set_th; assumption);
              cbn [pc with_pc stw_next]; rewrite ?Heqb, ?Heqb0, ?Heqb1; reflexivity|].
  all: split; [|split; [intros u Hu; unfold goto; rewrite th_set_th_other by assumption
                       |split; [reflexivity|split; [|reflexivity]]]].
  (* the guard of the step into SAccess, and the other threads' program counters *)
  all: try (intros p' k' E; try discriminate E; injection E as <- <-; cbn [stw_next]; rewrite ?Heqb, ?Heqb0;
            intros E2; first [discriminate E2 | assumption | rewrite ?Heqb1 in E2; discriminate E2]).
  all: try (unfold set_paused; rewrite ?th_set_tmx, ?th_set_gen, ?(th_set_th_field _ pc) by reflexivity; reflexivity).
  (* registration and script are fields no stopper step writes; flag and generation are written at one index *)
  all: intro u; unfold goto, set_paused.
  all: rewrite ?(th_set_th_field _ reg), ?(th_set_th_field _ prog) by reflexivity.
  all: split; [|split; [|split; reflexivity]].
  all: rewrite ?(th_set_th_field _ paused), ?(th_set_th_field _ seen) by reflexivity; rewrite ?th_set_tmx, ?th_set_gen.
  all: cbn [stw_paused stw_seen]; rewrite ?Heqb, ?Heqb0, ?Heqb1, ?andb_false_r, ?andb_true_r; cbn [negb andb orb];
       try reflexivity.
  all: rewrite ?th_set_th;
       repeat match goal with |- context [(?a =? ?b)] => destruct (Nat.eqb_spec a b) as [->|] end;
       rewrite ?Hlt, ?Heqb, ?Heqb0, ?Heqb1; cbn [andb orb negb paused seen with_paused with_seen]; try reflexivity.
  all: try (rewrite (th_out_of_range w k) by (apply Nat.ltb_ge; assumption); reflexivity).
  all: rewrite ?nthreads_set_tmx, ?Hlt; try reflexivity.
  all: destruct (k <? nthreads w); destruct (is_update (head (th w t))); cbn in *; try reflexivity; try discriminate.
  all: rewrite Nat.eqb_refl in *; try discriminate.
Qed.

(* what a step outside a section does to the stepping thread's own record beside moving its program counter: the script
   advances, or (at SpReg, a thread spawning itself) it is registered *)
Inductive own_move (x : thd) : thd -> Prop :=
| om_pc p : own_move x (with_pc p x)
| om_pop : own_move x (pop x)
| om_reg p : pc x = SpReg -> own_move x (with_pc p (with_reg true x)).

(* [own_rec] is the one sweep of [wstep] for the stepping thread: each case evaluates [edge] and names the shape of the
   new record ([own_move]); [own_step] derives its five parts from the shapes (case by case they check three times
   slower); inside a section [stw_step_spec] says the rest *)
Definition own_ok (w : world) (p : tpc) (a : act) (x x' : thd) (w' : world) : Prop :=
  edge p a (pc x') = true /\ (is_stw_pc p = false -> own_move x x' /\ env_gen w' = env_gen w).

Lemma own_rec : forall t w w', wstep cfg_fixed t w = Some w' ->
  own_ok w (pc (th w t)) (head (th w t)) (th w t) (th w' t) w'.
Proof.
  intros t w w' H. step_cases_fixed H.
  all: unfold goto; apply (self_at (own_ok w _ _ _)); [unfold set_paused; rewrite ?nthreads_set_th; assumption|].
  all: split; [cbn; rewrite ?Nat.eqb_refl; try reflexivity
              | intros E; try discriminate E; (split; [try solve [constructor] | reflexivity])].
  all: try assumption; try (cbn [stw_act] in Heqb0; subst collect; reflexivity).
  - rewrite th_set_th. destruct (Nat.eqb_spec t j) as [<-|]; [destruct (t <? nthreads w)|]; constructor; assumption.
  - (* a thread is started by another one *)
    rewrite th_set_th_other by (intros ->; rewrite Heqt0 in Heqb0; discriminate Heqb0). constructor.
Qed.

(* a thread whose flag is set does not leave a parked position, nor pass the poll *)
Lemma paused_enabled : forall cfg t w w', wstep cfg t w = Some w' -> paused (th w t) = true ->
  pc (th w t) <> PollParked /\ pc (th w t) <> SpParked /\ (pc (th w t) = Run -> pc (th w' t) <> Exec).
Proof.
  intros cfg t w w' H Hp. unfold wstep in H. destruct (t <? nthreads w) eqn:Hlt; [|discriminate]. cbv zeta in H.
  rewrite Hp in H. repeat split; intro E; rewrite E in H; try discriminate H.
  destruct (prog (th w t)); injection H as <-; unfold goto; rewrite th_set_th_self by assumption; discriminate.
Qed.

Lemma own_step : forall t w w', wstep cfg_fixed t w = Some w' ->
  edge (pc (th w t)) (head (th w t)) (pc (th w' t)) = true /\
  (prog (th w' t) = prog (th w t) \/ pc (th w' t) = Run /\ prog (th w' t) = tl (prog (th w t))) /\
  (is_stw_pc (pc (th w t)) = false ->
   paused (th w' t) = paused (th w t) /\ seen (th w' t) = seen (th w t) /\ env_gen w' = env_gen w) /\
  (reg (th w' t) = reg (th w t) \/ pc (th w t) = SpReg /\ reg (th w' t) = true) /\
  (paused (th w t) = true ->
   pc (th w t) <> PollParked /\ pc (th w t) <> SpParked /\ (pc (th w t) = Run -> pc (th w' t) <> Exec)).
Proof.
  intros t w w' H. destruct (own_rec t w w' H) as (He & Hns). pose proof (paused_enabled _ t w w' H) as Hen.
  split; [exact He|]. destruct (is_stw_pc (pc (th w t))) eqn:Es.
  - destruct (pc (th w t)) eqn:Ept; try discriminate Es.
    destruct (stw_step_spec _ _ _ _ _ Ept H) as (_ & Hth & _). destruct (Hth t) as (_ & _ & Hr & Hp).
    split; [auto|]. split; [discriminate|]. auto.
  - destruct (Hns eq_refl) as [Hm Hg]. split; [destruct Hm; auto|]. split; [intros _; destruct Hm; auto|].
    split; [destruct Hm; auto | exact Hen].
Qed.

Lemma own_nonstw : forall u w w', wstep cfg_fixed u w = Some w' -> (forall s, pc (th w u) <> Stw s) ->
  paused (th w' u) = paused (th w u) /\
  (reg (th w' u) = reg (th w u) \/ pc (th w u) = SpReg /\ reg (th w' u) = true) /\
  seen (th w' u) = seen (th w u) /\ (prog (th w' u) = prog (th w u) \/ prog (th w' u) = tl (prog (th w u))) /\
  is_done (pc (th w u)) = false /\ is_notstarted (pc (th w u)) = false /\
  (forall s, pc (th w' u) = Stw s -> s = SOwnFlag /\ pc (th w u) = Held).
Proof.
  intros u w w' H Hnot. destruct (own_step u w w' H) as (He & Hprog & Hps & Hreg & _).
  assert (Hn : is_stw_pc (pc (th w u)) = false).
  { destruct (pc (th w u)); auto. exfalso. eapply Hnot; eauto. }
  destruct (Hps Hn) as (Hp & Hs & _). split; [exact Hp|]. split; [exact Hreg|]. split; [exact Hs|]. split; [tauto|].
  split; [|split]; [destruct (pc (th w u)); auto; discriminate ..|].
  intros s0 E. rewrite E in He. destruct (pc (th w u)); try discriminate. destruct s0; try discriminate. auto.
Qed.

Lemma stw_into_access : forall cfg t w w' s p k, pc (th w t) = Stw s -> wstep cfg t w = Some w' ->
  pc (th w' t) = Stw (SAccess p k) ->
  s = SWait p k /\ k <> t /\ reg (th w k) = true /\ is_done (pc (th w k)) = false /\ published (pc (th w k)) = true.
Proof.
  intros cfg t w w' s p k Ept H Hpc. destruct (stw_step_spec _ _ _ _ _ Ept H) as (Hn & _ & _ & _ & Hpub & _).
  rewrite Hn in Hpc.
  destruct s; cbn [stw_next] in *;
    repeat match type of Hpc with context [if ?b then _ else _] => destruct b eqn:? end; try discriminate Hpc.
  injection Hpc as <- <-. split; [reflexivity|].
  match goal with E : _ || _ || _ = false |- _ => apply orb_false_iff in E; destruct E as [E Hd];
    apply orb_false_iff in E; destruct E as [Hr Hk] end.
  apply negb_false_iff in Hr. apply Nat.eqb_neq in Hk. repeat split; auto. exact (Hpub _ _ eq_refl eq_refl).
Qed.
