(* C15: thread creation under the heap guard (spawn_locked, repair 56291059).  A running unregistered thread exists
   only while its spawner holds the guard between starting and registering it (pc = SpReg); stop-the-world sections
   hold the same guard, so the second window of Model_C15.known_window is unreachable.  What is left of it,
   [exit_window], is defined here and related to [window_free]. *)
From Coq Require Import List Arith Lia Bool.
Import ListNotations.
From SV Require Import c15.Conc c15.Model_C15 c15.Proofs_C15_Base c15.Proofs_C15_Step c15.Proofs_C15_Inv c15.Proofs_C15.

Definition Unreg (w : world) : Prop :=
  forall j, live (th w j) = true -> reg (th w j) = false ->
            exists s, pc (th w s) = SpReg /\ head (th w s) = ASpawn j.

Lemma reg_kept : forall t w w' u, wstep cfg_fixed t w = Some w' -> reg (th w u) = true -> reg (th w' u) = true.
Proof.
  intros t w w' u H Hr. destruct (Nat.eq_dec u t) as [->|Hne].
  - destruct (own_step t w w' H) as (_ & _ & _ & [->|[_ ->]] & _); auto.
  - destruct (step_other _ _ _ _ u H Hne) as (f & T & ->). now apply (touch_frame _ _ _ _ _ T).
Qed.

Lemma start_step : forall t w w' j, wstep cfg_fixed t w = Some w' ->
  is_notstarted (pc (th w j)) = true -> is_notstarted (pc (th w' j)) = false ->
  pc (th w' t) = SpReg /\ head (th w' t) = ASpawn j.
Proof.
  intros t w w' j H Hn Hn'.
  assert (Hne : j <> t).
  { intros ->. destruct (own_step t w w' H) as (He & _). destruct (pc (th w t)); discriminate. }
  destruct (step_other _ _ _ _ j H Hne) as (f & T & E). rewrite E in Hn'.
  destruct T as [ | | | | _ _ Hx | Hpc Hh _ | _ _ Hx _ ]; cbn in Hn'; try congruence; try discriminate.
  destruct (own_step t w w' H) as (He & Hp & _). rewrite Hpc, Hh in He.
  assert (E' : pc (th w' t) = SpReg) by (destruct (pc (th w' t)); try discriminate; auto; destruct s; discriminate).
  split; [exact E'|]. destruct Hp as [Hp|[Hr _]]; [unfold head in *; now rewrite Hp | congruence].
Qed.

Lemma other_frame : forall t w w' s, wstep cfg_fixed t w = Some w' -> s <> t ->
  is_notstarted (pc (th w s)) = false -> pc (th w' s) = pc (th w s) /\ head (th w' s) = head (th w s).
Proof.
  intros t w w' s H Hne Hn. destruct (step_other _ _ _ _ s H Hne) as (f & T & ->).
  destruct (touch_frame _ _ _ _ _ T) as (Ep & [Epc|[E _]] & _).
  - unfold head. now rewrite Ep.
  - rewrite E in Hn. discriminate.
Qed.

Lemma reg_step : forall s w w' j, wstep cfg_fixed s w = Some w' -> pc (th w s) = SpReg -> head (th w s) = ASpawn j ->
  is_notstarted (pc (th w j)) = false -> j < nthreads w -> reg (th w' j) = true.
Proof.
  intros s w w' j H Hpc Hh Hn Hlt. apply Nat.ltb_lt in Hlt.
  unfold wstep in H. destruct (s <? nthreads w); [|discriminate]. cbv zeta in H. rewrite Hpc, Hh, Hn in H.
  destruct (tmx w); [discriminate|]. injection H as <-.
  unfold goto. rewrite (th_set_th_field _ reg) by reflexivity. now rewrite th_set_th_self.
Qed.

Lemma live_cases : forall x, live x = true -> is_done (pc x) = false /\ is_notstarted (pc x) = false.
Proof. intros x H. unfold live in H. apply andb_true_iff in H. destruct H as [A B]. apply negb_true_iff in A, B. auto. Qed.

Lemma Unreg_step : forall t w w', Unreg w -> wstep cfg_fixed t w = Some w' -> Unreg w'.
Proof.
  intros t w w' HU H j Hl Hr.
  destruct (live_cases _ Hl) as [Hd' Hn'].
  assert (Hrw : reg (th w j) = false).
  { destruct (reg (th w j)) eqn:E; auto. rewrite (reg_kept t w w' j H E) in Hr. discriminate. }
  assert (Hdw : is_done (pc (th w j)) = false).
  { destruct (pc (th w j)) eqn:E; auto. rewrite (done_stable _ _ _ _ j H E) in Hd'. discriminate. }
  destruct (is_notstarted (pc (th w j))) eqn:Hnw.
  - (* j was started by this step *)
    exists t. eapply start_step; eauto.
  - (* j was already running unregistered: its spawner is still at SpReg unless this is the spawner's step *)
    assert (Hlw : live (th w j) = true) by (unfold live; rewrite Hdw, Hnw; reflexivity).
    destruct (HU j Hlw Hrw) as (s & Hs & Hh).
    destruct (Nat.eq_dec s t) as [->|Hne].
    + exfalso. pose proof (reg_step t w w' j H Hs Hh Hnw (flag_in_range live w j eq_refl Hlw)) as E. congruence.
    + exists s. destruct (other_frame t w w' s H Hne) as [A B]; [rewrite Hs; reflexivity|]. split; congruence.
Qed.

Lemma live_init_registered : forall progs t, live (th (init progs) t) = true -> reg (th (init progs) t) = true.
Proof.
  intros progs t Hl. destruct (init_threads progs t) as ([[_ E]|[[E _]|[E _]]] & _); auto;
    unfold live in Hl; rewrite E in Hl; discriminate.
Qed.

Lemma Unreg_init : forall progs, Unreg (init progs).
Proof. intros progs j Hl Hr. rewrite (live_init_registered progs j Hl) in Hr. discriminate. Qed.

Lemma Unreg_run : forall sched w, Unreg w -> Unreg (run cfg_fixed sched w).
Proof. intros. unfold run. apply invariant_run; auto. intros. eapply Unreg_step; eauto. Qed.

Lemma no_unregistered_runner_inv : forall w h s t, Inv w -> Unreg w ->
  pc (th w h) = Stw s -> live (th w t) = true -> reg (th w t) = true.
Proof.
  intros w h s t HI HU Hs Hl.
  destruct (reg (th w t)) eqn:Er; auto. exfalso.
  destruct (HU t Hl Er) as (sp & Hp & _).
  assert (heap w = Some sp) by (apply (I_heap w HI sp); unfold holds_heap; now rewrite Hp).
  assert (heap w = Some h) by (eapply stw_holds_heap; eauto).
  assert (sp = h) by congruence. subst. rewrite Hs in Hp. discriminate.
Qed.

Definition in_exit_window (x : thd) : bool := is_exit_checked (pc x) && paused x.
Definition exit_window (w : world) : bool := existsb in_exit_window (ths w).
Fixpoint exit_window_free (cfg : config) (sched : list tid) (w : world) : bool :=
  negb (exit_window w) &&
  match sched with [] => true | t :: r => exit_window_free cfg r (Conc.exec1 world (wstep cfg) t w) end.

Lemma th_in : forall w t, t < nthreads w -> In (th w t) (ths w).
Proof. intros. unfold th. apply nth_In. exact H. Qed.

Lemma known_free_exit_free : forall w, known_window w = false -> exit_window w = false.
Proof.
  intros w Hk. unfold exit_window. destruct (existsb in_exit_window (ths w)) eqn:E; auto.
  apply existsb_exists in E. destruct E as (x & Hin & Hx). rewrite <- Hk. symmetry.
  apply existsb_exists. exists x. split; auto. unfold in_known_window. unfold in_exit_window in Hx. now rewrite Hx.
Qed.

Lemma window_free_exit_free : forall sched w,
  window_free cfg_fixed sched w = true -> exit_window_free cfg_fixed sched w = true.
Proof.
  induction sched as [|t r IH]; intros w H; simpl in *; apply andb_true_iff in H; destruct H as [A B];
    apply negb_true_iff in A; rewrite (known_free_exit_free w A); simpl; auto.
Qed.

Lemma ew_exit : forall w t, exit_window w = false -> is_exit_checked (pc (th w t)) = true -> paused (th w t) = false.
Proof.
  intros w t Hk He. destruct (lt_dec t (nthreads w)) as [L|L]; [|rewrite th_out_of_range by lia; reflexivity].
  destruct (paused (th w t)) eqn:Ep; auto. rewrite <- Hk. symmetry.
  apply existsb_exists. exists (th w t). split; [apply th_in; auto|]. unfold in_exit_window. now rewrite He, Ep.
Qed.

Lemma stw_any_witness : forall w, stw_any w = true -> exists h s, pc (th w h) = Stw s.
Proof.
  intros w H. unfold stw_any in H. apply existsb_exists in H. destruct H as (x & Hin & Hx).
  destruct (In_nth _ _ dflt Hin) as (h & Hlt & E). exists h.
  unfold th. rewrite E. destruct (pc x); try discriminate. eauto.
Qed.

(* the window the repair closed: with spawn_locked = false a section overlaps a running unregistered thread *)
Definition spawn_overlap_sched : list tid := [0;0;0;0;0; 0;0] ++ repeat 2 12.
