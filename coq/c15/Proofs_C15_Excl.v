(* C15: exclusive access outside the exit window (Proofs_C15_Spawn.exit_window; the other known window is
   unreachable, [Unreg]): every thread the stopper's first pass has passed is parked or inside a primitive
   ([Stopped]), hence so is the thread the stopper reads ([AccPre], [Excl15]). *)
From Coq Require Import List Arith Lia Bool.
Import ListNotations.
From SV Require Import c15.Conc c15.Model_C15 c15.Proofs_C15_Base c15.Proofs_C15_Step c15.Proofs_C15_Inv c15.Proofs_C15
  c15.Proofs_C15_Spawn.

(* the converse flag invariant: once the stopper has passed a thread in stop_threads, that thread's pause flag stays
   set until the stopper's resume_threads clears it *)
Definition flagged_ok (w : world) (h : tid) (s : spc) : Prop :=
  match s with
  | SOwnFlag | SStopLock => True
  | SSetFlag k => forall t, t < k -> t <> h -> reg (th w t) = true -> paused (th w t) = true
  | SResume k => forall t, k <= t -> t <> h -> reg (th w t) = true -> paused (th w t) = true
  | _ => forall t, t <> h -> reg (th w t) = true -> paused (th w t) = true
  end.
Definition Flagged (w : world) : Prop := forall h s, pc (th w h) = Stw s -> flagged_ok w h s.

Definition flagged2_ok (w : world) (h : tid) (s : spc) : Prop :=
  match s with
  | SOwnFlag | SStopLock => True
  | SSetFlag k => forall t, t < k -> t <> h -> reg (th w t) = true -> is_done (pc (th w t)) = false -> paused (th w t) = true
  | SResume k => forall t, k <= t -> t <> h -> reg (th w t) = true -> is_done (pc (th w t)) = false -> paused (th w t) = true
  | _ => forall t, t <> h -> reg (th w t) = true -> is_done (pc (th w t)) = false -> paused (th w t) = true
  end.
Lemma flagged_ok_flagged2 : forall w h s, flagged_ok w h s -> flagged2_ok w h s.
Proof. intros w h s HF. destruct s; simpl in *; auto. Qed.

Lemma Flagged_step : forall t w w', Inv w -> Flagged w -> wstep cfg_fixed t w = Some w' -> Flagged w'.
Proof.
  intros t w w' HI HF H h s Hpc.
  destruct (stw_or_not (pc (th w t))) as [[s0 Ept]|Hnot].
  - assert (h = t) by exact (stopper_unique_step _ _ _ _ _ _ _ HI Ept H Hpc).
    subst h. pose proof (HF t s0 Ept) as Hold.
    destruct (stw_step_spec _ _ _ _ _ Ept H) as (Hn & Hth & _). rewrite Hn in Hpc.
    assert (Hp : forall u, paused (th w' u) = stw_paused t s0 w u) by (intro u; apply Hth).
    assert (Hr : forall u, reg (th w' u) = reg (th w u)) by (intro u; apply Hth).
    destruct s0; cbn [stw_next] in Hpc;
      repeat match type of Hpc with context [if ?b then _ else _] => destruct b eqn:? end;
      try discriminate Hpc; injection Hpc as <-; cbn [flagged_ok] in *; auto.
    all: intros u; rewrite Hp, Hr; cbn [stw_paused]; intros.
    all: repeat match goal with E : (_ <? _) = false |- _ => apply Nat.ltb_ge in E end.
    all: try match goal with E : reg (th _ ?v) = true |- _ => pose proof (flag_in_range reg _ _ eq_refl E) end.
    all: repeat match goal with |- context [?a =? ?b] => destruct (Nat.eqb_spec a b) as [->|] end.
    all: cbn [andb orb negb]; rewrite ?orb_true_r; try congruence; try (apply Hold; auto; lia); try lia.
    all: match goal with E : reg _ = true |- _ => now rewrite E end.
  - destruct (stw_entered t w w' h s H Hnot Hpc) as [[Hne Hpcw]|[_ ->]]; [|exact I].
    destruct (mutator_step t w w' h s HI Hpcw (not_eq_sym Hne) H) as (Hfr & Hp & Hr & _).
    assert (Hsame : forall u, paused (th w' u) = paused (th w u) /\ reg (th w' u) = reg (th w u)).
    { intro u. destruct (Nat.eq_dec u t) as [->|Hu]; [auto | now rewrite Hfr]. }
    specialize (HF h s Hpcw). destruct s; simpl in *; auto; intros u; destruct (Hsame u) as [-> ->]; auto.
Qed.

(* SpJoin is entered from AJoin only, SpReg from ASpawn only *)
Definition JoinHead (w : world) : Prop := forall u,
  match pc (th w u) with
  | SpJoin => exists j, head (th w u) = AJoin j
  | SpReg => exists j, head (th w u) = ASpawn j
  | _ => True
  end.

Lemma JoinHead_step : forall t w w', JoinHead w -> wstep cfg_fixed t w = Some w' -> JoinHead w'.
Proof.
  intros t w w' HJ H u. destruct (Nat.eq_dec u t) as [->|Hne].
  - destruct (own_step t w w' H) as (He & [Hp|[Hr _]] & _); [|rewrite Hr; exact I].
    unfold head. rewrite Hp. fold (head (th w t)).
    destruct (pc (th w' t)); auto; destruct (pc (th w t)); try discriminate He;
      destruct (head (th w t)); try discriminate He; eauto; destruct s; discriminate He.
  - destruct (step_other _ _ _ _ u H Hne) as (f & T & ->). specialize (HJ u).
    destruct (touch_frame _ _ _ _ _ T) as (Ep & [Epc|[_ Epc]] & _); rewrite Epc; [|exact I].
    unfold head in *. now rewrite Ep.
Qed.

Lemma safe_own_step : forall u w w', JoinHead w -> safe_to_access (th w u) = true ->
  wstep cfg_fixed u w = Some w' -> safe_to_access (th w' u) = true.
Proof.
  intros u w w' HJ Hs H. specialize (HJ u). unfold safe_to_access in *.
  destruct (own_step u w w' H) as (He & _ & Hps & _ & Hen).
  assert (Hp : paused (th w u) = true) by (destruct (pc (th w u)); auto; discriminate).
  destruct (Hen Hp) as (H1 & H2 & _).
  destruct (pc (th w u)); try discriminate; try congruence; destruct (Hps eq_refl) as [-> _].
  all: destruct (pc (th w' u)); try discriminate He; auto.
  all: destruct HJ as [j Ej]; rewrite Ej in He; discriminate.
Qed.

Definition Stopped (w : world) : Prop := forall h s t, pc (th w h) = Stw s -> covered s t = true ->
  t <> h -> reg (th w t) = true -> is_done (pc (th w t)) = false -> safe_to_access (th w t) = true.
Definition AccPre (w : world) : Prop := forall h p k, pc (th w h) = Stw (SAccess p k) ->
  k <> h /\ reg (th w k) = true /\ is_done (pc (th w k)) = false.

Lemma safe_not_done : forall x, safe_to_access x = true -> is_done (pc x) = false /\ is_notstarted (pc x) = false /\ paused x = true.
Proof. intros x. unfold safe_to_access. destruct (pc x); try discriminate; auto. Qed.

Lemma safe_frame : forall x y, pc y = pc x -> paused y = paused x -> safe_to_access y = safe_to_access x.
Proof. intros x y E1 E2. unfold safe_to_access. now rewrite E1, E2. Qed.

Lemma covered_access : forall p k, covered (SAccess p k) k = true.
Proof. intros p k. simpl. destruct (p =? 1); auto. apply Nat.leb_refl. Qed.

Lemma Stopped_step_other : forall u w w', Inv w -> JoinHead w -> Stopped w -> AccPre w ->
  wstep cfg_fixed u w = Some w' -> (forall x, pc (th w u) <> Stw x) -> Stopped w' /\ AccPre w'.
Proof.
  intros u w w' HI HJ HS HA H Hnot.
  (* a section past its first position was in progress before the step: only u has moved, and stays stopped if it was *)
  assert (Hsec : forall h s, pc (th w' h) = Stw s -> s <> SOwnFlag ->
            pc (th w h) = Stw s /\
            forall t, reg (th w' t) = reg (th w t) /\ (is_done (pc (th w' t)) = false -> is_done (pc (th w t)) = false) /\
                      (safe_to_access (th w t) = true -> safe_to_access (th w' t) = true)).
  { intros h s Hpc Hs. destruct (stw_entered u w w' h s H Hnot Hpc) as [[Hne Hpcw]|[_ ->]]; [|now elim Hs].
    split; [exact Hpcw|]. intro t.
    destruct (mutator_step u w w' h s HI Hpcw (not_eq_sym Hne) H) as (Hfr & _ & Hr & _ & _ & _ & Hl & _).
    destruct (Nat.eq_dec t u) as [->|Htu]; [|rewrite (Hfr t Htu); auto].
    split; [exact Hr|]. split; [intros _; apply (live_cases _ Hl) | intro; eapply safe_own_step; eauto]. }
  split.
  - intros h s t Hpc Hc Hth Hr Hd.
    destruct (Hsec h s Hpc ltac:(intros ->; discriminate Hc)) as (Hpcw & Hall). destruct (Hall t) as (Er & Ed & Es).
    apply Es, (HS h s t Hpcw Hc Hth); [now rewrite <- Er | now apply Ed].
  - intros h p k Hpc. destruct (Hsec h _ Hpc ltac:(discriminate)) as (Hpcw & Hall). destruct (Hall k) as (Er & _ & Es).
    destruct (HA h p k Hpcw) as (Hkh & Hrk & Hdk). split; [exact Hkh|]. rewrite Er. split; [exact Hrk|].
    apply safe_not_done, Es, (HS h _ k Hpcw); auto using covered_access.
Qed.

Lemma published_flagged_safe : forall w k, exit_window w = false -> published (pc (th w k)) = true ->
  paused (th w k) = true -> safe_to_access (th w k) = true.
Proof.
  intros w k Hkw Hp Hf. pose proof (ew_exit w k Hkw) as He. unfold safe_to_access.
  destruct (pc (th w k)); simpl in *; try discriminate; auto.
  all: specialize (He eq_refl); congruence.
Qed.

Lemma covered_step : forall t w w' s0 s u, pc (th w t) = Stw s0 -> wstep cfg_fixed t w = Some w' ->
  pc (th w' t) = Stw s -> covered s u = true ->
  (covered s0 u = true /\ (forall k, s0 = SResume k -> u <> k)) \/
  nthreads w <= u \/
  (exists k, s0 = SWait 1 k /\ u = k /\
     ((negb (reg (th w k)) || Nat.eqb k t || is_done (pc (th w k))) = true \/ published (pc (th w k)) = true)).
Proof.
  intros t w w' s0 s u Ept H Hpc Hc.
  destruct (stw_step_spec _ _ _ _ _ Ept H) as (Hn & _ & _ & _ & Hpub & _). rewrite Hn in Hpc.
  destruct s0; cbn [stw_next] in Hpc;
    repeat match type of Hpc with context [if ?b then _ else _] => destruct b eqn:? end;
    try discriminate Hpc; injection Hpc as <-; cbn [covered] in *; try discriminate Hc.
  all: try solve [left; split; [assumption || reflexivity | intros ? [=]]].
  1-4: destruct (Nat.eqb_spec p 1) as [->|]; [|left; split; [reflexivity | intros ? [=]]].
  - (* first pass, k skipped *)
    apply Nat.ltb_lt in Hc. destruct (Nat.eq_dec u k) as [->|]; [right; right; exists k; auto|].
    left. split; [apply Nat.ltb_lt; lia | intros ? [=]].
  - (* first pass, k found published *)
    apply Nat.leb_le in Hc. destruct (Nat.eq_dec u k) as [->|].
    + right; right. exists k. split; [|split]; auto. right. apply (Hpub 1 k eq_refl).
      cbn [stw_next]. now rewrite Heqb, Heqb0.
    + left. split; [apply Nat.ltb_lt; lia | intros ? [=]].
  - (* end of the first pass: every thread in the table has been passed *)
    apply Nat.ltb_ge in Heqb. destruct (lt_dec u k); [left; split; [now apply Nat.ltb_lt | intros ? [=]] | right; left; lia].
  - apply Nat.ltb_ge in Heqb. destruct (lt_dec u k); [left; split; [now apply Nat.ltb_lt | intros ? [=]] | right; left; lia].
  - apply Nat.leb_le in Hc. left. split; [apply Nat.leb_le; lia | intros k0 [= <-]; lia].
Qed.

Lemma Stopped_step_stw : forall t w w' s0, Inv w -> Flagged w -> Stopped w -> exit_window w = false ->
  pc (th w t) = Stw s0 -> wstep cfg_fixed t w = Some w' -> Stopped w' /\ AccPre w'.
Proof.
  intros t w w' s0 HI HF HS Hkw Ept H.
  destruct (stw_step_spec _ _ _ _ _ Ept H) as (Hn & Hth & Hpc' & _).
  assert (Huniq : forall h s, pc (th w' h) = Stw s -> h = t)
    by (intros h s; exact (stopper_unique_step _ _ _ _ _ _ _ HI Ept H)).
  (* a stopped thread that the resume pass has not reached stays stopped *)
  assert (Hkeep : forall u, u <> t -> safe_to_access (th w u) = true -> (forall k, s0 = SResume k -> u <> k) ->
                  safe_to_access (th w' u) = true).
  { intros u Hut Hs Hnr. destruct (safe_not_done _ Hs) as (_ & _ & Hp).
    unfold safe_to_access in *. rewrite (Hpc' u Hut), (proj1 (Hth u)).
    rewrite Hp in Hs. replace (stw_paused t s0 w u) with true; [exact Hs|].
    destruct s0; cbn [stw_paused]; rewrite Hp, ?orb_true_r, ?andb_true_r; auto.
    - apply Nat.eqb_neq in Hut. now rewrite Hut.
    - destruct (Nat.eqb_spec u k) as [->|]; [now elim (Hnr k)|reflexivity]. }
  split.
  - intros h s u Hpc Hc Hut Hr Hd. pose proof (Huniq h s Hpc). subst h.
    rewrite (Hpc' u Hut) in Hd. rewrite (proj1 (proj2 (proj2 (Hth u)))) in Hr.
    destruct (covered_step t w w' s0 s u Ept H Hpc Hc) as [[Hc0 Hnr] | [Hge | (k & -> & -> & Hk)]].
    + apply Hkeep; auto. exact (HS t s0 u Ept Hc0 Hut Hr Hd).
    + exfalso. rewrite th_out_of_range in Hr by lia. discriminate.
    + (* the first pass has just passed k: skipped threads are not registered unfinished ones; a published one is
         flagged, hence parked or inside a primitive *)
      destruct Hk as [Hskip | Hpub].
      * exfalso. rewrite Hr, Hd in Hskip. simpl in Hskip. rewrite orb_false_r in Hskip. apply Nat.eqb_eq in Hskip. congruence.
      * apply Hkeep; [exact Hut| |intros k0 [=]].
        apply (published_flagged_safe w k Hkw Hpub). exact (HF t _ Ept k Hut Hr).
  - intros h p k Hpc. pose proof (Huniq h _ Hpc). subst h.
    destruct (stw_into_access _ _ _ _ _ _ _ Ept H Hpc) as (_ & Hkt & Hrk & Hdk & _).
    split; [exact Hkt|]. now rewrite (Hpc' k Hkt), (proj1 (proj2 (proj2 (Hth k)))).
Qed.

(* the invariants that need one another to survive a step outside the exit window, carried together *)
Definition Big (w : world) : Prop := Inv w /\ Flagged w /\ JoinHead w /\ Stopped w /\ AccPre w.

Lemma Big_step : forall t w w', Big w -> exit_window w = false -> wstep cfg_fixed t w = Some w' -> Big w'.
Proof.
  intros t w w' (HI & HF & HJ & HS & HA) Hkw H.
  assert (HSA : Stopped w' /\ AccPre w').
  { destruct (pc (th w t)) eqn:Ept.
    all: try (eapply Stopped_step_other; eauto; intros x E; rewrite Ept in E; discriminate).
    eapply Stopped_step_stw; eauto. }
  destruct HSA as [HS' HA'].
  split; [eapply Inv_step; eauto|]. split; [eapply Flagged_step; eauto|].
  split; [eapply JoinHead_step; eauto|]. split; assumption.
Qed.

Lemma pc_init_cases : forall progs t, pc (th (init progs) t) = Run \/ pc (th (init progs) t) = NotStarted \/ pc (th (init progs) t) = Done.
Proof. intros progs t. apply init_thd_pc, init_threads. Qed.

Lemma init_no_stw : forall progs t s, pc (th (init progs) t) <> Stw s.
Proof. intros progs t s E. destruct (pc_init_cases progs t) as [A|[A|A]]; rewrite A in E; discriminate. Qed.

Lemma Big_init : forall progs, Big (init progs).
Proof.
  intros progs.
  split; [apply Inv_init|]. split; [intros h s E; now apply init_no_stw in E|].
  split; [intros u; destruct (pc_init_cases progs u) as [A|[A|A]]; rewrite A; exact I|].
  split; [intros h s t E; now apply init_no_stw in E | intros h p k E; now apply init_no_stw in E].
Qed.

Lemma Big_run : forall sched w, Big w -> exit_window_free cfg_fixed sched w = true -> Big (run cfg_fixed sched w).
Proof.
  induction sched as [|t r IH]; intros w HB Hwf; [exact HB|].
  simpl in Hwf. apply andb_true_iff in Hwf. destruct Hwf as [Hk Hr]. apply negb_true_iff in Hk.
  unfold run. simpl. fold (run cfg_fixed r (Conc.exec1 world (wstep cfg_fixed) t w)).
  apply IH; auto. unfold Conc.exec1. destruct (wstep cfg_fixed t w) eqn:E; auto. eapply Big_step; eauto.
Qed.

Lemma excl_of_big : forall w, Big w -> Excl15 w.
Proof.
  intros w (_ & _ & _ & HS & HA) s p k Hpc.
  destruct (HA s p k Hpc) as (Hk & Hr & Hd).
  apply (HS s _ k Hpc); auto using covered_access.
Qed.

Lemma mutual_exclusion_outside_exit_window_lemma : forall progs sched,
  exit_window_free cfg_fixed sched (init progs) = true -> Excl15 (run cfg_fixed sched (init progs)).
Proof. intros. apply excl_of_big. apply Big_run; auto. apply Big_init. Qed.

Lemma all_stopped_outside_exit_window_lemma : forall progs sched h s t,
  exit_window_free cfg_fixed sched (init progs) = true ->
  let w := run cfg_fixed sched (init progs) in
  pc (th w h) = Stw s -> covered s t = true -> t <> h -> live (th w t) = true ->
  safe_to_access (th w t) = true.
Proof.
  intros progs sched h s t Hwf w Hpc Hc Hth Hl.
  destruct (Big_run sched _ (Big_init progs) Hwf) as (HI & _ & _ & HS & _).
  pose proof (Unreg_run sched _ (Unreg_init progs)) as HU.
  apply (HS h s t Hpc Hc Hth); [exact (no_unregistered_runner_inv _ h s t HI HU Hpc Hl) | apply (live_cases _ Hl)].
Qed.

(* the converse flag invariant needs no window hypothesis *)
Lemma Flagged_run : forall progs sched, Flagged (run cfg_fixed sched (init progs)).
Proof.
  intros progs sched. unfold run.
  apply (invariant_run world (wstep cfg_fixed) (fun w => Inv w /\ Flagged w)).
  - intros t w w' [HI HF] H. split; [eapply Inv_step|eapply Flagged_step]; eauto.
  - destruct (Big_init progs) as (HI & HF & _). auto.
Qed.
