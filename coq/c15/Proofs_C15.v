(* C15: pause flags are set only during a stop-the-world section; the schedules that witness the window in which
   exclusive access fails (F10) and, before the spawn repair, the one in which a started thread misses a table. *)
From Coq Require Import List Arith Lia Bool.
Import ListNotations.
From SV Require Import c15.Conc c15.Model_C15 c15.Proofs_C15_Base c15.Proofs_C15_Inv.

Lemma paused_only_during_stw_inv : forall w t, Inv w -> paused (th w t) = true ->
  exists s x, pc (th w s) = Stw x /\ heap w = Some s.
Proof.
  intros w t HI Hp. pose proof (I_paused w HI t Hp) as H. unfold stopper_ok in H.
  destruct (heap w) as [h|] eqn:Hh; [|contradiction].
  destruct (pc (th w h)) eqn:E; try contradiction. eauto.
Qed.

(* F10: the stopper loads ctx = Some of a thread that has already read paused = false *)
Definition f10_progs : list (list act) := [[AAlloc true]; [APrim; ACompute]].
Definition f10_sched : list tid := [1;1;1;1; 0;0;0;0;0;0;0;0;0;0;0;0;0;0].

(* spawn window: a thread started but not yet registered is neither stopped nor given the new global
   table: after thread 2's update completed, thread 1 executes with the old table *)
Definition spawn_progs : list (list act) := [[ASpawn 2; ASpawn 1; APrim]; [ACompute; ACompute; ACompute]; [AUpdate]].
Definition spawn_sched : list tid := [0;0;0;0;0; 0;0] ++ repeat 2 60 ++ [1].
