(* C02 — native tier error discipline: property theorems (model in Jit_C02.v; table in gen/Gen_C02jit.v) *)
From Coq Require Import List Bool String ZArith.
Import ListNotations.
From SV Require Import c02.Jit_C02 gen.Gen_C02jit.

(* every call site of the code generator whose helper can report an error is followed by the test
   (the table is regenerated from jit2/cgen.rs and steel_vm/vm/jit.rs on every run) *)
Theorem C02_jit_sites_checked : discipline Gen_C02jit.sites = true.
Proof. vm_compute. reflexivity. Qed.

(* a natively compiled body all of whose fallible call sites are checked behaves as the interpreter:
   same value, or the same first error, for every operand stack *)
Theorem C02_jit_checked_native_agrees : forall p, Forall fallible_sound p -> forallb call_ok p = true ->
  forall st, native p st = interp p st.
Proof.
  induction p as [|c r IH]; intros Hs Hok st; cbn [native interp]; [reflexivity|].
  inversion Hs as [|? ? Hc Hr]; subst.
  cbn [forallb] in Hok. apply andb_true_iff in Hok. destruct Hok as [Hc_ok Hr_ok].
  destruct (run c st) as [v|e] eqn:Hrun.
  - apply IH; assumption.
  - specialize (Hc st e Hrun). unfold call_ok in Hc_ok. rewrite Hc in Hc_ok. cbn in Hc_ok.
    rewrite Hc_ok. reflexivity.
Qed.

(* the test is necessary: an unchecked fallible site loses the error *)
Theorem C02_jit_unchecked_site_loses_error : exists p st, Forall fallible_sound p /\ native p st <> interp p st.
Proof.
  exists [car_like], [0%Z]. split.
  - constructor; [|constructor]. intros st e _. reflexivity.
  - cbn. discriminate.
Qed.

Example C02_jit_discipline_nonvacuous :
  discipline [("CAR"%string, "car-reg"%string, true, true); ("CONS"%string, "cons-handler-value"%string, false, false)] = true /\
  discipline [("CAR"%string, "car-reg"%string, true, false)] = false.
Proof. exact discipline_nonvacuous. Qed.

(* every function / macro of jit.rs that stores an error in ctx.result clears ctx.is_native at least as often
   (generated from the source on every run) *)
Theorem C02_jit_helpers_clear_flag : helper_discipline Gen_C02jit.error_stores = true.
Proof. vm_compute. reflexivity. Qed.

(* with both halves of the contract native execution equals the interpreter's; without the helper's half a checked
   site does not help *)
Theorem C02_jit_flag_contract : forall p, Forall (fun c => fallible_sound (base c)) p ->
  forallb (fun c => call_ok (base c) && implb (cfallible (base c)) (clears c)) p = true ->
  forall st, native_flag p st = interp (map base p) st.
Proof.
  induction p as [|c r IH]; intros Hs Hok st; cbn [native_flag interp map]; [reflexivity|].
  inversion Hs as [|? ? Hc Hr]; subst.
  cbn [forallb] in Hok. apply andb_true_iff in Hok. destruct Hok as [Hc_ok Hr_ok].
  apply andb_true_iff in Hc_ok. destruct Hc_ok as [H1 H2].
  destruct (run (base c) st) as [v|e] eqn:Hrun.
  - apply IH; assumption.
  - specialize (Hc st e Hrun). unfold call_ok in H1. rewrite Hc in H1, H2. cbn in H1, H2.
    rewrite H1, H2. reflexivity.
Qed.

Theorem C02_jit_helper_not_clearing_flag_loses_error : exists p st,
  Forall (fun c => fallible_sound (base c)) p /\ forallb (fun c => call_ok (base c)) p = true /\
  native_flag p st <> interp (map base p) st.
Proof.
  exists [{| base := {| run := run car_like; cfallible := true; checked := true |}; clears := false |}], [0%Z].
  split; [|split].
  - constructor; [|constructor]. intros st e _. reflexivity.
  - reflexivity.
  - cbn. discriminate.
Qed.
