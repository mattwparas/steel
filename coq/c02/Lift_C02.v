(* C02 — the other optional AST passes, on the core language of Model_C02.v:

   (1) LIFTING of closed lambdas to fresh global definitions
       (compiler/passes/analysis.rs LiftPureFunctionsToGlobalScope::visit, L4255-4330: bottom-up, a lambda whose
       FunctionInformation has no captured variables — and that is not itself a top-level definition, depth <> 1 —
       is replaced by a reference to a new global `##__lifted_pure_function<syntax-object-id>` bound to it;
       lift_pure_local_functions / lift_all_local_functions, compiler.rs L1252-1253).
       The switchable pass `lift_closures` (STEEL_CLOSURE_LIFTING, LiftClosuresToGlobalScope, L3718-4064: capture-
       parameterised lifting of boxed local recursive functions) never rewrites anything in this tree: its escape check
       CheckIdentifierOnlyOccursInUnboxCallPosition::check_let visits the (#%set-box! f tmp) form that defines the
       candidate and flags `f` as escaping (visit_atom), so perform_closure_lifting always returns early; 3849
       generated forms dump identically with the switch on and off.  Its meaning is the identity.
   (2) CROSS-MODULE "INLINING" (inline_idents_across_module_boundaries, L5656-5820, STEEL_MODULE_INLINE=1): every
       occurrence of a module-local alias a (defined as (%proto-hash-get% module 'x), not assigned) is replaced by the
       exporting module's own global o.  It is a renaming of global references, sound as long as a and o hold the same
       value, i.e. as long as neither is assigned afterwards; an o that is the target of a set! in any compiled module
       or in the unit being compiled is left alone (CollectAssignedIdentifiers; the reason is
       C02_module_inline_unsound_if_original_assigned in Properties_C02.v).
   (3) the passes of compiler.rs L1333-1400 composed as module inline -> inline -> lift -> inline(75) -> recursive
       inline(8); the first inline has no switch.  The compiler runs the closed-lambda lifting of (1) before them
       (L1252-1253): the case L = [] of the composition, with e the lifted program.

   One code relation [xrel], closed under all these rewrites, one value relation, one simulation. *)
From Coq Require Import ZArith List Bool String.
From SV Require Import c02.Model_C02 c02.Proofs_C02.
Import ListNotations.
Open Scope string_scope.

Definition ldefs := list (string * (list string * exp)).   (* lifted definitions: fresh global -> (params, body) *)
Definition amap := list (string * string).                  (* alias -> original global *)

Section Alias.
  Variable M : amap.
  (* FlattenModuleReferences::visit_atom: every identifier occurrence that is a key of the mapping is replaced *)
  Fixpoint alias_subst (e : exp) : exp :=
    match e with
    | Num _ | Bool_ _ | Loc _ => e
    | Glob g => match lookup g M with Some o => Glob o | None => Glob g end
    | Lam xs b => Lam xs (alias_subst b)
    | Call f args => Call (alias_subst f) (alias_substs args)
    | If c t e' => If (alias_subst c) (alias_subst t) (alias_subst e')
    | Let x e1 e2 => Let x (alias_subst e1) (alias_subst e2)
    | Add a b => Add (alias_subst a) (alias_subst b)
    | SetG g e' => SetG g (alias_subst e')       (* aliases with set_bang are not in the mapping *)
    end
  with alias_substs (l : exps) : exps :=
    match l with
    | ENil => ENil
    | ECons a r => ECons (alias_subst a) (alias_substs r)
    end.
End Alias.

Fixpoint gnames (e : exp) : list string :=
  match e with
  | Num _ | Bool_ _ | Loc _ => []
  | Glob g => [g]
  | Lam _ b => gnames b
  | Call f args => (gnames f ++ gnamess args)%list
  | If c t e' => (gnames c ++ gnames t ++ gnames e')%list
  | Let _ e1 e2 => (gnames e1 ++ gnames e2)%list
  | Add a b => (gnames a ++ gnames b)%list
  | SetG g e' => g :: gnames e'
  end
with gnamess (l : exps) : list string :=
  match l with
  | ENil => []
  | ECons a r => (gnames a ++ gnamess r)%list
  end.

Definition map_bodies (f : exp -> exp) (L : ldefs) : ldefs :=
  map (fun p => (fst p, (fst (snd p), f (snd (snd p))))) L.

Lemma lookup_map_bodies f L g :
  lookup g (map_bodies f L) = match lookup g L with Some (xs, b) => Some (xs, f b) | None => None end.
Proof.
  induction L as [|[y [xs b]] r IH]; cbn [map_bodies map lookup fst snd]; auto.
  destruct (String.eqb g y); auto.
Qed.

Section Rewrites.
  Variable D : defs.      (* inlinable source globals: g -> (params, body), each bound to the closed closure *)
  Variable L : ldefs.     (* globals created by lifting (exist in the target only) *)
  Variable M : amap.      (* alias -> original *)

  Inductive xrel : exp -> exp -> Prop :=
  | XR_Num z : xrel (Num z) (Num z)
  | XR_Bool b : xrel (Bool_ b) (Bool_ b)
  | XR_Loc x : xrel (Loc x) (Loc x)
  | XR_Glob g : lookup g L = None -> xrel (Glob g) (Glob g)
  | XR_Alias a o : lookup a M = Some o -> lookup o L = None -> xrel (Glob a) (Glob o)
  | XR_Lam xs b b' : xrel b b' -> xrel (Lam xs b) (Lam xs b')
  | XR_Lift xs b g b1 :
      lookup g L = Some (xs, b1) -> xrel b b1 -> fv (Lam xs b) = [] -> xrel (Lam xs b) (Glob g)
  | XR_Call f f' a a' : xrel f f' -> xrels a a' -> xrel (Call f a) (Call f' a')
  | XR_Inl g xs b0 b0' a a' :
      lookup g D = Some (xs, b0) -> xrel b0 b0' -> xrels a a' ->
      xrel (Call (Glob g) a) (Call (Lam xs b0') a')
  | XR_InlLift g xs b0 gl b1 a a' :      (* the inlined literal was lifted afterwards *)
      lookup g D = Some (xs, b0) -> lookup gl L = Some (xs, b1) -> xrel b0 b1 -> xrels a a' ->
      xrel (Call (Glob g) a) (Call (Glob gl) a')
  | XR_If c c' t t' e e' : xrel c c' -> xrel t t' -> xrel e e' -> xrel (If c t e) (If c' t' e')
  | XR_Let x a a' b b' : xrel a a' -> xrel b b' -> xrel (Let x a b) (Let x a' b')
  | XR_Add a a' b b' : xrel a a' -> xrel b b' -> xrel (Add a b) (Add a' b')
  | XR_SetG g e e' : lookup g L = None -> xrel e e' -> xrel (SetG g e) (SetG g e')
  with xrels : exps -> exps -> Prop :=
  | XRS_Nil : xrels ENil ENil
  | XRS_Cons e e' r r' : xrel e e' -> xrels r r' -> xrels (ECons e r) (ECons e' r').

  Scheme xrel_mut := Induction for xrel Sort Prop
    with xrels_mut := Induction for xrels Sort Prop.
  Combined Scheme xrel_xrels_ind from xrel_mut, xrels_mut.

  Definition fresh_for (e : exp) : Prop := Forall (fun g => lookup g L = None) (gnames e).
  Definition fresh_fors (l : exps) : Prop := Forall (fun g => lookup g L = None) (gnamess l).

  Lemma xrel_refl_both :
    (forall e, fresh_for e -> xrel e e) /\ (forall l, fresh_fors l -> xrels l l).
  Proof.
    apply exp_exps_ind; unfold fresh_for, fresh_fors; cbn [gnames gnamess]; intros;
      repeat match goal with
             | H : Forall _ (_ ++ _) |- _ => apply Forall_app in H; destruct H
             | H : Forall _ (_ :: _) |- _ => inversion H; subst; clear H
             end; constructor; auto.
  Qed.
  Definition xrel_refl := proj1 xrel_refl_both.

  Inductive vrel : val -> val -> Prop :=
  | VR_Num z : vrel (VNum z) (VNum z)
  | VR_Bool b : vrel (VBool b) (VBool b)
  | VR_Clo xs b b' ρ ρ' : xrel b b' -> erel ρ ρ' -> vrel (VClo xs b ρ) (VClo xs b' ρ')
  with erel : env -> env -> Prop :=
  | ER_nil : erel [] []
  | ER_cons x v v' ρ ρ' : vrel v v' -> erel ρ ρ' -> erel ((x, v) :: ρ) ((x, v') :: ρ').

  Inductive rrel : res -> res -> Prop :=
  | RR_Val v v' : vrel v v' -> rrel (Val v) (Val v')
  | RR_Err : rrel Err Err.

  Definition orel (a b : option val) : Prop :=
    match a, b with
    | Some v, Some v' => vrel v v'
    | None, None => True
    | _, _ => False
    end.

  Lemma rel_ok_xrel : rel_ok vrel erel xrel.
  Proof.
    split; try (constructor; assumption); [|exact erel_ind].
    intros v v' H. destruct H; auto.
  Qed.

  Lemma rrel_resR r r' : resR vrel r r' -> rrel r r'.
  Proof. destruct r, r'; try contradiction; constructor; assumption. Qed.

  Hypothesis Hclosed : closed_defs D.

  Lemma xrel_fv_both :
    (forall e e', xrel e e' -> fv e' = fv e) /\ (forall l l', xrels l l' -> fvs l' = fvs l).
  Proof.
    apply xrel_xrels_ind; intros; cbn [fv fvs]; try congruence.
    - (* XR_Lift *)
      match goal with E : fv (Lam _ _) = [] |- _ => cbn [fv] in E; symmetry; exact E end.
    - (* XR_Inl *)
      match goal with
      | E : lookup _ D = Some (?xs0, ?b00), Hb : fv ?b1 = fv ?b00, Ha : fvs _ = fvs _ |- _ =>
          rewrite Ha; cbn [app]; pose proof (Hclosed _ _ _ E) as C; cbn [fv] in C;
          rewrite Hb, C; reflexivity
      end.
  Qed.
  Definition xrel_fv := proj1 xrel_fv_both.

  (* names the source evaluation must not assign: inlined definitions, aliases and their originals *)
  Definition xprot : list string := (map fst D ++ map fst M ++ map snd M)%list.

  Lemma lookup_mem_snd a o : lookup a M = Some o -> mem o (map snd M) = true.
  Proof.
    unfold mem. induction M as [|[y b] l IH]; cbn [lookup map snd existsb]; [discriminate|].
    destruct (String.eqb a y); [|intros H; rewrite (IH H); apply orb_true_r].
    intros H. inversion H. rewrite String.eqb_refl. reflexivity.
  Qed.

  Record GX (G G' : env) : Prop := mkGX {
    gx_point : forall g, lookup g L = None -> orel (lookup g G) (lookup g G');
    gx_lift : forall g xs b1, lookup g L = Some (xs, b1) -> lookup g G' = Some (VClo xs b1 []);
    gx_defs : forall g xs b0, lookup g D = Some (xs, b0) -> lookup g G = Some (VClo xs b0 []);
    gx_alias : forall a o, lookup a M = Some o -> lookup a G = lookup o G
  }.

  Lemma GX_update G G' g v v' :
    GX G G' -> vrel v v' -> mem g xprot = false -> lookup g L = None -> GX (update g v G) (update g v' G').
  Proof.
    intros [H1 H2 H3 H4] Hv Hm HL. unfold xprot, mem in Hm.
    rewrite !existsb_app in Hm. apply orb_false_iff in Hm as [HmD Hm]. apply orb_false_iff in Hm as [HmA HmO].
    constructor.
    - intros g0 Hg0. destruct (String.eqb g0 g) eqn:E.
      + apply String.eqb_eq in E. subst g0. rewrite !lookup_update_same. specialize (H1 g HL).
        destruct (lookup g G), (lookup g G'); try contradiction; [exact Hv|exact I].
      + assert (g0 <> g) by (intros ->; rewrite String.eqb_refl in E; discriminate).
        rewrite !lookup_update_neq by auto. auto.
    - intros g0 xs b1 Hg0. rewrite lookup_update_neq; [eauto|]. intros ->. congruence.
    - intros g0 xs b0 Hg0. rewrite lookup_update_neq; [eauto|]. intros ->. apply lookup_mem in Hg0. unfold mem in Hg0. congruence.
    - intros a o Ha.
      rewrite !lookup_update_neq; [eauto | |]; intros ->.
      + apply lookup_mem_snd in Ha. unfold mem in Ha. congruence.
      + apply lookup_mem in Ha. unfold mem in Ha. congruence.
  Qed.

  (* an inlinable global still holds the closure of its definition; what replaces it (the lambda literal, or the
     global the literal was lifted to) evaluates to a related closure *)
  Lemma sim_inlinable n ρ ρ' g xs b0 e' b1 :
    lookup g D = Some (xs, b0) -> xrel b0 b1 ->
    (forall m G G', GX G G' -> eval [] (S m) G' ρ' e' = Some (Val (VClo xs b1 []), G')) ->
    simE xprot vrel GX n ρ ρ' (Glob g) e'.
  Proof.
    intros Hg Hb He. destruct n as [|m]; [apply simE_O|]. intros G G' HG.
    rewrite eval_Glob, (gx_defs _ _ HG _ _ _ Hg), (He m G G' HG).
    apply out_ret; [constructor; [exact Hb|constructor]|exact HG].
  Qed.

  Lemma sim : forall n, sims xprot vrel erel GX xrel n /\
    forall l l', xrels l l' -> forall ρ ρ', erel ρ ρ' -> simEs xprot vrel GX n ρ ρ' l l'.
  Proof.
    induction n as [|n [IHe IHs]]; [split; intros ? ? _ ? ? _; [apply simE_O|apply simEs_O]|].
    split.
    - intros e e' Hi ρ ρ' Hρ. destruct Hi.
      + eapply simE_Num, rel_ok_xrel.
      + eapply simE_Bool, rel_ok_xrel.
      + eapply simE_Loc; [exact rel_ok_xrel|exact Hρ].
      + apply simE_Glob. intros G G' HG. apply (gx_point _ _ HG). assumption.
      + (* XR_Alias: the source reads a, the target reads o *)
        apply simE_Glob. intros G G' HG. rewrite (gx_alias _ _ HG _ _ ltac:(eassumption)). apply (gx_point _ _ HG). assumption.
      + eapply simE_Lam; [exact rel_ok_xrel|exact Hi|apply xrel_fv, Hi|exact Hρ].
      + (* XR_Lift: the source builds the closed closure, the target reads the lifted global *)
        intros G G' HG. rewrite eval_Lam, eval_Glob, (gx_lift _ _ HG _ _ _ ltac:(eassumption)).
        match goal with HF : fv (Lam _ _) = [] |- _ => rewrite HF, restrict_nil end.
        apply out_ret; [constructor; [exact Hi|constructor]|exact HG].
      + (* XR_Call *)
        eapply simE_Call; [exact rel_ok_xrel|exact IHe|apply IHs; assumption|apply IHe; assumption].
      + (* XR_Inl *)
        eapply simE_Call; [exact rel_ok_xrel|exact IHe|apply IHs; assumption|].
        eapply sim_inlinable; [eassumption|exact Hi|]. intros m G G' _. rewrite eval_Lam.
        assert (F : fv (Lam xs b0') = fv (Lam xs b0)) by (apply xrel_fv; constructor; exact Hi).
        rewrite F, (Hclosed _ _ _ ltac:(eassumption)), restrict_nil. reflexivity.
      + (* XR_InlLift: ... and that literal lifted afterwards *)
        eapply simE_Call; [exact rel_ok_xrel|exact IHe|apply IHs; assumption|].
        eapply sim_inlinable; [eassumption|exact Hi|]. intros m G G' HG.
        rewrite eval_Glob, (gx_lift _ _ HG _ _ _ ltac:(eassumption)). reflexivity.
      + eapply simE_If; [exact rel_ok_xrel|..]; apply IHe; assumption.
      + apply simE_Let; [apply IHe; assumption|]. intros v v' Hv. apply IHe; [assumption|constructor; assumption].
      + eapply simE_Add; [exact rel_ok_xrel|..]; apply IHe; assumption.
      + apply simE_SetG; [intros G G' HG; apply (gx_point _ _ HG); assumption|intros; apply GX_update; assumption|apply IHe; assumption].
    - intros l l' Hi ρ ρ' Hρ. destruct Hi; [apply simEs_Nil|apply simEs_Cons; [apply IHe|apply IHs]; assumption].
  Qed.

  Theorem xrel_preserves : forall n G G' ρ ρ' e e' r G1,
    GX G G' -> erel ρ ρ' -> xrel e e' ->
    eval xprot n G ρ e = Some (r, G1) -> r <> Viol ->
    exists r' G1', eval [] n G' ρ' e' = Some (r', G1') /\ rrel r r' /\ GX G1 G1'.
  Proof.
    intros n G G' ρ ρ' e e' r G1 HG Hρ Hi H Hr.
    destruct (proj1 (sim n) e e' Hi ρ ρ' Hρ G G' HG r G1 H Hr) as (r' & G1' & E' & Rr & HG1).
    exists r', G1'. split; [exact E'|]. split; [apply rrel_resR; exact Rr|exact HG1].
  Qed.
End Rewrites.

Lemma fresh_for_nil e : fresh_for [] e.
Proof. apply Forall_forall. intros; reflexivity. Qed.

Lemma lookup_none_map_bodies f L g : lookup g L = None -> lookup g (map_bodies f L) = None.
Proof. intros H. rewrite lookup_map_bodies, H. reflexivity. Qed.

Lemma lookup_some_map_bodies f L g xs b :
  lookup g L = Some (xs, b) -> lookup g (map_bodies f L) = Some (xs, f b).
Proof. intros H. rewrite lookup_map_bodies, H. reflexivity. Qed.

(* inline_idents_across_module_boundaries as alias substitution, before anything has been lifted *)
Lemma alias_xrel_both D M :
  (forall e, xrel D [] M e (alias_subst M e)) /\ (forall l, xrels D [] M l (alias_substs M l)).
Proof.
  apply exp_exps_ind; intros; cbn [alias_subst alias_substs]; try (constructor; auto; fail).
  destruct (lookup g M) eqn:E; [eapply XR_Alias; eauto | constructor; auto].
Qed.

Record tables_ok (D : defs) (L : ldefs) (M : amap) : Prop := mkTok {
  (* the bodies that get inlined mention no lifted name (lifted names are fresh) *)
  tok_fresh : forall g xs b0, lookup g D = Some (xs, b0) -> fresh_for L b0;
  tok_disj : forall g d, lookup g D = Some d -> lookup g L = None;
  (* an alias of an inlinable global is inlinable with the same definition (it holds the same closure) *)
  tok_alias : forall a o d, lookup a M = Some o -> lookup o D = Some d -> lookup a D = Some d
}.

Lemma tables_ok_map_bodies f D L M : tables_ok D L M -> tables_ok D (map_bodies f L) M.
Proof.
  intros [H1 H2 H3]. constructor; auto.
  - intros g xs b0 Hg. specialize (H1 g xs b0 Hg). unfold fresh_for in *.
    eapply Forall_impl; [|exact H1]. intros h Hh. apply lookup_none_map_bodies. exact Hh.
  - intros g d Hg. apply lookup_none_map_bodies. eauto.
Qed.

Lemma tables_ok_nil D M :
  (forall a o d, lookup a M = Some o -> lookup o D = Some d -> lookup a D = Some d) -> tables_ok D [] M.
Proof. intros H. constructor; auto. intros g xs b0 _. apply fresh_for_nil. Qed.

(* the lifted definitions are top-level definitions of the target, so a round rewrites their bodies too (L'); the
   result stays related to the SOURCE *)
Lemma inline_after_both D L M (Hok : tables_ok D L M) :
  let L' := map_bodies (inline D) L in
  (forall e e', xrel D L M e e' -> xrel D L' M e (inline D e')) /\
  (forall l l', xrels D L M l l' -> xrels D L' M l (inlines D l')).
Proof.
  intros L'.
  pose proof (tables_ok_map_bodies (inline D) D L M Hok) as Hok'. fold L' in Hok'.
  (* the rules that neither read the lifted table nor have a global as operator of the target go through unchanged *)
  apply xrel_xrels_ind; intros;
    try (constructor; auto; fail); try (constructor; auto; apply lookup_none_map_bodies; auto; fail).
  - (* XR_Lift *)
    eapply XR_Lift; [apply lookup_some_map_bodies; eassumption | assumption | assumption].
  - (* XR_Call *)
    destruct f'; try (constructor; auto; fail).
    cbn [inline]. destruct (lookup g D) as [[xs0 b0]|] eqn:E; [| constructor; auto].
    (* the operator of the target is a global with an inlinable definition: what was the source operator? *)
    match goal with Hf : xrel D L M _ (Glob _) |- _ => inversion Hf; subst end.
    + eapply XR_Inl; [eassumption | apply xrel_refl; eapply tok_fresh; eauto | auto].
    + eapply XR_Inl; [eapply tok_alias; eauto | apply xrel_refl; eapply tok_fresh; eauto | auto].
    + (* a lifted name is never inlinable *)
      match goal with HL : lookup g L = Some _ |- _ => rewrite (tok_disj _ _ _ Hok _ _ E) in HL; discriminate HL end.
  - (* XR_Inl: the operator is already a lambda literal: the round goes inside *)
    eapply XR_Inl; eauto.
  - (* XR_InlLift: the operator is a lifted global: never inlinable *)
    cbn [inline]. assert (lookup gl D = None) as ->.
    { destruct (lookup gl D) eqn:E; auto.
      match goal with HL : lookup gl L = Some _ |- _ => rewrite (tok_disj _ _ _ Hok _ _ E) in HL; discriminate HL end. }
    eapply XR_InlLift; [eassumption | apply lookup_some_map_bodies; eassumption | assumption | assumption].
Qed.

Lemma inline_after D L M e e' : tables_ok D L M ->
  xrel D L M e e' -> xrel D (map_bodies (inline D) L) M e (inline D e').
Proof. intros Hok H. exact (proj1 (inline_after_both D L M Hok) e e' H). Qed.

Lemma map_bodies_comp f g L : map_bodies g (map_bodies f L) = map_bodies (fun b => g (f b)) L.
Proof.
  unfold map_bodies. rewrite map_map. apply map_ext. intros [y [xs b]]. reflexivity.
Qed.

Lemma inline_rec_after k : forall D L M e e', tables_ok D L M ->
  xrel D L M e e' -> xrel D (map_bodies (inline_rec k D) L) M e (inline_rec k D e').
Proof.
  induction k as [|k IH]; intros D L M e e' Hok H.
  - assert (E : map_bodies (inline_rec 0 D) L = L).
    { unfold map_bodies. rewrite <- (map_id L) at 2. apply map_ext. intros [y [xs b]]. reflexivity. }
    rewrite E. exact H.
  - assert (E : map_bodies (inline_rec (S k) D) L = map_bodies (inline_rec k D) (map_bodies (inline D) L)).
    { rewrite map_bodies_comp. reflexivity. }
    rewrite E. change (inline_rec (S k) D e') with (inline_rec k D (inline D e')).
    apply IH; [apply tables_ok_map_bodies; exact Hok | apply inline_after; auto].
Qed.

(* LiftPureFunctionsToGlobalScope, as a relation between the program before and after: closed lambdas replaced by fresh globals bound
   in L; nothing else changes.  [lift_spec L e e'] holds for the output of LiftPureFunctionsToGlobalScope for every
   choice of which closed lambdas are lifted and how they are named, provided the names are fresh (XR_Glob / XR_SetG
   demand that the program itself never mentions a lifted name). *)
Definition lift_spec (L : ldefs) (e e' : exp) : Prop := xrel [] L [] e e'.

Lemma lift_spec_Lam L xs b e'' : lift_spec L (Lam xs b) e'' ->
  (exists b'', e'' = Lam xs b'' /\ lift_spec L b b'') \/
  (exists g b1, e'' = Glob g /\ lookup g L = Some (xs, b1) /\ lift_spec L b b1 /\ fv (Lam xs b) = []).
Proof. intros H. inversion H; subst; [left|right]; eauto 6. Qed.

Lemma lift_after_both D L M (Hclosed : closed_defs D) :
  (forall e e', xrel D [] M e e' -> forall e'', xrel [] L [] e' e'' -> xrel D L M e e'') /\
  (forall l l', xrels D [] M l l' -> forall l'', xrels [] L [] l' l'' -> xrels D L M l l'').
Proof.
  (* nothing was lifted before, and lifting inlines nothing: outside lambda literals each rule meets itself *)
  apply xrel_xrels_ind;
    try (intros;
         try match goal with H : lookup _ [] = Some _ |- _ => discriminate H end;
         match goal with H2 : xrel [] _ [] _ _ |- _ => inversion H2 | H2 : xrels [] _ [] _ _ |- _ => inversion H2 end;
         subst; try discriminate; constructor; auto; fail).
  - (* XR_Lam: the literal stays a literal, or is lifted *)
    intros xs b b' Hb IHb e'' Hl.
    destruct (lift_spec_Lam _ _ _ _ Hl) as [(b'' & -> & Hb'')|(g & b1 & -> & Hg & Hb1 & Hfv)]; [constructor; auto|].
    eapply XR_Lift; [exact Hg|auto|]. rewrite <- Hfv. symmetry. apply (xrel_fv D [] M Hclosed). constructor. exact Hb.
  - (* XR_Inl: so does the inlined literal *)
    intros g xs b0 b0' a a' Hg Hb IHb Ha IHa e'' Hc.
    inversion Hc; subst; try discriminate.
    match goal with Hf : xrel [] L [] (Lam _ _) _ |- _ =>
      destruct (lift_spec_Lam _ _ _ _ Hf) as [(b'' & -> & Hb'')|(gl & b1 & -> & Hgl & Hb1 & _)] end;
      [eapply XR_Inl|eapply XR_InlLift]; eauto.
Qed.

(* the passes of compiler.rs composed in the order of the stages; the compiler runs the closed-lambda lifting first
   (L1252-1253): the case L = [], e the lifted program *)
Section Pipeline.
  Variable D : defs.
  Variable M : amap.
  (* compiler.rs L1334 module inline (switch), L1345 inline (no switch), lifting (lift_spec; L1363-1368 is the identity),
     L1376 inline(75) (switch), L1389 recursive inline, 8 rounds (switch) *)
  Definition stage1 (s_mod : bool) (e : exp) : exp := if s_mod then alias_subst M e else e.
  Definition stage2 (e : exp) : exp := inline D e.
  Definition stage4 (s75 : bool) (p : exp * ldefs) : exp * ldefs :=
    if s75 then (inline D (fst p), map_bodies (inline D) (snd p)) else p.
  Definition stage5 (k : nat) (p : exp * ldefs) : exp * ldefs :=
    (inline_rec k D (fst p), map_bodies (inline_rec k D) (snd p)).

  Lemma pipeline_xrel s_mod s75 k e e3 L :
    closed_defs D -> tables_ok D L M ->
    lift_spec L (stage2 (stage1 s_mod e)) e3 ->
    let p := stage5 k (stage4 s75 (e3, L)) in
    xrel D (snd p) M e (fst p).
  Proof.
    intros Hc Hok Hl p.
    assert (H1 : xrel D [] M e (stage1 s_mod e)).
    { unfold stage1. destruct s_mod; [apply (proj1 (alias_xrel_both D M))|apply xrel_refl, fresh_for_nil]. }
    assert (H2 : xrel D [] M e (stage2 (stage1 s_mod e)))
      by exact (inline_after D [] M _ _ (tables_ok_nil D M (tok_alias _ _ _ Hok)) H1).
    assert (H3 : xrel D L M e e3) by exact (proj1 (lift_after_both D L M Hc) _ _ H2 _ Hl).
    unfold p, stage5, stage4. destruct s75; cbn [fst snd]; apply inline_rec_after; auto using tables_ok_map_bodies, inline_after.
  Qed.
End Pipeline.

(* renaming of global names (module mangling is one); C02_inline_commutes_with_mangling in Properties_C02.v uses
   lookup_ren_defs *)
Section Rename.
  Variable φ : string -> string.
  Hypothesis φ_inj : forall a b, φ a = φ b -> a = b.

  Fixpoint ren (e : exp) : exp :=
    match e with
    | Num _ | Bool_ _ | Loc _ => e
    | Glob g => Glob (φ g)
    | Lam xs b => Lam xs (ren b)
    | Call f args => Call (ren f) (rens args)
    | If c t e' => If (ren c) (ren t) (ren e')
    | Let x e1 e2 => Let x (ren e1) (ren e2)
    | Add a b => Add (ren a) (ren b)
    | SetG g e' => SetG (φ g) (ren e')
    end
  with rens (l : exps) : exps :=
    match l with
    | ENil => ENil
    | ECons a r => ECons (ren a) (rens r)
    end.

  Definition ren_defs (D : defs) : defs := map (fun p => (φ (fst p), (fst (snd p), ren (snd (snd p))))) D.

  Lemma lookup_ren_defs D g :
    lookup (φ g) (ren_defs D) = match lookup g D with Some (xs, b) => Some (xs, ren b) | None => None end.
  Proof.
    induction D as [|[y [xs b]] r IH]; cbn [ren_defs map lookup fst snd]; auto.
    destruct (String.eqb g y) eqn:E.
    - apply String.eqb_eq in E. subst y. rewrite String.eqb_refl. reflexivity.
    - assert (String.eqb (φ g) (φ y) = false) as ->.
      { destruct (String.eqb (φ g) (φ y)) eqn:E2; auto. apply String.eqb_eq in E2. apply φ_inj in E2.
        subst y. rewrite String.eqb_refl in E. discriminate E. }
      exact IH.
  Qed.
End Rename.

(* programs and global states for the refutations C02_lift_unsound_if_captures and
   C02_module_inline_unsound_if_original_assigned of Properties_C02.v *)
(* lifting a lambda that captures a local variable: (let ((x 1)) ((lambda () x)))  *)
Definition lw_src : exp := Let "x" (Num 1) (Call (Lam [] (Loc "x")) ENil).
Definition lw_tgt : exp := Let "x" (Num 1) (Call (Glob "##lifted") ENil).
Definition lw_G' : env := [("##lifted", VClo [] (Loc "x") [])].

(* module inlining when the ORIGINAL is assigned after the alias was taken:
   module A: (define counter 0) (define (inc!) (set! counter (+ counter 1)));
   module B: alias := A's counter; (define (get) alias).  After (inc!), (get) is 0; with the alias replaced by the
   original it is 1. *)
Definition aw_M : amap := [("B.counter", "A.counter")].
Definition aw_G : env := [("A.counter", VNum 0); ("B.counter", VNum 0)].
Definition aw_prog : exp :=
  Let "_" (SetG "A.counter" (Add (Glob "A.counter") (Num 1))) (Glob "B.counter").

Lemma closed_defs_nil : closed_defs [].
Proof. intros g xs b0 H. discriminate H. Qed.

Lemma lift_preserves : forall L n G G' ρ ρ' e e' r G1,
  lift_spec L e e' -> GX [] L [] G G' -> erel [] L [] ρ ρ' ->
  eval [] n G ρ e = Some (r, G1) -> r <> Viol ->
  exists r' G1', eval [] n G' ρ' e' = Some (r', G1') /\ rrel [] L [] r r' /\ GX [] L [] G1 G1'.
Proof.
  intros L n G G' ρ ρ' e e' r G1 Hl HG Hρ H Hr.
  exact (xrel_preserves [] L [] closed_defs_nil n G G' ρ ρ' e e' r G1 HG Hρ Hl H Hr).
Qed.

Lemma config_irrelevant : forall D M L, closed_defs D -> tables_ok D L M ->
  forall (s_mod s75 : bool) (k : nat) e e3,
    lift_spec L (stage2 D (stage1 M s_mod e)) e3 ->
    let p := stage5 D k (stage4 D s75 (e3, L)) in
    forall n G G' ρ ρ' r G1,
      GX D (snd p) M G G' -> erel D (snd p) M ρ ρ' ->
      eval (xprot D M) n G ρ e = Some (r, G1) -> r <> Viol ->
      exists r' G1', eval [] n G' ρ' (fst p) = Some (r', G1') /\
                     rrel D (snd p) M r r' /\ GX D (snd p) M G1 G1'.
Proof.
  intros D M L Hc Hok s_mod s75 k e e3 Hl p n G G' ρ ρ' r G1 HG Hρ H Hr.
  exact (xrel_preserves D (snd p) M Hc n G G' ρ ρ' e (fst p) r G1 HG Hρ (pipeline_xrel D M s_mod s75 k e e3 L Hc Hok Hl) H Hr).
Qed.

(* non-vacuity: a program with an inlinable global, an alias of it, and a closed local lambda that is lifted;
   every switch on *)
Definition nv_D : defs := [("f", (["x"], Add (Loc "x") (Num 1))); ("B.f", (["x"], Add (Loc "x") (Num 1)))].
Definition nv_M : amap := [("B.f", "f")].
Definition nv_L : ldefs := [("##lifted1", (["y"], Add (Loc "y") (Num 10)))].
Definition nv_e : exp :=
  Let "h" (Lam ["y"] (Add (Loc "y") (Num 10))) (Call (Loc "h") (ECons (Call (Glob "B.f") (ECons (Num 1) ENil)) ENil)).
Definition nv_e3 : exp :=
  Let "h" (Glob "##lifted1") (Call (Loc "h") (ECons (Call (Lam ["x"] (Add (Loc "x") (Num 1))) (ECons (Num 1) ENil)) ENil)).
Definition nv_G : env := [("f", VClo ["x"] (Add (Loc "x") (Num 1)) []); ("B.f", VClo ["x"] (Add (Loc "x") (Num 1)) [])].
Definition nv_G' : env := ("##lifted1", VClo ["y"] (Add (Loc "y") (Num 10)) []) :: nv_G.

