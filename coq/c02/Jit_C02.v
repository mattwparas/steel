(* C02 — native tier: error discipline of the code generator (jit2/cgen.rs) and its helpers
   (steel_vm/vm/jit.rs).

   A helper called from natively compiled code cannot return a Result: it reports an error by storing
   it in ctx.result, clearing ctx.is_native and returning #<void>; the GENERATED code has to test the flag
   after the call (FunctionTranslator::check_deopt) and leave the native function, so that the
   interpreter loop raises the stored error.  A call site without the test continues with #<void> and the
   error is lost or replaced (DESIGN F39: (car '()) inside with-handler returned #<void>).

   Model: a natively compiled body abstracted to the sequence of helper calls it makes on an operand
   stack.  [interp] is the interpreter's meaning (stop at the first error); [native] is what the generated
   code does.  The table of call sites (arm of the code generator, helper, can the helper report an error,
   is the call followed by the test) is regenerated from the two source files on every run
   (coq/gen/Gen_C02jit.v, translator checks/c02_jit.py). *)
From Coq Require Import List Bool String ZArith.
Import ListNotations.

Inductive hres := HVal (v : Z) | HErr (e : nat).

Record call := {
  run : list Z -> hres;     (* the helper applied to the current operands *)
  cfallible : bool;         (* the helper has an error-reporting path (generated fact) *)
  checked : bool            (* the call site is followed by check_deopt (generated fact) *)
}.

Fixpoint interp (p : list call) (st : list Z) : hres :=
  match p with
  | [] => HVal (hd 0%Z st)
  | c :: r => match run c st with
              | HVal v => interp r (v :: st)
              | HErr e => HErr e
              end
  end.

(* #<void> is 0 here: an unchecked site continues with the helper's dummy return value *)
Fixpoint native (p : list call) (st : list Z) : hres :=
  match p with
  | [] => HVal (hd 0%Z st)
  | c :: r => match run c st with
              | HVal v => native r (v :: st)
              | HErr e => if checked c then HErr e else native r (0%Z :: st)
              end
  end.

(* the generated flag over-approximates: a helper without an error-reporting path never fails *)
Definition fallible_sound (c : call) : Prop := forall st e, run c st = HErr e -> cfallible c = true.

Definition call_ok (c : call) : bool := implb (cfallible c) (checked c).

(* the table extracted from the sources *)
Definition site := (string * string * bool * bool)%type.     (* arm, helper, fallible, checked *)
Definition site_ok (s : site) : bool := let '(_, _, f, c) := s in implb f c.
Definition discipline (l : list site) : bool := forallb site_ok l.

(* without the test the error is lost: car of the empty list followed by nothing *)
Definition car_like : call :=
  {| run := fun st => match st with 0%Z :: _ => HErr 1 | _ => HVal 7%Z end; cfallible := true; checked := false |}.

(* a disciplined table entry used by a call makes the call ok *)
Lemma site_ok_call_ok : forall arm h c, site_ok (arm, h, cfallible c, checked c) = true -> call_ok c = true.
Proof. intros arm h c H. exact H. Qed.

(* the helper's side of the contract: an error is reported by storing it AND clearing ctx.is_native, because
   the flag is what the generated test reads.  [native_flag] keeps the flag explicitly: a helper that reports
   without clearing it ([clears c = false]) is not noticed even by a checked site. *)
Record callf := { base : call; clears : bool }.

Fixpoint native_flag (p : list callf) (st : list Z) : hres :=
  match p with
  | [] => HVal (hd 0%Z st)
  | c :: r => match run (base c) st with
              | HVal v => native_flag r (v :: st)
              | HErr e => if checked (base c) && clears c then HErr e else native_flag r (0%Z :: st)
              end
  end.

(* generated: (function or macro of jit.rs, number of error stores, number of `is_native = false`) *)
Definition stores_ok (x : string * nat * nat) : bool := let '(_, s, c) := x in Nat.leb s c.
Definition helper_discipline (l : list (string * nat * nat)) : bool := forallb stores_ok l.

Example discipline_nonvacuous :
  discipline [("CAR"%string, "car-reg"%string, true, true); ("CONS"%string, "cons-handler-value"%string, false, false)] = true /\
  discipline [("CAR"%string, "car-reg"%string, true, false)] = false.
Proof. split; reflexivity. Qed.
