(* C02 — the AST rewrites of /repo's compiler.rs modelled here (call inlining, lifting of closed lambdas, alias flattening
   across modules) in any combination leave the meaning of a program unchanged as long as no inlined or aliased global is
   assigned; witnesses show that each side condition is needed; inlining commutes with module mangling. *)
From Coq Require Import ZArith List Bool String.
From SV Require Import c02.Model_C02 c02.Proofs_C02.
Import ListNotations.
Open Scope string_scope.

(* Call inlining — one round followed by any number k of further rounds (STEEL_INLINE,
   STEEL_INLINE_RECURSIVE, and the always-on first round) — preserves the
   configuration-free meaning [eval] of every expression, for every fuel, global state and local
   environment, PROVIDED the evaluation never assigns an inlined global (results related by [rrel]:
   equal numbers/booleans, closures with related code).  The definitions must be closed lambdas bound
   in the global state (Gok). *)
Theorem C02_inline_preserves :
  forall (D : defs), closed_defs D ->
  forall k n G G' ρ ρ' e r G1,
    Gok D G G' -> erel D ρ ρ' ->
    eval (prot D) n G ρ e = Some (r, G1) -> r <> Viol ->
    exists r' G1', eval [] n G' ρ' (inline_rec k D (inline D e)) = Some (r', G1') /\
                   rrel D r r' /\ Gok D G1 G1'.
Proof. exact inline_preserves. Qed.

(* The side condition is exactly what is needed: if an inlined global is assigned later, the inlined
   program and the reference differ (this is what the engine does across evaluation units:
   finding C02-F28).  The three runs: the reference (no protection: the assignment is allowed); g's body compiled
   with f inlined; the protected evaluation, which flags exactly this program. *)
Theorem C02_inline_unsound_if_assigned :
  fst_opt (eval [] 20 (wit_G (Call (Glob "f") ENil)) [] wit_prog) = Some (Val (VNum 2)) /\
  fst_opt (eval [] 20 (wit_G (inline wit_D (Call (Glob "f") ENil))) [] wit_prog) = Some (Val (VNum 1)) /\
  fst_opt (eval (map fst wit_D) 20 (wit_G (Call (Glob "f") ENil)) [] wit_prog) = Some Viol.
Proof. repeat split; vm_compute; reflexivity. Qed.

(* non-vacuity: a global state satisfying Gok and a program whose protected evaluation succeeds *)
Example C02_nonvacuous :
  closed_defs wit_D /\
  Gok wit_D (wit_G (Call (Glob "f") ENil)) (wit_G (Call (Glob "f") ENil)) /\
  fst_opt (eval (prot wit_D) 20 (wit_G (Call (Glob "f") ENil)) [] (Add (Call (Glob "g") ENil) (Num 41)))
    = Some (Val (VNum 42)).
Proof.
  split; [|split].
  - intros g xs b0 H.
    exact (lookup_Forall (fun _ d => fv (Lam (fst d) (snd d)) = []) wit_D ltac:(repeat constructor) g (xs, b0) H).
  - split.
    + repeat constructor; apply irel_refl.
    + intros g xs b0 H.
      exact (lookup_Forall (fun g d => lookup g (wit_G (Call (Glob "f") ENil)) = Some (VClo (fst d) (snd d) []))
               wit_D ltac:(repeat constructor) g (xs, b0) H).
  - vm_compute. reflexivity.
Qed.

(* the other optional passes (Lift_C02.v; required only here: its erel, rrel, .. shadow those of Proofs_C02.v,
   which the theorems above are about) *)
From SV Require Import c02.Lift_C02.

(* One simulation for every rewrite of the optional passes: e' is e with call sites of inlinable globals replaced by
   lambda literals, closed lambdas replaced by lifted globals, aliases replaced by their originals, in any combination
   and nesting (xrel).  For every fuel, global state and environment the target evaluates to a related result,
   provided the source evaluation never assigns an inlined global, an alias or an aliased original. *)
Theorem C02_rewrites_preserve :
  forall (D : defs) (L : ldefs) (M : amap), closed_defs D ->
  forall n G G' ρ ρ' e e' r G1,
    GX D L M G G' -> erel D L M ρ ρ' -> xrel D L M e e' ->
    eval (xprot D M) n G ρ e = Some (r, G1) -> r <> Viol ->
    exists r' G1', eval [] n G' ρ' e' = Some (r', G1') /\ rrel D L M r r' /\ GX D L M G1 G1'.
Proof. exact xrel_preserves. Qed.

(* Closure lifting: any set of closed lambdas moved to fresh global definitions L (lift_spec: the program itself never
   mentions a lifted name; a lifted lambda has no free local variable; nested lifting allowed).  The lifted program,
   run in a global state that additionally binds the lifted names to their closures (GX), computes related results. *)
Theorem C02_lift_preserves :
  forall L n G G' ρ ρ' e e' r G1,
  lift_spec L e e' -> GX [] L [] G G' -> erel [] L [] ρ ρ' ->
  eval [] n G ρ e = Some (r, G1) -> r <> Viol ->
  exists r' G1', eval [] n G' ρ' e' = Some (r', G1') /\ rrel [] L [] r r' /\ GX [] L [] G1 G1'.
Proof. exact lift_preserves. Qed.

(* The side condition 'no free local variable' is needed: lifting (lambda () x) out of (let ((x 1)) ...) loses x. *)
Theorem C02_lift_unsound_if_captures :
  fst_opt (eval [] 20 [] [] lw_src) = Some (Val (VNum 1)) /\
  fst_opt (eval [] 20 lw_G' [] lw_tgt) = Some Err.
Proof. split; vm_compute; reflexivity. Qed.

(* Cross-module inlining (STEEL_MODULE_INLINE): aliases replaced by the exporting module's globals, followed by call
   inlining (one round + k more): meaning preserved as long as neither an alias nor its original is assigned
   (the global state satisfies: alias and original hold the same value, GX). *)
Theorem C02_module_inline_preserves :
  forall D M, closed_defs D -> tables_ok D [] M ->
  forall k n G G' ρ ρ' e r G1,
    GX D [] M G G' -> erel D [] M ρ ρ' ->
    eval (xprot D M) n G ρ e = Some (r, G1) -> r <> Viol ->
    exists r' G1', eval [] n G' ρ' (inline_rec k D (inline D (alias_subst M e))) = Some (r', G1') /\
                   rrel D [] M r r' /\ GX D [] M G1 G1'.
Proof.
  (* the pipeline with nothing lifted and the 75 round off *)
  intros D M Hc Hok k n G G' ρ ρ' e r G1.
  exact (config_irrelevant D M [] Hc Hok true false k e _ (xrel_refl [] [] [] _ (fresh_for_nil _)) n G G' ρ ρ' r G1).
Qed.

(* ... and not otherwise: if the exporting module assigns the original after the alias was taken, the alias keeps the
   old value (0) but the program with the alias replaced reads the assigned one (1); with the original protected the
   assignment is a violation.  Before /repo b1370dad inline_idents_across_module_boundaries checked set! on the alias
   only and the engine showed this difference under STEEL_MODULE_INLINE=1; since b1370dad an original that is assigned
   in any compiled module or in the unit being compiled is not flattened.  The witness shows why the check on the
   exporting module's global is needed. *)
Theorem C02_module_inline_unsound_if_original_assigned :
  fst_opt (eval [] 20 aw_G [] aw_prog) = Some (Val (VNum 0)) /\
  fst_opt (eval [] 20 aw_G [] (alias_subst aw_M aw_prog)) = Some (Val (VNum 1)) /\
  fst_opt (eval (xprot [] aw_M) 20 aw_G [] aw_prog) = Some Viol.
Proof. repeat split; vm_compute; reflexivity. Qed.

(* Mangling is an injective renaming of global names; call inlining commutes with it. *)
Theorem C02_inline_commutes_with_mangling :
  forall (φ : string -> string), (forall a b, φ a = φ b -> a = b) ->
  forall D, (forall e, inline (ren_defs φ D) (ren φ e) = ren φ (inline D e)) /\
            (forall l, inlines (ren_defs φ D) (rens φ l) = rens φ (inlines D l)).
Proof.
  intros φ φ_inj D.
  (* a congruence in every case; only Call (Glob g) looks into the table *)
  apply exp_exps_ind; try reflexivity.
  - intros xs b IHb. exact (f_equal (Lam xs) IHb).
  - intros f IHf a IHa.
    destruct f as [z|b|x|g|xs b|f a0|c t e|x e1 e2|a0 b|g e]; try exact (f_equal2 Call IHf IHa).
    cbn [ren inline]. rewrite (lookup_ren_defs φ φ_inj).
    destruct (lookup g D) as [[xs b]|]; exact (f_equal (Call _) IHa).
  - intros c IHc t IHt e IHe. exact (f_equal3 If IHc IHt IHe).
  - intros x a IHa b IHb. exact (f_equal2 (Let x) IHa IHb).
  - intros a IHa b IHb. exact (f_equal2 Add IHa IHb).
  - intros g e IHe. exact (f_equal (SetG (φ g)) IHe).
  - intros e IHe r IHr. exact (f_equal2 ECons IHe IHr).
Qed.

(* The passes of compiler.rs L1333-1400 composed in this order: module inline (s_mod) -> inline (no switch) -> lifting
   (any lift_spec step, the identity included: lift_spec [] e e) -> inline(75) (s75; the lifted definitions go through it
   too) -> k rounds of recursive inlining (0 or 8): the composed program has the meaning of the original.  The compiler
   runs the closed-lambda lifting first (L1252-1253): the case L = [] with e the lifted program, C02_lift_preserves
   being the lifting step. *)
Theorem C02_config_irrelevant :
  forall D M L, closed_defs D -> tables_ok D L M ->
  forall (s_mod s75 : bool) (k : nat) e e3,
    lift_spec L (stage2 D (stage1 M s_mod e)) e3 ->
    let p := stage5 D k (stage4 D s75 (e3, L)) in
    forall n G G' ρ ρ' r G1,
      GX D (snd p) M G G' -> erel D (snd p) M ρ ρ' ->
      eval (xprot D M) n G ρ e = Some (r, G1) -> r <> Viol ->
      exists r' G1', eval [] n G' ρ' (fst p) = Some (r', G1') /\
                     rrel D (snd p) M r r' /\ GX D (snd p) M G1 G1'.
Proof. exact config_irrelevant. Qed.

(* lifting switched off (and the switchable pass lift_closures, which rewrites nothing in this tree) is the identity step *)
Theorem C02_lift_spec_identity :
  forall e, lift_spec [] e e.
Proof. intros e. apply xrel_refl, fresh_for_nil. Qed.

(* non-vacuity: an alias of an inlinable global, a lifted closed lambda, every switch on *)
Example C02_config_nonvacuous :
  closed_defs nv_D /\ tables_ok nv_D nv_L nv_M /\
  lift_spec nv_L (stage2 nv_D (stage1 nv_M true nv_e)) nv_e3 /\
  GX nv_D (snd (stage5 nv_D 8 (stage4 nv_D true (nv_e3, nv_L)))) nv_M nv_G nv_G' /\
  fst_opt (eval (xprot nv_D nv_M) 30 nv_G [] nv_e) = Some (Val (VNum 12)) /\
  fst_opt (eval [] 30 nv_G' [] (fst (stage5 nv_D 8 (stage4 nv_D true (nv_e3, nv_L))))) = Some (Val (VNum 12)).
Proof.
  split; [|split; [|split; [|split; [|split]]]].
  - intros g xs b0 H.
    exact (lookup_Forall (fun _ d => fv (Lam (fst d) (snd d)) = []) nv_D ltac:(repeat constructor) g (xs, b0) H).
  - constructor.
    + intros g xs b0 H.
      exact (lookup_Forall (fun _ d => fresh_for nv_L (snd d)) nv_D ltac:(repeat constructor) g (xs, b0) H).
    + intros g d. apply (lookup_Forall (fun g _ => lookup g nv_L = None) nv_D). repeat constructor.
    + intros a o d Ha. revert d.
      apply (lookup_Forall (fun a o => forall d, lookup o nv_D = Some d -> lookup a nv_D = Some d) nv_M); [|exact Ha].
      repeat constructor. intros d Hd. exact Hd.
  - unfold lift_spec, nv_e3. vm_compute stage2.
    repeat (constructor || (eapply XR_Lift; [reflexivity | | reflexivity])).
  - unfold stage5, stage4. cbn [fst snd]. unfold nv_L, map_bodies. cbn [map fst snd]. constructor.
    + intros g Hg. cbn [lookup] in Hg.
      destruct (String.eqb g "##lifted1") eqn:E0; [discriminate Hg|].
      unfold nv_G', orel. unfold nv_G. cbn [lookup]. rewrite E0.
      destruct (String.eqb g "f") eqn:E1; [repeat constructor|].
      destruct (String.eqb g "B.f") eqn:E2; [repeat constructor | exact I].
    + intros g xs b1 Hg.
      refine (lookup_Forall (fun g d => lookup g nv_G' = Some (VClo (fst d) (snd d) [])) _ _ g (xs, b1) Hg).
      repeat constructor.
    + intros g xs b0 Hg.
      exact (lookup_Forall (fun g d => lookup g nv_G = Some (VClo (fst d) (snd d) [])) nv_D ltac:(repeat constructor) g (xs, b0) Hg).
    + intros a o. apply (lookup_Forall (fun a o => lookup a nv_G = lookup o nv_G) nv_M). repeat constructor.
  - vm_compute. reflexivity.
  - vm_compute. reflexivity.
Qed.
