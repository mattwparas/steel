(* C02 — the inlining pass preserves the configuration-free meaning as long as the run never assigns
   an inlined global (the implementation looks for a set! of it inside the unit); the last three
   definitions are the program for which C02_inline_unsound_if_assigned (Properties_C02.v)
   shows the pass changing the result without it. *)
From Coq Require Import ZArith List Bool String.
From SV Require Import c02.Model_C02.
Import ListNotations.
Open Scope string_scope.

(* unfolding equations of the mutual fixpoints (cbn does not refold them) *)
Section Unfold.
  Variable p : list string.
  Lemma eval_Num n G ρ z : eval p (S n) G ρ (Num z) = Some (Val (VNum z), G). Proof. reflexivity. Qed.
  Lemma eval_Bool n G ρ b : eval p (S n) G ρ (Bool_ b) = Some (Val (VBool b), G). Proof. reflexivity. Qed.
  Lemma eval_Loc n G ρ x : eval p (S n) G ρ (Loc x) =
    match lookup x ρ with Some v => Some (Val v, G) | None => Some (Err, G) end. Proof. reflexivity. Qed.
  Lemma eval_Glob n G ρ g : eval p (S n) G ρ (Glob g) =
    match lookup g G with Some v => Some (Val v, G) | None => Some (Err, G) end. Proof. reflexivity. Qed.
  Lemma eval_Lam n G ρ xs b : eval p (S n) G ρ (Lam xs b) =
    Some (Val (VClo xs b (restrict ρ (fv (Lam xs b)))), G). Proof. reflexivity. Qed.
  Lemma eval_Call n G ρ f args : eval p (S n) G ρ (Call f args) =
    match evals p n G ρ args with
    | None => None
    | Some (inl x, G1) => Some (x, G1)
    | Some (inr vs, G1) =>
      match eval p n G1 ρ f with
      | None => None
      | Some (Val (VClo xs b ρc), G2) =>
          match bind_params xs vs ρc with
          | Some ρ' => eval p n G2 ρ' b
          | None => Some (Err, G2)
          end
      | Some (Val _, G2) => Some (Err, G2)
      | Some (x, G2) => Some (x, G2)
      end
    end. Proof. reflexivity. Qed.
  Lemma eval_If n G ρ c t e : eval p (S n) G ρ (If c t e) =
    match eval p n G ρ c with
    | None => None
    | Some (Val v, G1) => eval p n G1 ρ (if truthy v then t else e)
    | Some (x, G1) => Some (x, G1)
    end. Proof. reflexivity. Qed.
  Lemma eval_Let n G ρ x e1 e2 : eval p (S n) G ρ (Let x e1 e2) =
    match eval p n G ρ e1 with
    | None => None
    | Some (Val v, G1) => eval p n G1 ((x, v) :: ρ) e2
    | Some (x', G1) => Some (x', G1)
    end. Proof. reflexivity. Qed.
  Lemma eval_Add n G ρ a b : eval p (S n) G ρ (Add a b) =
    match eval p n G ρ a with
    | None => None
    | Some (Val va, G1) =>
      match eval p n G1 ρ b with
      | None => None
      | Some (Val vb, G2) =>
          match va, vb with
          | VNum x, VNum y => Some (Val (VNum (x + y)), G2)
          | _, _ => Some (Err, G2)
          end
      | Some (x, G2) => Some (x, G2)
      end
    | Some (x, G1) => Some (x, G1)
    end. Proof. reflexivity. Qed.
  Lemma eval_SetG n G ρ g e : eval p (S n) G ρ (SetG g e) =
    match eval p n G ρ e with
    | None => None
    | Some (Val v, G1) =>
        if mem g p then Some (Viol, G1)
        else match lookup g G1 with
             | Some old => Some (Val old, update g v G1)
             | None => Some (Err, G1)
             end
    | Some (x, G1) => Some (x, G1)
    end. Proof. reflexivity. Qed.
  Lemma eval_O G ρ e : eval p 0 G ρ e = None. Proof. reflexivity. Qed.
  Lemma evals_O G ρ l : evals p 0 G ρ l = None. Proof. reflexivity. Qed.
  Lemma evals_Nil n G ρ : evals p (S n) G ρ ENil = Some (inr [], G). Proof. reflexivity. Qed.
  Lemma evals_Cons n G ρ a r : evals p (S n) G ρ (ECons a r) =
    match eval p n G ρ a with
    | None => None
    | Some (Val v, G1) =>
        match evals p n G1 ρ r with
        | None => None
        | Some (inr vs, G2) => Some (inr (v :: vs), G2)
        | Some (inl x, G2) => Some (inl x, G2)
        end
    | Some (x, G1) => Some (inl x, G1)
    end. Proof. reflexivity. Qed.
End Unfold.
#[global] Opaque eval evals.

Lemma lookup_Forall {A} (P : string -> A -> Prop) (l : list (string * A)) :
  Forall (fun q => P (fst q) (snd q)) l -> forall g a, lookup g l = Some a -> P g a.
Proof.
  induction 1 as [|[y b] l H _ IH]; intros g a E; cbn [lookup] in E; [discriminate|].
  destruct (String.eqb g y) eqn:Eg; [|eauto]. apply String.eqb_eq in Eg. inversion E; subst. exact H.
Qed.

Lemma lookup_mem {A} g (l : list (string * A)) a : lookup g l = Some a -> mem g (map fst l) = true.
Proof.
  unfold mem. induction l as [|[y b] l IH]; cbn [lookup map fst existsb]; [discriminate|].
  destruct (String.eqb g y); [reflexivity|exact IH].
Qed.

Lemma lookup_update_neq g g' v (G : env) : g' <> g -> lookup g' (update g v G) = lookup g' G.
Proof.
  intros H. induction G as [|[y w] r IH]; cbn [update lookup]; auto.
  destruct (String.eqb g y) eqn:E; cbn [lookup].
  - apply String.eqb_eq in E. subst y. apply String.eqb_neq in H. rewrite H. reflexivity.
  - destruct (String.eqb g' y); auto.
Qed.

Lemma lookup_update_same g v (G : env) :
  lookup g (update g v G) = match lookup g G with Some _ => Some v | None => None end.
Proof.
  induction G as [|[y w] r IH]; cbn [update lookup]; auto.
  destruct (String.eqb g y) eqn:E; cbn [lookup]; rewrite E; auto.
Qed.

Lemma restrict_nil ρ : restrict ρ [] = [].
Proof. induction ρ as [|[y v] ρ IH]; cbn [restrict filter fst mem existsb]; auto. Qed.

(* one step of the evaluator over abstract relations R (code), V (values; closures by R-related bodies), E (environments),
   GR (globals).  Source under protection p, target under none; a source run that hits the protection is not matched. *)
Section Step.
  Variable p : list string.
  Variable V : val -> val -> Prop.
  Variable E : env -> env -> Prop.
  Variable GR : env -> env -> Prop.
  Variable R : exp -> exp -> Prop.

  Record rel_ok : Prop := {
    V_inv : forall v v', V v v' ->
      match v, v' with
      | VNum a, VNum b => a = b
      | VBool a, VBool b => a = b
      | VClo xs b ρ, VClo xs' b' ρ' => xs = xs' /\ R b b' /\ E ρ ρ'
      | _, _ => False
      end;
    V_Num : forall z, V (VNum z) (VNum z);
    V_Bool : forall b, V (VBool b) (VBool b);
    V_Clo : forall xs b b' ρ ρ', R b b' -> E ρ ρ' -> V (VClo xs b ρ) (VClo xs b' ρ');
    E_nil : E [] [];
    E_cons : forall x v v' ρ ρ', V v v' -> E ρ ρ' -> E ((x, v) :: ρ) ((x, v') :: ρ');
    E_ind : forall P : env -> env -> Prop, P [] [] ->
      (forall x v v' ρ ρ', V v v' -> E ρ ρ' -> P ρ ρ' -> P ((x, v) :: ρ) ((x, v') :: ρ')) ->
      forall ρ ρ', E ρ ρ' -> P ρ ρ'
  }.
  Hypothesis OK : rel_ok.

  Definition optR (a b : option val) : Prop :=
    match a, b with Some v, Some v' => V v v' | None, None => True | _, _ => False end.
  Definition resR (r r' : res) : Prop :=
    match r, r' with Val v, Val v' => V v v' | Err, Err => True | _, _ => False end.
  Definition ressR (r r' : res + list val) : Prop :=
    match r, r' with inl x, inl x' => resR x x' | inr vs, inr vs' => Forall2 V vs vs' | _, _ => False end.

  (* [outR P viol]: a source run that ended in r <> viol is matched by a target run ending P-related, states GR-related:
     the relational lifting of the evaluator's monad.  out_ret / out_bind are its rules; each simE_* below is the
     construct's equation followed by them. *)
  Definition outR {A} (P : A -> A -> Prop) (viol : A) (o o' : option (A * env)) : Prop :=
    forall r G1, o = Some (r, G1) -> r <> viol -> exists r' G1', o' = Some (r', G1') /\ P r r' /\ GR G1 G1'.

  Lemma out_ret {A} (P : A -> A -> Prop) viol x x' G G' : P x x' -> GR G G' -> outR P viol (Some (x, G)) (Some (x', G')).
  Proof. intros Hx HG r G1 H _. inversion H; subst. exists x', G'. auto. Qed.

  (* [k] passes a violation on, so a run that is not one had no violating sub-run: the only place where this is argued *)
  Lemma out_bind {A B} (PA : A -> A -> Prop) va (PB : B -> B -> Prop) vb m m' (k k' : A -> env -> option (B * env)) :
    outR PA va m m' -> (forall G, k va G = Some (vb, G)) ->
    (forall x x' G1 G1', PA x x' -> GR G1 G1' -> outR PB vb (k x G1) (k' x' G1')) ->
    outR PB vb (match m with None => None | Some (x, G1) => k x G1 end)
               (match m' with None => None | Some (x, G1) => k' x G1 end).
  Proof.
    intros Hm Hv Hk r G2 H Hr. destruct m as [[x G1]|]; [|discriminate].
    assert (Hx : x <> va) by (intros ->; rewrite Hv in H; inversion H; congruence).
    destruct (Hm x G1 eq_refl Hx) as (x' & G1' & -> & Rx & HG1). exact (Hk _ _ _ _ Rx HG1 r G2 H Hr).
  Qed.

  (* a subexpression first; a non-value result is the result of the whole *)
  Lemma bind_sim m m' (k k' : val -> env -> option (res * env)) :
    outR resR Viol m m' ->
    (forall v v' G1 G1', V v v' -> GR G1 G1' -> outR resR Viol (k v G1) (k' v' G1')) ->
    outR resR Viol
      (match m with None => None | Some (Val v, G1) => k v G1 | Some (x, G1) => Some (x, G1) end)
      (match m' with None => None | Some (Val v, G1) => k' v G1 | Some (x, G1) => Some (x, G1) end).
  Proof.
    intros Hm Hk. apply (out_bind resR Viol); [exact Hm|reflexivity|].
    intros [v| |] [v'| |] G1 G1' Rx HG1; try contradiction; [apply Hk; assumption|apply out_ret; assumption].
  Qed.

  Lemma truthy_rel v v' : V v v' -> truthy v = truthy v'.
  Proof. intros H. apply (V_inv OK) in H. destruct v, v'; try contradiction; subst; reflexivity. Qed.

  Lemma E_lookup x : forall ρ ρ', E ρ ρ' -> optR (lookup x ρ) (lookup x ρ').
  Proof.
    apply (E_ind OK); cbn [lookup]; [exact I|]. intros y v v' ρ ρ' Hv _ IH. destruct (String.eqb x y); assumption.
  Qed.

  Lemma E_update x v v' : V v v' -> forall ρ ρ', E ρ ρ' -> E (update x v ρ) (update x v' ρ').
  Proof.
    intros Hv. apply (E_ind OK); cbn [update]; [apply (E_nil OK)|]. intros y w w' ρ ρ' Hw Hr IH.
    destruct (String.eqb x y); apply (E_cons OK); assumption.
  Qed.

  Lemma E_restrict keep : forall ρ ρ', E ρ ρ' -> E (restrict ρ keep) (restrict ρ' keep).
  Proof.
    apply (E_ind OK); cbn [restrict filter fst]; [apply (E_nil OK)|]. intros y w w' ρ ρ' Hw _ IH.
    destruct (mem y keep); [apply (E_cons OK)|]; assumption.
  Qed.

  Lemma bind_rel xs : forall vs vs' ρ ρ', Forall2 V vs vs' -> E ρ ρ' ->
    match bind_params xs vs ρ, bind_params xs vs' ρ' with
    | Some a, Some b => E a b
    | None, None => True
    | _, _ => False
    end.
  Proof.
    induction xs as [|x xs IH]; intros vs vs' ρ ρ' HF HR; destruct HF; cbn [bind_params]; auto.
    apply IH; [assumption|]. apply (E_cons OK); assumption.
  Qed.

  Definition simE (n : nat) (ρ ρ' : env) (e e' : exp) : Prop :=
    forall G G', GR G G' -> outR resR Viol (eval p n G ρ e) (eval [] n G' ρ' e').
  Definition simEs (n : nat) (ρ ρ' : env) (l l' : exps) : Prop :=
    forall G G', GR G G' -> outR ressR (inl Viol) (evals p n G ρ l) (evals [] n G' ρ' l').
  Definition sims (n : nat) : Prop := forall e e', R e e' -> forall ρ ρ', E ρ ρ' -> simE n ρ ρ' e e'.

  Lemma simE_O ρ ρ' e e' : simE 0 ρ ρ' e e'.
  Proof. intros G G' _ r G1 H. rewrite eval_O in H. discriminate. Qed.
  Lemma simEs_O ρ ρ' l l' : simEs 0 ρ ρ' l l'.
  Proof. intros G G' _ r G1 H. rewrite evals_O in H. discriminate. Qed.

  Lemma simE_Num n ρ ρ' z : simE (S n) ρ ρ' (Num z) (Num z).
  Proof. intros G G' HG. rewrite !eval_Num. apply out_ret; [apply (V_Num OK)|exact HG]. Qed.

  Lemma simE_Bool n ρ ρ' b : simE (S n) ρ ρ' (Bool_ b) (Bool_ b).
  Proof. intros G G' HG. rewrite !eval_Bool. apply out_ret; [apply (V_Bool OK)|exact HG]. Qed.

  (* both closures capture the same variables *)
  Lemma simE_Lam n ρ ρ' xs b b' : R b b' -> fv b' = fv b -> E ρ ρ' -> simE (S n) ρ ρ' (Lam xs b) (Lam xs b').
  Proof.
    intros Hb F Hρ G G' HG. rewrite !eval_Lam. cbn [fv]. rewrite F.
    apply out_ret; [apply (V_Clo OK); [exact Hb|apply E_restrict, Hρ]|exact HG].
  Qed.

  Lemma out_lookup x y (l l' : env) G G' : optR (lookup x l) (lookup y l') -> GR G G' ->
    outR resR Viol (match lookup x l with Some v => Some (Val v, G) | None => Some (Err, G) end)
                   (match lookup y l' with Some v => Some (Val v, G') | None => Some (Err, G') end).
  Proof. intros Lk HG. destruct (lookup x l), (lookup y l'); try contradiction; apply out_ret; assumption. Qed.

  Lemma simE_Loc n ρ ρ' x : E ρ ρ' -> simE (S n) ρ ρ' (Loc x) (Loc x).
  Proof. intros Hρ G G' HG. rewrite !eval_Loc. apply out_lookup; [apply E_lookup, Hρ|exact HG]. Qed.

  Lemma simE_Glob n ρ ρ' g g' :
    (forall G G', GR G G' -> optR (lookup g G) (lookup g' G')) -> simE (S n) ρ ρ' (Glob g) (Glob g').
  Proof. intros Hg G G' HG. rewrite !eval_Glob. apply out_lookup; [apply Hg, HG|exact HG]. Qed.

  Lemma simE_If n ρ ρ' c c' t t' e e' :
    simE n ρ ρ' c c' -> simE n ρ ρ' t t' -> simE n ρ ρ' e e' -> simE (S n) ρ ρ' (If c t e) (If c' t' e').
  Proof.
    intros Hc Ht He G G' HG. rewrite !eval_If. apply bind_sim; [apply Hc, HG|].
    intros v v' G1 G1' Hv HG1. rewrite <- (truthy_rel _ _ Hv). destruct (truthy v); [apply Ht|apply He]; exact HG1.
  Qed.

  Lemma simE_Let n ρ ρ' x a a' b b' :
    simE n ρ ρ' a a' -> (forall v v', V v v' -> simE n ((x, v) :: ρ) ((x, v') :: ρ') b b') ->
    simE (S n) ρ ρ' (Let x a b) (Let x a' b').
  Proof.
    intros Ha Hb G G' HG. rewrite !eval_Let. apply bind_sim; [apply Ha, HG|].
    intros v v' G1 G1' Hv HG1. apply (Hb v v' Hv), HG1.
  Qed.

  Lemma simE_Add n ρ ρ' a a' b b' : simE n ρ ρ' a a' -> simE n ρ ρ' b b' -> simE (S n) ρ ρ' (Add a b) (Add a' b').
  Proof.
    intros Ha Hb G G' HG. rewrite !eval_Add. apply bind_sim; [apply Ha, HG|].
    intros va va' G1 G1' Hva HG1. apply bind_sim; [apply Hb, HG1|].
    intros vb vb' G2 G2' Hvb HG2. apply (V_inv OK) in Hva. apply (V_inv OK) in Hvb.
    destruct va, va'; try contradiction; destruct vb, vb'; try contradiction; subst;
      apply out_ret; try exact I; try exact HG2. apply (V_Num OK).
  Qed.

  Lemma simE_SetG n ρ ρ' g e e' :
    (forall G G', GR G G' -> optR (lookup g G) (lookup g G')) ->
    (forall G G' v v', GR G G' -> V v v' -> mem g p = false -> GR (update g v G) (update g v' G')) ->
    simE n ρ ρ' e e' -> simE (S n) ρ ρ' (SetG g e) (SetG g e').
  Proof.
    intros Hg Hu He G G' HG. rewrite !eval_SetG. apply bind_sim; [apply He, HG|].
    intros v v' G1 G1' Hv HG1. cbn [mem existsb].
    destruct (mem g p) eqn:Em in |- *; [intros r G2 H Hr; inversion H; subst; congruence|].
    pose proof (Hg G1 G1' HG1) as Lk.
    destruct (lookup g G1), (lookup g G1'); try contradiction; apply out_ret; try assumption. exact (Hu _ _ _ _ HG1 Hv Em).
  Qed.

  Lemma simEs_Nil n ρ ρ' : simEs (S n) ρ ρ' ENil ENil.
  Proof. intros G G' HG. rewrite !evals_Nil. apply out_ret; [apply Forall2_nil|exact HG]. Qed.

  Lemma simEs_Cons n ρ ρ' e e' l l' : simE n ρ ρ' e e' -> simEs n ρ ρ' l l' -> simEs (S n) ρ ρ' (ECons e l) (ECons e' l').
  Proof.
    intros He Hl G G' HG. rewrite !evals_Cons. apply (out_bind resR Viol); [apply He, HG|reflexivity|].
    intros [v| |] [v'| |] G1 G1' Hv HG1; try contradiction; [|apply out_ret; assumption..].
    apply (out_bind ressR (inl Viol)); [apply Hl, HG1|reflexivity|].
    intros [y|vs] [y'|vs'] G2 G2' Rrs HG2; try contradiction; apply out_ret; try assumption.
    apply Forall2_cons; assumption.
  Qed.

  Lemma simE_Call n ρ ρ' f f' a a' :
    sims n -> simEs n ρ ρ' a a' -> simE n ρ ρ' f f' -> simE (S n) ρ ρ' (Call f a) (Call f' a').
  Proof.
    intros IH Ha Hf G G' HG. rewrite !eval_Call. apply (out_bind ressR (inl Viol)); [apply Ha, HG|reflexivity|].
    intros [y|vs] [y'|vs'] G1 G1' Rrs HG1; try contradiction; [apply out_ret; assumption|].
    apply bind_sim; [apply Hf, HG1|].
    intros v v' G2 G2' Hv HG2. apply (V_inv OK) in Hv.
    destruct v as [| |xs b ρc], v' as [| |xs' b' ρc']; try contradiction; try (apply out_ret; [exact I|exact HG2]).
    destruct Hv as (<- & Hb & Hρc). pose proof (bind_rel xs vs vs' ρc ρc' Rrs Hρc) as B.
    destruct (bind_params xs vs ρc) as [ρ1|], (bind_params xs vs' ρc') as [ρ1'|]; try contradiction;
      [exact (IH _ _ Hb _ _ B _ _ HG2)|apply out_ret; [exact I|exact HG2]].
  Qed.
End Step.

Section Sim.
  Variable D : defs.

  (* e' is e with some call sites of inlinable globals replaced by (possibly further inlined) lambda
     literals: covers one round, bounded recursive rounds and any subset of call sites *)
  Inductive irel : exp -> exp -> Prop :=
  | IR_Num z : irel (Num z) (Num z)
  | IR_Bool b : irel (Bool_ b) (Bool_ b)
  | IR_Loc x : irel (Loc x) (Loc x)
  | IR_Glob g : irel (Glob g) (Glob g)
  | IR_Lam xs b b' : irel b b' -> irel (Lam xs b) (Lam xs b')
  | IR_Call f f' a a' : irel f f' -> irels a a' -> irel (Call f a) (Call f' a')
  | IR_Inl g xs b0 b0' a a' :
      lookup g D = Some (xs, b0) -> irel b0 b0' -> irels a a' ->
      irel (Call (Glob g) a) (Call (Lam xs b0') a')
  | IR_If c c' t t' e e' : irel c c' -> irel t t' -> irel e e' -> irel (If c t e) (If c' t' e')
  | IR_Let x a a' b b' : irel a a' -> irel b b' -> irel (Let x a b) (Let x a' b')
  | IR_Add a a' b b' : irel a a' -> irel b b' -> irel (Add a b) (Add a' b')
  | IR_SetG g e e' : irel e e' -> irel (SetG g e) (SetG g e')
  with irels : exps -> exps -> Prop :=
  | IRS_Nil : irels ENil ENil
  | IRS_Cons e e' r r' : irel e e' -> irels r r' -> irels (ECons e r) (ECons e' r').

  Scheme irel_mut := Induction for irel Sort Prop
    with irels_mut := Induction for irels Sort Prop.
  Combined Scheme irel_irels_ind from irel_mut, irels_mut.

  Lemma irel_refl_both : (forall e, irel e e) /\ (forall l, irels l l).
  Proof. apply exp_exps_ind; intros; constructor; auto. Qed.
  Definition irel_refl := proj1 irel_refl_both.
  Definition irels_refl := proj2 irel_refl_both.

  (* a round on code related to the original stays related to the ORIGINAL code; the first round is the case of the
     original itself *)
  Lemma inline_after_both :
    (forall e e', irel e e' -> irel e (inline D e')) /\
    (forall l l', irels l l' -> irels l (inlines D l')).
  Proof.
    apply irel_irels_ind; intros; try (constructor; auto; fail).
    - (* IR_Call f f' *)
      destruct f'; try (constructor; auto; fail).
      (* f' = Glob g: then f = Glob g as well *)
      match goal with Hf : irel _ (Glob _) |- _ => inversion Hf; subst end.
      cbn [inline]. destruct (lookup g D) as [[xs b]|] eqn:E.
      + eapply IR_Inl; [eassumption | apply irel_refl | auto].
      + constructor; auto.
    - (* IR_Inl: operator already a lambda literal: inline its body *)
      eapply IR_Inl; eauto.
  Qed.

  Lemma inline_rec_irel k : forall e e', irel e e' -> irel e (inline_rec k D e').
  Proof.
    induction k as [|k IH]; intros e e' H; cbn [inline_rec]; auto.
    apply IH. apply (proj1 inline_after_both); auto.
  Qed.

  Inductive vrel : val -> val -> Prop :=
  | VR_Num z : vrel (VNum z) (VNum z)
  | VR_Bool b : vrel (VBool b) (VBool b)
  | VR_Clo xs b b' ρ ρ' : irel b b' -> erel ρ ρ' -> vrel (VClo xs b ρ) (VClo xs b' ρ')
  with erel : env -> env -> Prop :=
  | ER_nil : erel [] []
  | ER_cons x v v' ρ ρ' : vrel v v' -> erel ρ ρ' -> erel ((x, v) :: ρ) ((x, v') :: ρ').

  Inductive rrel : res -> res -> Prop :=
  | RR_Val v v' : vrel v v' -> rrel (Val v) (Val v')
  | RR_Err : rrel Err Err.

  Lemma rel_ok_irel : rel_ok vrel erel irel.
  Proof.
    split; try (constructor; assumption); [|exact erel_ind].
    intros v v' H. destruct H; auto.
  Qed.

  Lemma rrel_resR r r' : resR vrel r r' -> rrel r r'.
  Proof. destruct r, r'; try contradiction; constructor; assumption. Qed.

  Definition closed_defs : Prop :=
    forall g xs b0, lookup g D = Some (xs, b0) -> fv (Lam xs b0) = [].

  Hypothesis Hclosed : closed_defs.

  Lemma irel_fv_both :
    (forall e e', irel e e' -> fv e' = fv e) /\ (forall l l', irels l l' -> fvs l' = fvs l).
  Proof.
    apply irel_irels_ind; cbn [fv fvs]; try (intros; congruence).
    (* IR_Inl: the inlined definition is closed *)
    intros g xs b0 b0' a a' Hg _ IHb _ IHa. rewrite IHa, IHb.
    pose proof (Hclosed _ _ _ Hg) as C. cbn [fv] in C. rewrite C. reflexivity.
  Qed.
  Definition irel_fv := proj1 irel_fv_both.

  Definition prot : list string := map fst D.

  Definition Gok (G G' : env) : Prop :=
    erel G G' /\ forall g xs b0, lookup g D = Some (xs, b0) -> lookup g G = Some (VClo xs b0 []).

  Lemma Gok_update G G' g v v' :
    Gok G G' -> vrel v v' -> mem g prot = false -> Gok (update g v G) (update g v' G').
  Proof.
    intros [HR HD] Hv Hm. split; [apply (E_update _ _ _ rel_ok_irel); auto|].
    intros g0 xs b0 L. rewrite lookup_update_neq; [apply HD; auto|].
    intros ->. apply lookup_mem in L. unfold prot in Hm. congruence.
  Qed.

  Lemma Gok_lookup g G G' : Gok G G' -> optR vrel (lookup g G) (lookup g G').
  Proof. intros [H _]. exact (E_lookup _ _ _ rel_ok_irel g G G' H). Qed.

  (* the global still holds the closure of its definition; the literal that replaces it evaluates to a related closure *)
  Lemma sim_inlined n ρ ρ' g xs b0 b0' :
    lookup g D = Some (xs, b0) -> irel b0 b0' -> simE prot vrel Gok n ρ ρ' (Glob g) (Lam xs b0').
  Proof.
    intros Hg Hb. destruct n as [|n]; [apply simE_O|]. intros G G' HG.
    assert (F : fv (Lam xs b0') = fv (Lam xs b0)) by (apply irel_fv; constructor; exact Hb).
    rewrite eval_Glob, (proj2 HG _ _ _ Hg), eval_Lam, F, (Hclosed _ _ _ Hg), restrict_nil.
    apply out_ret; [constructor; [exact Hb|constructor]|exact HG].
  Qed.

  Lemma sim : forall n, sims prot vrel erel Gok irel n /\
    forall l l', irels l l' -> forall ρ ρ', erel ρ ρ' -> simEs prot vrel Gok n ρ ρ' l l'.
  Proof.
    induction n as [|n [IHe IHs]]; [split; intros ? ? _ ? ? _; [apply simE_O|apply simEs_O]|].
    split.
    - intros e e' Hi ρ ρ' Hρ. destruct Hi.
      + eapply simE_Num, rel_ok_irel.
      + eapply simE_Bool, rel_ok_irel.
      + eapply simE_Loc; [exact rel_ok_irel|exact Hρ].
      + apply simE_Glob. intros G G'. apply Gok_lookup.
      + eapply simE_Lam; [exact rel_ok_irel|exact Hi|apply irel_fv, Hi|exact Hρ].
      + (* IR_Call *)
        eapply simE_Call; [exact rel_ok_irel|exact IHe|apply IHs; assumption|apply IHe; assumption].
      + (* IR_Inl *)
        eapply simE_Call; [exact rel_ok_irel|exact IHe|apply IHs; assumption|eapply sim_inlined; eassumption].
      + eapply simE_If; [exact rel_ok_irel|..]; apply IHe; assumption.
      + apply simE_Let; [apply IHe; assumption|]. intros v v' Hv. apply IHe; [assumption|constructor; assumption].
      + eapply simE_Add; [exact rel_ok_irel|..]; apply IHe; assumption.
      + apply simE_SetG; [intros G G'; apply Gok_lookup|intros; apply Gok_update; assumption|apply IHe; assumption].
    - intros l l' Hi ρ ρ' Hρ. destruct Hi; [apply simEs_Nil|apply simEs_Cons; [apply IHe|apply IHs]; assumption].
  Qed.

  Theorem inline_preserves : forall k n G G' ρ ρ' e r G1,
    Gok G G' -> erel ρ ρ' ->
    eval prot n G ρ e = Some (r, G1) -> r <> Viol ->
    exists r' G1', eval [] n G' ρ' (inline_rec k D (inline D e)) = Some (r', G1') /\ rrel r r' /\ Gok G1 G1'.
  Proof.
    intros k n G G' ρ ρ' e r G1 HG Hρ H Hr.
    destruct (proj1 (sim n) e _ (inline_rec_irel (S k) e e (irel_refl e)) ρ ρ' Hρ G G' HG r G1 H Hr)
      as (r' & G1' & E' & Rr & HG1).
    exists r', G1'. split; [exact E'|]. split; [apply rrel_resR; exact Rr|exact HG1].
  Qed.
End Sim.

(* (define f (lambda () 1)) (define g (lambda () (f))) ; (set! f (lambda () 2)) ; (g)
   With f inlined into g, the later assignment is not seen: the reference meaning is 2. *)
Definition wit_D : defs := [("f", ([], Num 1))].
Definition wit_G (gbody : exp) : env :=
  [("f", VClo [] (Num 1) []); ("g", VClo [] gbody [])].
Definition wit_prog : exp :=
  Let "_" (SetG "f" (Lam [] (Num 2))) (Call (Glob "g") ENil).

