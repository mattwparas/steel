(* C19 -- the property theorems; the heap model and the lemmas are those of C04 (Pins_C19.v checks each statement). *)
From Coq Require Import Lia.
From Coq Require Import String List Arith Bool ZArith NArith.
From SV Require Import gen.Gen_C04 c04.Model_C04 c04.Proofs_C04.
Import ListNotations.

(* a dropped host root stops being a root: RootToken::drop frees its entry unconditionally (generated fact) *)
Theorem host_root_drop_frees : root_token_drop_frees = true.
Proof. reflexivity. Qed.

Theorem mark_queue_is_cleared : mark_queue_cleared = true.
Proof. reflexivity. Qed.

Theorem constants_ok : 20 < init_slots /\ 20 < extend_chunk /\ 0 < reset_limit /\ full_pct = 95.
Proof. repeat split; try reflexivity; apply Nat.ltb_lt; reflexivity. Qed.

(* after the mark phase of a full collection a slot is flagged iff the program can reach it: garbage
   -- acyclic, cycles of any length, self references, anything referenced only from values that are
   no longer roots -- is unflagged, i.e. handed out again by allocate *)
Theorem sweep_complete : forall h r h' nb nv,
  mark marker_par (reset_marks h) r = Ok (h', nb, nv) ->
  forall x, flagged h' x = true <-> (reach h (all_roots r) x).
Proof. intros h r h' nb nv Hm x. apply (mark_spec h r h' nb nv Hm x). Qed.

(* count bookkeeping: alloc_count = number of unflagged slots is kept by grow_by, allocate, weak_collection, compact *)
Theorem count_exact_grow : forall amount f, counted f -> counted (fl_grow_by amount f).
Proof.
  intros amount f H. unfold counted, fl_grow_by in *. cbn [free_cnt slots].
  rewrite count_dead_app, count_dead_fresh. lia.
Qed.
Theorem count_exact_allocate : forall chunk v f a f',
  cursor_free f -> counted f -> fl_allocate chunk v f = Ok (a, f') -> counted f'.
Proof.
  intros chunk v f a f' [s0 [Hs0 Hl]] Hcnt H.
  destruct (fl_allocate_cases _ _ _ _ _ H) as [s [fc [Hs [Hfc [_ C]]]]]. cbv zeta in C.
  rewrite Hs0 in Hs. injection Hs as ->.
  assert (Hc : S (count_dead (set_nth (cursor f) {| sid := sid s; live := true; sval := v |} (slots f))) = count_dead (slots f))
    by (eapply count_dead_set_nth; [exact Hs0|exact Hl|reflexivity]).
  unfold counted in Hcnt.
  destruct C as [[k [s' [_ [_ ->]]]] | [-> ->]]; [|apply count_exact_grow];
    unfold counted; cbn [free_cnt slots with_cursor with_free with_slots]; lia.
Qed.
Theorem count_exact_weak : forall held f, counted f -> counted (fl_weak held f).
Proof.
  intros held f H. unfold counted, fl_weak in *. cbn [free_cnt slots with_free with_slots]. rewrite H. clear H.
  unfold count_dead. induction (slots f) as [|s t IH]; cbn [map filter length]; [reflexivity|].
  destruct (held (sid s)) eqn:Eh; cbn [live negb andb].
  - rewrite andb_false_r. destruct (negb (live s)); cbn [length]; lia.
  - rewrite andb_true_r. destruct (live s); cbn [negb length]; lia.
Qed.
Theorem count_exact_compact : forall chunk f, counted (fl_compact chunk f).
Proof.
  intros chunk f. unfold fl_compact, fl_grow. apply count_exact_grow. unfold counted. cbn [free_cnt slots].
  symmetry. apply count_dead_filter_live.
Qed.

(* allocate extends the slot vector only when it has just used the last free slot *)
Theorem reuse_before_growth : forall chunk v f a f',
  counted f -> fl_allocate chunk v f = Ok (a, f') ->
  length (slots f') = length (slots f) \/
  (count_dead (slots f) = 1 /\ f' = fl_grow chunk (with_free (with_slots f (set_nth (cursor f) {| sid := a; live := true; sval := v |} (slots f))) 0)).
Proof.
  intros chunk v f a f' Hcnt H.
  destruct (fl_allocate_cases _ _ _ _ _ H) as [s [fc [_ [Hfc [-> C]]]]]. cbv zeta in C.
  destruct C as [[k [s' [_ [_ ->]]]] | [-> ->]].
  - left. apply length_set_nth.
  - right. split; [unfold counted in Hcnt; lia | reflexivity].
Qed.

(* the growth policy of the collections (grow while grow_count <= RESET_LIMIT, else compact to the
   flagged slots and extend once), as the transition system size_step of Proofs_C04.v, which no lemma relates
   to the heap operations: for every number of steps the length stays below
   bound(L) = max(init, 2L, L + chunk) * 2^RESET_LIMIT when compactions keep at most L slots.
   (Nat.max 0 init, 1) is (length, grow_count) of fl_new init. *)
Theorem bounded_growth : forall init chunk limit L ops len gc,
  fold_left (fun p o => size_step chunk limit o p) ops (Nat.max 0 init, 1) = (len, gc) ->
  (forall pre o post, ops = pre ++ o :: post ->
     size_ok limit L o (fold_left (fun p o => size_step chunk limit o p) pre (Nat.max 0 init, 1))) ->
  len <= bound init chunk limit L.
Proof.
  intros init chunk limit L ops len gc Hf Hok. set (B := Nat.max init (Nat.max (2 * L) (L + chunk))).
  destruct (size_inv_run chunk limit L B) with (4 := Hok) as [_ [Hl Hgl]]; try (unfold B; lia).
  { unfold size_inv. cbn [fst snd Nat.sub Nat.pow]. unfold B. lia. }
  rewrite Hf in Hl, Hgl. cbn [fst snd] in Hl, Hgl.
  unfold bound. fold B. apply (Nat.le_trans _ _ _ Hl), Nat.mul_le_mono_l, Nat.pow_le_mono_r; lia.
Qed.

(* a weak box whose target is not reachable reports so after the mark phase of a full collection *)
Theorem weak_box_clears : forall h r h' nb nv a,
  mark marker_par (reset_marks h) r = Ok (h', nb, nv) ->
  ~ reach h (all_roots r) (HB a) -> weak_value h' a = None.
Proof.
  intros h r h' nb nv a Hm Hn. destruct (mark_spec h r h' nb nv Hm (HB a)) as [_ F].
  unfold weak_value, flagged in *. destruct (lookup h' (HB a)) as [s|]; [|reflexivity].
  destruct (live s); [|reflexivity]. destruct Hn. apply F. reflexivity.
Qed.
