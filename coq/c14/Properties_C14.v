(* C14 — the property theorems (Pins_C14.v checks each statement). *)
From Coq Require Import List Bool String Ascii Arith.
From SV Require Import gen.Gen_C14 c14.Model_C14 c14.Proofs_C14 lib.ListFacts.
Import ListNotations.

(* the mangled global of (module id, name) determines both, for EVERY name x (ids are digit strings and
   the generated separator starts with a non-digit) *)
Theorem C14_mangle_injective : forall i j x y,
  all_digits i = true -> all_digits j = true ->
  mangle i x = mangle j y -> i = j /\ x = y.
Proof. exact mangle_injective. Qed.

(* private definitions of different modules never coincide, even when they share a spelling *)
Theorem C14_private_disjoint : forall i j x y,
  all_digits i = true -> all_digits j = true -> i <> j -> mangle i x <> mangle j y.
Proof. exact private_disjoint. Qed.

(* nor does any identifier of the requiring program, unless it starts with the reserved prefix (side
   condition explicit: spelling such a name is the known finding C14-MANGLED-SPELLING) *)
Theorem C14_main_disjoint : forall u i x, starts_with mangler_prefix u = false -> u <> mangle i x.
Proof.
  intros u i x H E. subst u. unfold mangle, module_prefix_of in H.
  rewrite !append_assoc_s in H. rewrite starts_with_app in H. discriminate H.
Qed.

(* the set of defines a require expands to = image of the provides under the modifiers *)
Theorem C14_in_require_defines : forall ro provides v p,
  In (v, p) (require_defines ro provides) <->
  In p provides /\ selected ro p = true /\ v = visible_name ro p.
Proof.
  intros ro provides v p. unfold require_defines. rewrite in_map_iff. split.
  - intros [q [E Hq]]. inversion E; subst. apply filter_In in Hq. tauto.
  - intros [H1 [H2 H3]]. exists p. subst v. split; [reflexivity |]. apply filter_In. tauto.
Qed.

(* nothing else of the module: whatever an identifier resolves to inside the module is a provided name
   selected by the only-in list, under its alias and prefix *)
Theorem C14_visible_sound : forall id defs ro provides main_defs u q,
  starts_with mangler_prefix u = false ->
  lookup u (program_env id defs ro provides main_defs) = Some (ModVal id q) ->
  In q provides /\ selected ro q = true /\ u = visible_name ro q.
Proof.
  intros id defs ro provides main_defs u q Hu H. apply lookup_in in H.
  unfold program_env in H. apply in_app_or in H. destruct H as [H | H].
  - unfold module_env in H. apply in_map_iff in H. destruct H as [x [E _]]. inversion E; subst.
    exfalso. exact (C14_main_disjoint (mangle id q) id q Hu eq_refl).
  - apply in_app_or in H. destruct H as [H | H].
    + apply in_map_iff in H. destruct H as [[v p] [E Hin]]. cbn in E. inversion E; subst.
      apply C14_in_require_defines in Hin. exact Hin.
    + apply in_map_iff in H. destruct H as [d [E _]]. discriminate E.
Qed.

(* exactly the provides: every provided, selected name is reachable under its visible name *)
Theorem C14_visible_complete : forall id defs ro provides main_defs p,
  In p provides -> selected ro p = true -> ~ In (visible_name ro p) main_defs ->
  exists q, lookup (visible_name ro p) (program_env id defs ro provides main_defs) = Some (ModVal id q) /\
            In q provides /\ selected ro q = true /\ visible_name ro q = visible_name ro p.
Proof.
  intros id defs ro provides main_defs p Hp Hs Hm. unfold program_env. rewrite !lookup_app.
  rewrite (lookup_unbound _ (map _ main_defs)).
  2:{ intros v H. apply in_map_iff in H. destruct H as [d [E Hd]]. inversion E; subst. exact (Hm Hd). }
  (* the last binding of the name among those of the require *)
  destruct (lookup_bound (visible_name ro p) (map (fun vp => (fst vp, ModVal id (snd vp))) (require_defines ro provides))
              (ModVal id p)) as [w E].
  { apply in_map_iff. exists (visible_name ro p, p). split; [reflexivity |]. apply C14_in_require_defines. auto. }
  rewrite E. apply lookup_in, in_map_iff in E. destruct E as [[v q] [E Hq]]. cbn in E. inversion E; subst.
  apply C14_in_require_defines in Hq. exists q. split; [reflexivity |]. destruct Hq as [H1 [H2 H3]]. auto.
Qed.

(* for every module graph, every history of requests (successful or failing to compile) and every depth budget
   of the traversal (at budget 0 visit compiles nothing and the claim is empty): no module body runs twice, and
   the table holds exactly the modules whose body ran.  At most once; that a module runs at all is the next
   statement. *)
Theorem C14_once : forall fuel g h,
  NoDup (runs (run_requests fuel g h)) /\
  forall m, In m (table (run_requests fuel g h)) <-> In m (runs (run_requests fuel g h)).
Proof. exact once. Qed.

(* a module that a compiling program requires directly has run after the request, for a budget of at least 1 and
   a world in the condition C14_once establishes; modules reached only through other modules' requires are not
   covered by this statement *)
Theorem C14_at_least_once : forall f g w ms m,
  (NoDup (runs w) /\ forall m, In m (table w) <-> In m (runs w)) -> In m ms ->
  In m (runs (request (S f) g w (ms, true))).
Proof.
  intros f g w ms m Hw Hm.
  destruct (request_W (S f) g w (ms, true) Hw) as [_ Hiff]. apply Hiff.
  unfold request. cbn [fst snd table].
  apply in_split in Hm. destruct Hm as (l1 & l2 & ->). rewrite fold_left_app. cbn [fold_left].
  apply (fold_left_inv _ _ (fun s => In m (fst s)) _ (fun a k => visit_mono (S f) g k a m)), visit_adds.
Qed.

(* what gen/Gen_C14.v reads from modules.rs on every run: the separator starts with a non-digit, a module prefix
   is MANGLER_PREFIX, the id, the separator (CompiledModule::new), NameMangler::visit_atom prepends it, a failed
   compile_raw_program restores the compiled-module table, ModuleBuilder::compile skips a cached module *)
Theorem C14_gen_facts : sep_ok = true /\ prefix_is_id_then_sep = true /\ mangler_prepends_prefix = true /\
  snapshot_rollback = true /\ cache_hit_skips = true.
Proof. exact (conj gen_sep_ok gen_shapes). Qed.

(* non-vacuity: a diamond, a failed compilation in between *)
Theorem C14_once_example : let g := fun m => match m with 2 => [0; 1] | 1 => [0] | 3 => [1; 2] | _ => [] end in
  runs (run_requests 8 g [([1], true); ([3; 9], false); ([2; 1], true); ([3], true); ([0; 3], true)]) = [0; 1; 2; 3].
Proof. vm_compute. reflexivity. Qed.
