From Coq Require Import List Bool String Ascii Arith.
From SV Require Import gen.Gen_C14 c14.Model_C14 lib.ListFacts.
Import ListNotations.
Open Scope string_scope.

Lemma append_inv_head : forall p a b : string, p ++ a = p ++ b -> a = b.
Proof.
  induction p as [| c p IH]; intros a b H; cbn in H; [exact H |].
  injection H as H. apply IH. exact H.
Qed.

Lemma append_assoc_s : forall a b c : string, (a ++ b) ++ c = a ++ (b ++ c).
Proof. induction a as [| x a IH]; intros b c; cbn; [reflexivity | rewrite IH; reflexivity]. Qed.

Lemma starts_with_app : forall p s, starts_with p (p ++ s) = true.
Proof.
  induction p as [| c p IH]; intros s; cbn; [reflexivity |].
  rewrite Ascii.eqb_refl. cbn. apply IH.
Qed.

(* digits, then something that starts with a non-digit: the split point is determined *)
Lemma digits_split : forall i j (c : ascii) r1 r2,
  all_digits i = true -> all_digits j = true -> is_digit c = false ->
  i ++ String c r1 = j ++ String c r2 -> i = j /\ r1 = r2.
Proof.
  induction i as [| a i IH]; intros j c r1 r2 Hi Hj Hc H.
  - destruct j as [| b j]; cbn in H.
    + injection H as H. auto.
    + injection H as Hcb _. subst b. cbn in Hj. rewrite Hc in Hj. discriminate Hj.
  - destruct j as [| b j]; cbn in H.
    + injection H as Hac _. subst a. cbn in Hi. rewrite Hc in Hi. discriminate Hi.
    + injection H as Hab H. subst b. cbn in Hi, Hj.
      apply andb_true_iff in Hi. apply andb_true_iff in Hj.
      destruct (IH j c r1 r2 (proj2 Hi) (proj2 Hj) Hc H) as [E1 E2]. subst. auto.
Qed.

Lemma sep_shape : sep_ok = true ->
  exists c r, mangler_separator = String c r /\ is_digit c = false.
Proof.
  unfold sep_ok. destruct mangler_separator as [| c r]; intros H; [discriminate H |].
  exists c, r. split; [reflexivity |]. apply negb_true_iff. exact H.
Qed.

Lemma gen_sep_ok : sep_ok = true.
Proof. vm_compute. reflexivity. Qed.

Lemma gen_shapes : prefix_is_id_then_sep = true /\ mangler_prepends_prefix = true /\
                   snapshot_rollback = true /\ cache_hit_skips = true.
Proof. repeat split; reflexivity. Qed.

Lemma mangle_injective : forall i j x y,
  all_digits i = true -> all_digits j = true ->
  mangle i x = mangle j y -> i = j /\ x = y.
Proof.
  intros i j x y Hi Hj H. unfold mangle, module_prefix_of in H.
  rewrite !append_assoc_s in H. apply append_inv_head in H.
  destruct (sep_shape gen_sep_ok) as [c [r [Es Hc]]]. rewrite Es in H. cbn [append] in H.
  destruct (digits_split i j c (r ++ x) (r ++ y) Hi Hj Hc H) as [E1 E2].
  split; [exact E1 |]. apply append_inv_head in E2. exact E2.
Qed.

Lemma private_disjoint : forall i j x y,
  all_digits i = true -> all_digits j = true -> i <> j -> mangle i x <> mangle j y.
Proof.
  intros i j x y Hi Hj Hne E. destruct (mangle_injective i j x y Hi Hj E) as [E1 _]. contradiction.
Qed.

Lemma lookup_in : forall u env v, lookup u env = Some v -> In (u, v) env.
Proof.
  intros u env v H. unfold lookup in H.
  destruct (find (fun b => String.eqb (fst b) u) (rev env)) as [b |] eqn:E; [| discriminate H].
  inversion H; subst v. apply find_some in E. destruct E as [Hin Heq].
  apply String.eqb_eq in Heq. apply in_rev in Hin. destruct b as [k w]. cbn in *. subst k. exact Hin.
Qed.

Lemma lookup_app : forall u e1 e2,
  lookup u (e1 ++ e2) = match lookup u e2 with Some v => Some v | None => lookup u e1 end.
Proof.
  intros u e1 e2. unfold lookup. rewrite rev_app_distr.
  induction (rev e2) as [| a l IH]; cbn; [reflexivity |]. destruct (String.eqb (fst a) u); [reflexivity | exact IH].
Qed.

Lemma lookup_bound : forall u env v, In (u, v) env -> exists w, lookup u env = Some w.
Proof.
  intros u env v H. unfold lookup.
  destruct (find (fun b => String.eqb (fst b) u) (rev env)) as [b |] eqn:E; [eauto |].
  apply in_rev in H. apply (find_none _ _ E) in H. cbn in H. rewrite String.eqb_refl in H. discriminate H.
Qed.

Lemma lookup_unbound : forall u env, (forall v, ~ In (u, v) env) -> lookup u env = None.
Proof.
  intros u env H. destruct (lookup u env) as [v |] eqn:E; [| reflexivity]. apply lookup_in in E. destruct (H v E).
Qed.

Lemma NoDup_snoc : forall (a : nat) l, NoDup l -> ~ In a l -> NoDup (l ++ [a]).
Proof. intros a l H1 H2. apply (NoDup_Add (Add_app a l [])). rewrite app_nil_r. auto. Qed.

Lemma in_table_iff : forall m t, in_table m t = true <-> In m t.
Proof. exact (existsb_eqb_In _ Nat.eqb_eq). Qed.

(* K r0 s: r0 being the bodies that ran before this request, the bodies that ran or are emitted (r0 ++ snd s) hold
   no module twice and are exactly the table *)
Definition K (r0 : list nat) (s : cstate) : Prop :=
  NoDup (r0 ++ snd s) /\ forall m, In m (fst s) <-> In m (r0 ++ snd s).

Lemma visit_K : forall fuel g m r0 s, K r0 s -> K r0 (visit fuel g m s).
Proof.
  induction fuel as [| f IH]; intros g m r0 s Hs; cbn [visit]; [exact Hs |].
  destruct (cache_hit_skips && in_table m (fst s)); [exact Hs |].
  assert (Hfold := fold_left_inv _ _ (K r0) (fun a d => visit f g d a) (fun a d => IH g d r0 a) (g m) s Hs).
  set (s' := fold_left (fun a d => visit f g d a) (g m) s) in *.
  destruct (in_table m (fst s')) eqn:E; [exact Hfold |].
  destruct Hfold as [Hnd Hiff].
  assert (Hnot : ~ In m (r0 ++ snd s')) by (rewrite <- Hiff, <- in_table_iff; congruence).
  unfold K. cbn [fst snd]. rewrite app_assoc. split; [exact (NoDup_snoc m _ Hnd Hnot) |].
  intros m0. cbn [In]. rewrite in_app_iff, Hiff. cbn [In]. tauto.
Qed.

Definition W (w : world) : Prop :=
  NoDup (runs w) /\ forall m, In m (table w) <-> In m (runs w).

Lemma request_W : forall fuel g w r, W w -> W (request fuel g w r).
Proof.
  intros fuel g w r Hw. unfold request.
  assert (H0 : K (runs w) (table w, [])) by (unfold K; cbn [fst snd]; rewrite app_nil_r; exact Hw).
  assert (Hfold := fold_left_inv _ _ (K (runs w)) (fun a m => visit fuel g m a)
                     (fun a m => visit_K fuel g m (runs w) a) (fst r) _ H0).
  destruct (snd r); [exact Hfold | exact Hw].
Qed.

Lemma once : forall fuel g h,
  NoDup (runs (run_requests fuel g h)) /\
  forall m, In m (table (run_requests fuel g h)) <-> In m (runs (run_requests fuel g h)).
Proof.
  intros fuel g h. apply (fold_left_inv _ _ W (request fuel g) (request_W fuel g)). split; [constructor | tauto].
Qed.

Lemma visit_adds : forall f g m s, In m (fst (visit (S f) g m s)).
Proof.
  intros f g m s. cbn [visit].
  destruct (cache_hit_skips && in_table m (fst s)) eqn:E.
  - apply andb_true_iff in E. apply in_table_iff. exact (proj2 E).
  - set (s' := fold_left (fun a d => visit f g d a) (g m) s).
    destruct (in_table m (fst s')) eqn:E2; [apply in_table_iff; exact E2 | left; reflexivity].
Qed.

Lemma visit_mono : forall fuel g m s x, In x (fst s) -> In x (fst (visit fuel g m s)).
Proof.
  induction fuel as [| f IH]; intros g m s x Hx; cbn [visit]; [exact Hx |].
  destruct (cache_hit_skips && in_table m (fst s)); [exact Hx |].
  assert (Hfold := fold_left_inv _ _ (fun s0 => In x (fst s0)) (fun a d => visit f g d a)
                     (fun a d => IH g d a x) (g m) s Hx).
  cbv beta in Hfold.
  destruct (in_table m (fst (fold_left (fun a d => visit f g d a) (g m) s))); [exact Hfold | right; exact Hfold].
Qed.

