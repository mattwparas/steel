(* C13 — lemmas: the occurrences the resolution view looks at are drawn from the identifier atoms of the
   program and never have a keyword spelling; programs without a spelling shared between origins. *)
From Coq Require Import List String Ascii Bool Arith Lia.
From SV Require Import c13.Model_C13 c13.Proofs_C13 c13.Proofs3_C13.
Import ListNotations.
Open Scope string_scope.
Open Scope list_scope.
Open Scope nat_scope.

Fixpoint ids (e : sx) : list ident :=
  match e with
  | Id s o | UId s o => [(s, o)]
  | Lit _ => []
  | SL xs _ => flat_map ids xs
  end.

Lemma ids_elem : forall xs imp e, In e xs -> incl (ids e) (ids (SL xs imp)).
Proof. intros xs imp e H z Hz. apply in_flat_map. eauto. Qed.

(* the head of a list form selects the core form whatever the flag of the head identifier *)
Lemma occs_UId : forall g h o args imp, occs g (SL (UId h o :: args) imp) = occs g (SL (Id h o :: args) imp).
Proof. reflexivity. Qed.

(* Whatever holds of every identifier atom of a form and of every binder of the ambient scope holds of every
   occurrence the resolution looks at and of every binder in its scope; an occurrence never has a keyword
   spelling. *)
Section Closed.
  Variable P : ident -> Prop.
  Definition over (e : sx) : Prop := forall v, In v (ids e) -> P v.
  Definition good (o : ident * list ident) : Prop :=
    mem (fst (fst o)) TOKENS = false /\ P (fst o) /\ Forall P (snd o).
  Definition occs_good (e : sx) : Prop := over e -> forall g, Forall P g -> Forall good (occs g e).

  Lemma over_SL : forall xs imp, over (SL xs imp) <-> Forall over xs.
  Proof.
    intros xs imp. rewrite Forall_forall. split.
    - intros H x Hx v Hv. apply H, (ids_elem xs imp x Hx), Hv.
    - intros H v Hv. apply in_flat_map in Hv. destruct Hv as [x [Hx Hv]]. exact (H x Hx v Hv).
  Qed.

  Lemma binders_good : forall l g, Forall over l -> Forall P g -> Forall P (binders_of l ++ g).
  Proof.
    intros l g Hl Hg. apply Forall_app. split; [|exact Hg]. apply Forall_forall. intros b Hb.
    apply in_flat_map in Hb. destruct Hb as [e [He Hb]]. rewrite Forall_forall in Hl.
    destruct e as [s o|s o|s|xs imp]; unfold ident_of in Hb; try contradiction;
      (destruct (mem s TOKENS); [contradiction|]; destruct Hb as [<-|[]]; apply (Hl _ He); left; reflexivity).
  Qed.

  Lemma def_scope_good : forall g x, over x -> Forall P g -> Forall P (def_scope g x).
  Proof.
    intros g x Hx Hg. unfold def_scope.
    destruct x as [s o|s o|s|[|[h o|h o|h|hx hi] [|nm more]] imp]; try exact Hg.
    1-2: (destruct (mem h DEFINES); [|exact Hg]; apply over_SL in Hx;
          pose proof (Forall_inv (Forall_inv_tail Hx)) as Hn;
          destruct nm as [s1 o1|s1 o1|s1|[|f fs] imp1]; apply binders_good; try exact Hg;
          repeat constructor; try exact Hn; apply over_SL in Hn; exact (Forall_inv Hn)).
  Qed.

  Definition fine (e : sx) : Prop := over e /\ occs_good e.

  Lemma occs_seq_good : forall l, Forall fine l -> forall g, Forall P g -> Forall good (occs_seq occs g l).
  Proof.
    induction l as [|x r IH]; intros Hl g Hs; [constructor|]. cbn [occs_seq].
    destruct (Forall_inv Hl) as [Ho Hg]. pose proof (def_scope_good g x Ho Hs) as Hs'.
    apply Forall_app. split; [apply (Hg Ho _ Hs')|apply (IH (Forall_inv_tail Hl) _ Hs')].
  Qed.

  Lemma occs_inits_good : forall g l, Forall P g -> Forall over l ->
    (forall a v more imp, In (SL (a :: v :: more) imp) l -> occs_good v) ->
    Forall good (occs_inits occs g l).
  Proof.
    intros g l Hg. induction l as [|p r IH]; intros Ho HP; [constructor|].
    specialize (IH (Forall_inv_tail Ho) (fun a v more imp H => HP a v more imp (or_intror H))).
    destruct p as [s o'|s o'|s|[|a [|v more]] imp]; cbn [occs_inits]; try exact IH.
    apply Forall_app. split; [|exact IH]. apply (HP a v more imp (or_introl eq_refl)); [|exact Hg].
    exact (Forall_inv (Forall_inv_tail (proj1 (over_SL _ _) (Forall_inv Ho)))).
  Qed.

  Lemma let_names_over : forall l, Forall over l -> Forall over (let_names l).
  Proof.
    induction l as [|e r IH]; intro H; [constructor|]. specialize (IH (Forall_inv_tail H)).
    destruct e as [s o|s o|s|[|nm more] imp]; cbn [let_names]; try exact IH.
    constructor; [|exact IH]. exact (Forall_inv (proj1 (over_SL _ _) (Forall_inv H))).
  Qed.

  (* by induction on the depth: the initialisers of a let are grand-children of the form *)
  Lemma occs_good_all : forall n e, depth e <= n -> occs_good e.
  Proof.
    induction n as [|n IH]; intros e Hd; [pose proof (depth_pos e); lia|].
    destruct e as [s o|s o|s|xs imp]; intros Ho g Hg.
    1-2: (cbn [occs]; unfold ident_of; destruct (mem s TOKENS) eqn:Et; constructor; [|constructor];
          split; [exact Et|split; [apply Ho; left; reflexivity|exact Hg]]).
    - constructor.
    - apply over_SL in Ho.
      assert (Hx : Forall fine xs).
      { apply Forall_forall. intros x Hx. split; [exact (proj1 (Forall_forall _ _) Ho x Hx)|].
        apply IH. pose proof (depth_elem xs imp x Hx). lia. }
      assert (Hini : forall prs im, In (SL prs im) xs -> Forall good (occs_inits occs g prs)).
      { intros prs im Hl. apply occs_inits_good; [exact Hg|apply (over_SL prs im), (proj1 (Forall_forall _ _) Ho), Hl|].
        intros a v more i0 Hp. apply IH.
        pose proof (depth_elem xs imp _ Hl). pose proof (depth_elem prs im _ Hp).
        pose proof (depth_elem (a :: v :: more) i0 v (or_intror (or_introl eq_refl))). lia. }
      assert (Hnames : forall prs im, over (SL prs im) -> Forall over (let_names prs)).
      { intros prs im H. apply let_names_over, (over_SL prs im), H. }
      destruct xs as [|hd args]; [constructor|].
      pose proof (Forall_inv_tail Hx) as Ha. pose proof (Forall_inv_tail Ho) as Hoa.
      assert (Hcore : forall h o, fine (Id h o) -> Forall good (occs g (SL (Id h o :: args) imp))).
      { intros h o Hh. cbn [occs].
        assert (Hdef : Forall good (occs_seq occs g (Id h o :: args))).
        { apply occs_seq_good; [constructor|]; assumption. }
        destruct (String.eqb h "quote"); [constructor|].
        destruct (mem h LAMBDAS).
        { destruct args as [|a1 body]; [constructor|].
          destruct a1 as [s1 o1|s1 o1|s1|ps pi]; (apply occs_seq_good; [exact (Forall_inv_tail Ha)|]);
            apply binders_good; try exact Hg; [..|apply (over_SL ps pi), (Forall_inv Hoa)];
            (constructor; [exact (Forall_inv Hoa)|constructor]). }
        destruct (mem h LETS).
        { destruct args as [|a1 rest]; [constructor|].
          destruct a1 as [s1 o1|s1 o1|s1|prs pim].
          1-3: (destruct rest as [|[s2 o2|s2 o2|s2|prs pim] body]; try constructor;
                apply Forall_app; split; [apply (Hini prs pim); right; right; left; reflexivity|];
                apply occs_seq_good; [exact (Forall_inv_tail (Forall_inv_tail Ha))|];
                apply binders_good; [exact (Hnames prs pim (Forall_inv (Forall_inv_tail Hoa)))|];
                apply binders_good; [|exact Hg]; constructor; [exact (Forall_inv Hoa)|constructor]).
          apply Forall_app. split; [apply (Hini prs pim); right; left; reflexivity|].
          apply occs_seq_good; [exact (Forall_inv_tail Ha)|].
          apply binders_good; [exact (Hnames prs pim (Forall_inv Hoa))|exact Hg]. }
        destruct (mem h DEFINES); [|exact Hdef].
        destruct args as [|a1 body]; [constructor|].
        destruct a1 as [s1 o1|s1 o1|s1|[|f ps] pim]; (apply occs_seq_good; [exact (Forall_inv_tail Ha)|]); try exact Hg.
        apply binders_good; [|exact Hg]. exact (Forall_inv_tail (proj1 (over_SL _ _) (Forall_inv Hoa))). }
      destruct hd as [h o|h o|s|ys yi];
        [apply Hcore, (Forall_inv Hx)|rewrite occs_UId; apply Hcore, (Forall_inv Hx)|..]; apply occs_seq_good; assumption.
  Qed.
End Closed.

Lemma occs_top : forall e o, In o (occs [] e) ->
  mem (fst (fst o)) TOKENS = false /\ In (fst o) (ids e) /\ incl (snd o) (ids e).
Proof.
  intros e o Ho.
  pose proof (occs_good_all (fun v => In v (ids e)) (depth e) e (le_n _) (fun v H => H) [] (Forall_nil _)) as H.
  destruct (proj1 (Forall_forall _ _) H o Ho) as [H1 [H2 H3]]. rewrite Forall_forall in H3. auto.
Qed.

Lemma no_shared_spelling_nt : forall e,
  (forall v b, In v (ids e) -> In b (ids e) -> mem (fst v) TOKENS = false -> fst v = fst b -> snd v = snd b) ->
  known_class e = false.
Proof.
  intros e H. apply known_class_intro. intros o b Ho Hb Hs.
  destruct (occs_top e o Ho) as [Hnt [H1 H2]]. symmetry. apply (H (fst o) b H1 (H2 b Hb) Hnt Hs).
Qed.
