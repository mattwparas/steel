(* C13 — lemmas: an explicit fuel bound for template instantiation. *)
From Coq Require Import List String Ascii Bool Arith Lia.
From SV Require Import c13.Model_C13 c13.Proofs_C13.
Import ListNotations.
Open Scope string_scope.
Open Scope list_scope.
Open Scope nat_scope.

Fixpoint fatoms (e : sx) : list (bool * string) :=
  match e with
  | Id s _ => [(false, s)]
  | UId s _ => [(true, s)]
  | Lit _ => []
  | SL xs _ => flat_map fatoms xs
  end.

Definition dmax (l : list nat) : nat := fold_right Nat.max 0 l.
Fixpoint depth (e : sx) : nat :=
  match e with
  | SL xs _ => S (dmax (map depth xs))
  | _ => 1
  end.

(* dmax is the standard list_max *)
Lemma dmax_le : forall l n, In n l -> n <= dmax l.
Proof. intros l n H. exact (proj1 (Forall_forall _ _) (proj1 (list_max_le l (dmax l)) (le_n _)) n H). Qed.
Lemma depth_elem : forall xs imp e, In e xs -> depth e < depth (SL xs imp).
Proof. intros xs imp e H. cbn. apply le_n_S. apply dmax_le. apply in_map. exact H. Qed.
Lemma depth_SL_bound : forall xs imp b, (forall e, In e xs -> depth e <= b) -> depth (SL xs imp) <= S b.
Proof. intros xs imp b H. cbn. apply le_n_S. apply list_max_le, Forall_map, Forall_forall, H. Qed.
Lemma depth_SL_mono : forall xs imp xs2 imp2, (forall e, In e xs2 -> depth e < depth (SL xs imp)) ->
  depth (SL xs2 imp2) <= depth (SL xs imp).
Proof.
  intros xs imp xs2 imp2 H. change (depth (SL xs imp)) with (S (dmax (map depth xs))) in *.
  apply (depth_SL_bound _ _ (dmax (map depth xs))). intros e He. specialize (H e He). lia.
Qed.
Lemma depth_pos : forall e, 1 <= depth e.
Proof. destruct e; cbn; lia. Qed.
Lemma depth_unflag : forall b, depth (unflag b) = depth b.
Proof. destruct b; reflexivity. Qed.

(* the spliced-in members are members of xs or of its last member *)
Lemma depth_make_improper : forall xs, depth (make_improper xs) <= depth (SL xs true).
Proof.
  intros xs. unfold make_improper. destruct (last_opt xs) as [[s0 o0|s0 o0|s0|ys imp']|] eqn:E; try apply le_n.
  apply depth_SL_mono. intros e He. rewrite <- (removelast'_last _ xs _ E). apply in_app_or in He.
  destruct He as [He|He]; [apply depth_elem, in_or_app; left; exact He|].
  pose proof (depth_elem ys imp' e He).
  pose proof (depth_elem (removelast' xs ++ [SL ys imp']) true _ (in_elt (SL ys imp') _ [])). lia.
Qed.

Lemma atoms_fatoms : forall e, atoms e = map snd (fatoms e).
Proof.
  induction e using sx_ind2; cbn; try reflexivity.
  induction xs as [|a r IHr]; cbn; [reflexivity|]. rewrite map_app. inversion H; subst. f_equal; auto.
Qed.

Lemma fatoms_atom_of : forall fl name o, fatoms (atom_of fl name o) = [(fl, name)].
Proof. destruct fl; reflexivity. Qed.

Section Fuel.
  Variable in_scope is_global : string -> bool.
  Variable kinds : list string.
  Variable K : list string.
  Notation INST := (inst in_scope is_global kinds).

  Definition U (name : string) : Prop := (in_scope name && negb (is_global name))%bool = false.
  Definition settled (e : sx) : Prop :=
    forall fl name, In (fl, name) (fatoms e) -> ~ In name K /\ (fl = true -> U name).
  Definition uid_ok (e : sx) : Prop := forall name, In (true, name) (fatoms e) -> U name.
  Definition env_ok (D : nat) (s : env) : Prop := forall x v, In (x, v) s -> settled v /\ depth v <= D.

  Lemma renamed_U : forall fl name, (fl = true -> U name) -> renamed in_scope is_global fl name = name.
  Proof. intros fl name H. unfold renamed. destruct fl; [cbn [andb]; rewrite (H eq_refl)|]; reflexivity. Qed.

  Lemma settled_SL : forall xs imp, settled (SL xs imp) <-> (forall e, In e xs -> settled e).
  Proof.
    intros xs imp. unfold settled. cbn [fatoms]. split.
    - intros H e He fl name Hin. apply H. apply in_flat_map. eauto.
    - intros H fl name Hin. apply in_flat_map in Hin. destruct Hin as [e [He Hin]]. eapply H; eauto.
  Qed.
  Lemma uid_ok_SL : forall xs imp e, uid_ok (SL xs imp) -> In e xs -> uid_ok e.
  Proof. intros xs imp e H He name Hin. apply H. cbn. apply in_flat_map. eauto. Qed.
  Lemma settled_uid_ok : forall e, settled e -> uid_ok e.
  Proof. intros e H name Hin. apply (H true name Hin). reflexivity. Qed.
  Lemma settled_unflag : forall b, settled b -> settled (unflag b).
  Proof.
    intros [s o|s o|s|xs imp] H; cbn; try exact H.
    intros fl name Hin. cbn in Hin. destruct Hin as [E|[]]. inversion E; subst.
    destruct (H true name (or_introl eq_refl)) as [H1 _]. split; [exact H1|discriminate].
  Qed.
  Lemma settled_make_improper : forall xs, (forall e, In e xs -> settled e) -> settled (make_improper xs).
  Proof.
    intros xs H. apply (settled_SL xs true) in H. unfold settled in *.
    rewrite (make_improper_leaves _ fatoms) by reflexivity. exact H.
  Qed.

End Fuel.

Section Fuel2.
  Variable in_scope is_global : string -> bool.
  Variable kinds : list string.
  Variable K : list string.
  Hypothesis HK_ : ~ In "_" K.
  Notation settled := (settled in_scope is_global K).
  Notation uid_ok := (uid_ok in_scope is_global).
  Notation env_ok := (env_ok in_scope is_global K).
  Notation INST := (inst in_scope is_global kinds).
  Notation STEP := (expand_step in_scope is_global kinds).

  (* the keys of the bindings are exactly K, no identifier of a bound form is in K, and D bounds the depth
     of the forms bound to the identifiers of t: a visit of t looks up no others *)
  Record Inv (D : nat) (s fb : env) (t : sx) : Prop := {
    keyS : forall x, In x (dom s) <-> In x K;
    keyF : forall x, In x (dom fb) -> In x K;
    vals : forall E x v, E = s \/ E = fb -> In (x, v) E -> settled v /\ (In x (atoms t) -> depth v <= D) }.

  Lemma Inv_elem : forall D s fb args imp a, Inv D s fb (SL args imp) -> In a args -> Inv D s fb a.
  Proof.
    intros D s fb args imp a [kS kF ok] Ha. constructor; [exact kS|exact kF|]. intros E x v HE Hin.
    destruct (ok E x v HE Hin) as [Hs Hd]. split; [exact Hs|]. intro Hx. apply Hd. apply in_flat_map. eauto.
  Qed.

  (* a settled form mentions no key, so no bound is needed to visit it *)
  Lemma Inv_settled : forall D s fb t a, Inv D s fb t -> settled a -> Inv 0 s fb a.
  Proof.
    intros D s fb t a [kS kF ok] Ha. constructor; [exact kS|exact kF|]. intros E x v HE Hin.
    split; [apply (ok E x v HE Hin)|]. intro Hx. exfalso.
    rewrite atoms_fatoms in Hx. apply in_map_iff in Hx. destruct Hx as [[fl x'] [Ex Hx]]. cbn in Ex. subst x'.
    apply (proj1 (Ha fl x Hx)). destruct HE as [-> | ->]; [apply kS|apply kF]; apply dom_In; eauto.
  Qed.

  Lemma Inv_iter : forall D s fb v j, Inv D s fb v -> Inv D (it_s kinds s v j) (it_fb kinds s v) v.
  Proof.
    intros D s fb v j [kS kF ok].
    destruct (iter_env kinds (fun x w => In x K /\ settled w /\ (In x (atoms v) -> depth w <= D)) s v j) as [I1 I2].
    - intros x w H. split; [apply kS, dom_In; eauto|exact (ok s _ _ (or_introl eq_refl) H)].
    - intros x l imp' Hx E. destruct (ok s _ _ (or_introl eq_refl) E) as [Hs Hd]. specialize (Hd Hx).
      assert (HK : In x K) by (apply kS, dom_In; eauto).
      pose proof (proj1 (settled_SL _ _ _ l imp') Hs) as Hm. pose proof (depth_pos (SL l imp')).
      split; [intros e He; pose proof (depth_elem l imp' e He); split; [exact HK|split; [exact (Hm e He)|intros _; lia]]|].
      split; (split; [exact HK|split; [|intros _]]); [intros fl name []|cbn; lia|apply settled_SL, Hm|exact Hd].
    - constructor.
      + intro x. split; [intro H; apply dom_In in H; destruct H as [w H]; exact (proj1 (I1 x w H))|].
        intro H. unfold it_s. rewrite dom_app. apply in_or_app. right. apply kS. exact H.
      + intros x H. apply dom_In in H. destruct H as [w H]. exact (proj1 (I2 x w H)).
      + intros E x w [-> | ->] H; [exact (proj2 (I1 x w H))|exact (proj2 (I2 x w H))].
  Qed.

  Lemma inst_atom_result : forall D s fb fl name o, Inv D s fb (atom_of fl name o) -> uid_ok (atom_of fl name o) ->
    yields False (fun r => settled r /\ depth r <= 1 + D) (inst_atom in_scope is_global s name o fl).
  Proof.
    intros D s fb fl name o [kS kF ok] Hu.
    assert (HU : fl = true -> U in_scope is_global name) by (intros ->; apply Hu; left; reflexivity).
    apply (yields_mono _ _ _ _ _ (inst_atom_spec in_scope is_global False s name o fl)). intros r H.
    rewrite (renamed_U _ _ _ _ HU) in H. destruct H as [[b [Hb ->]]|[-> Hn]].
    - destruct (ok s _ _ (or_introl eq_refl) Hb) as [Hs Hd]. rewrite atoms_atom_of in Hd.
      split; [apply settled_unflag; exact Hs|rewrite depth_unflag; specialize (Hd (or_introl eq_refl)); lia].
    - split; [|destruct fl; cbn; lia]. intros fl' nm Hin. rewrite fatoms_atom_of in Hin.
      destruct Hin as [E|[]]. inversion E; subst. split; [|exact HU].
      destruct Hn as [->|Hn]; [exact HK_|intro Hc; apply Hn, kS, Hc].
  Qed.

  (* with fuel depth t + D a visit does not run out of fuel, and its result stays within depth t + D.  A member
     spliced in by expand_ellipses is settled, and is then visited under the bound 0. *)
  Lemma inst_bound : forall f D s fb t, Inv D s fb t -> uid_ok t -> depth t + D <= f ->
    yields False (fun r => settled r /\ depth r <= depth t + D) (INST f s fb t).
  Proof.
    induction f as [|f IH]; intros D s fb t HI Hu Hf; [pose proof (depth_pos t); lia|].
    destruct t as [name o|name o|lit|args imp];
      [change (Id name o) with (atom_of false name o) in *|change (UId name o) with (atom_of true name o) in *| |].
    1-2: (rewrite inst_atom_eq; exact (inst_atom_result D s fb _ _ _ HI Hu)).
    - split; [intros fl nm []|cbn; lia].
    - rewrite inst_SL. change (depth (SL args imp)) with (S (dmax (map depth args))) in *.
      set (B := dmax (map depth args) + D).
      assert (Hle : forall a, In a args -> depth a + D <= B).
      { intros a Ha. pose proof (dmax_le (map depth args) _ (in_map depth _ _ Ha)). unfold B. lia. }
      set (Q := fun r => settled r /\ depth r <= B).
      assert (Hw : forall D' s' fb' a, Inv D' s' fb' a -> uid_ok a -> depth a + D' <= B -> yields False Q (INST f s' fb' a)).
      { intros D' s' fb' a Ha Hua Hd. assert (Hfa : depth a + D' <= f) by (unfold B in Hd; lia).
        apply (yields_mono _ _ _ _ _ (IH D' s' fb' a Ha Hua Hfa)). intros r [Hs Hr]. split; [exact Hs|lia]. }
      assert (Hset : forall a, Q a -> yields False Q (INST f s fb a)).
      { intros a [Hs Hd]. apply (Hw 0); [exact (Inv_settled _ _ _ _ _ HI Hs)|exact (settled_uid_ok _ _ _ _ Hs)|lia]. }
      eapply yields_bind; [apply (expand_step_all _ _ _ False (fun a => yields False Q (INST f s fb a)))|].
      + intros a Hin. apply (Hw D); [eapply Inv_elem; eauto|eapply uid_ok_SL; eauto|apply Hle, Hin].
      + intros E var l imp' e Hv HE Hl He. destruct (vals _ _ _ _ HI E _ _ HE Hl) as [Hs Hd]. specialize (Hd Hv).
        apply Hset. split; [apply settled_unflag, (proj1 (settled_SL _ _ _ l imp') Hs), He|].
        rewrite depth_unflag. pose proof (depth_elem l imp' e He). unfold B. lia.
      + intros v j Hv. eapply yields_mono; [|exact Hset].
        apply (Hw D); [apply (Inv_iter D s fb); eapply Inv_elem; eauto|eapply uid_ok_SL; eauto|apply Hle, Hv].
      + intros args1 Hmem. eapply yields_bind; [exact (seq_res_yields _ _ _ _ _ _ Hmem)|]. intros args2 Hall.
        assert (Hb : forall im, depth (SL args2 im) <= S B).
        { intro im. apply depth_SL_bound. intros e He. apply Hall. exact He. }
        destruct imp; cbn [yields].
        * split; [apply settled_make_improper; intros e He; apply Hall; exact He|].
          pose proof (depth_make_improper args2). specialize (Hb true). unfold B in *. lia.
        * split; [apply settled_SL; intros e He; apply Hall; exact He|]. specialize (Hb false). unfold B in *. lia.
  Qed.
End Fuel2.
