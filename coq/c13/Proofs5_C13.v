(* C13 — lemmas: what holds of every identifier of the template and of the arguments holds of every identifier of
   an expansion, with binding shown total on the way; the syntactic condition safe_use on one macro use. *)
From Coq Require Import List String Ascii Bool Arith Lia.
From SV Require Import c13.Model_C13 c13.Proofs_C13 c13.Proofs2_C13 c13.Proofs4_C13.
Import ListNotations.
Open Scope string_scope.
Open Scope list_scope.
Open Scope nat_scope.

Lemma ids_freeze : forall e, ids (freeze e) = ids e.
Proof.
  induction e using sx_ind2; cbn; try reflexivity.
  induction xs as [|a r IHr]; cbn; [reflexivity|]. inversion H; subst. rewrite H2, IHr by assumption. reflexivity.
Qed.

Lemma ids_stamp : forall i t v, In v (ids (stamp i t)) -> snd v = i /\ In (fst v) (atoms t).
Proof.
  intros i t; induction t using sx_ind2; intros v Hv; cbn in Hv.
  - destruct Hv as [<-|[]]. cbn. auto.
  - destruct Hv as [<-|[]]. cbn. auto.
  - contradiction.
  - apply in_flat_map in Hv. destruct Hv as [e [He Hv]]. apply in_map_iff in He. destruct He as [e0 [<- He0]].
    rewrite Forall_forall in H. destruct (H e0 He0 v Hv) as [H1 H2]. split; [exact H1|].
    cbn [atoms]. apply in_flat_map. eauto.
Qed.

Section Over.
  Variable P : ident -> Prop.
  Notation over := (over P).
  Definition over_env (s : env) : Prop := forall x v, In (x, v) s -> over v.

  Lemma over_list : forall l imp, Forall over l -> over (SL l imp).
  Proof. intros l imp. apply over_SL. Qed.

  Lemma over_unflag : forall b, over b -> over (unflag b).
  Proof. intros [ | | | ] H; exact H. Qed.

  Lemma over_make_improper : forall xs, Forall over xs -> over (make_improper xs).
  Proof. intros xs H v. rewrite (make_improper_leaves _ ids) by reflexivity. apply (over_list xs true H). Qed.

  Lemma over_env_app : forall a b, over_env a -> over_env b -> over_env (a ++ b).
  Proof. intros a b Ha Hb x v H. apply in_app_or in H. destruct H; eauto. Qed.

  Section InstOver.
    Variable in_scope is_global : string -> bool.
    Variable kinds : list string.
    Hypothesis Htop : forall x, in_scope x = false.
    Notation INST := (inst in_scope is_global kinds).
    Notation STEP := (expand_step in_scope is_global kinds).

    Lemma iter_over : forall s v j, over_env s -> over_env (it_s kinds s v j) /\ over_env (it_fb kinds s v).
    Proof.
      intros s v j Hs. apply (iter_env kinds (fun _ w => over w)); [exact Hs|]. intros x l imp' _ E.
      pose proof (proj1 (over_SL _ _ _) (Hs _ _ E)) as Hl.
      split; [apply Forall_forall, Hl|]. split; [intros z []|apply over_list, Hl].
    Qed.

    (* at top level nothing is in scope, so no identifier is prefixed *)
    Lemma inst_over : forall f s fb t, over_env s -> over_env fb -> over t -> yields True over (INST f s fb t).
    Proof.
      induction f as [|f IH]; intros s fb t Hs Hfb Ht; [exact I|].
      destruct t as [name o|name o|lit|args imp];
        [change (Id name o) with (atom_of false name o) in *|change (UId name o) with (atom_of true name o) in *| |].
      1-2: (rewrite inst_atom_eq; apply (yields_mono _ _ _ _ _ (inst_atom_spec _ _ True s name o _)); intros r H;
            unfold renamed in H; rewrite Htop, andb_false_r in H;
            destruct H as [[b [Hb ->]]|[-> _]]; [apply over_unflag; eauto|exact Ht]).
      - exact Ht.
      - rewrite inst_SL. apply over_SL in Ht. rewrite Forall_forall in Ht.
        eapply yields_bind; [apply (expand_step_all _ _ _ True (fun a => over a))|].
        + exact Ht.
        + intros E var l imp' e _ HE Hl He. apply over_unflag.
          assert (HE' : over_env E) by (destruct HE as [->| ->]; assumption).
          exact (proj1 (Forall_forall _ _) (proj1 (over_SL _ _ _) (HE' _ _ Hl)) e He).
        + intros v j Hv. destruct (iter_over s v j Hs) as [I1 I2]. exact (IH _ _ v I1 I2 (Ht v Hv)).
        + intros args1 H1. eapply yields_bind; [exact (seq_res_yields _ _ _ _ _ _ (fun a Ha => IH s fb a Hs Hfb (H1 a Ha)))|].
          intros args2 Hall. apply Forall_forall in Hall.
          destruct imp; [apply over_make_improper|apply over_list]; exact Hall.
    Qed.
  End InstOver.

  (* one induction for two facts: binding never runs out of fuel, and it binds nothing but parts of the form *)
  Definition bound_over (bk : env * list string) : Prop := over_env (fst bk).
  Definition CI (p : pat) : Prop := forall e, over e -> yields False bound_over (collect_one p e).

  Lemma c_items_over : forall co sub, (forall e, over e -> yields False bound_over (co sub e)) ->
    forall n es, Forall over es ->
      yields False (fun '(bs, _, rest) => Forall over_env bs /\ Forall over rest) (c_items co sub n es).
  Proof.
    intros co sub Hc. induction n as [|n IH]; intros es He; cbn [c_items]; [split; [constructor|exact He]|].
    destruct es as [|e es']; [split; constructor|].
    eapply yields_bind; [apply Hc, (Forall_inv He)|]. intros [b kk] Hb.
    eapply yields_bind; [apply IH, (Forall_inv_tail He)|]. intros [[bs kks] rest] [I1 I2]. split; [constructor|]; assumption.
  Qed.

  Lemma collect_go_over : forall ps, Forall (fun p => CI p /\ child_ok CI p) ps ->
    forall es k imp, Forall over es -> yields False bound_over (collect_go_gen collect_one ps es k imp).
  Proof.
    induction ps as [|p ps IH]; intros HF es k imp He; [intros x v []|].
    destruct (Forall_inv HF) as [Hp Hc]. specialize (IH (Forall_inv_tail HF)).
    assert (Hcat : forall b1 b2 (k1 k2 : list string), over_env b1 -> over_env b2 -> bound_over (b2 ++ b1, k2 ++ k1)).
    { intros b1 b2 k1 k2 H1 H2. apply over_env_app; assumption. }
    destruct (simple p) eqn:Hsp.
    - destruct es as [|e es].
      + destruct (collect_go_simple_nil p ps k imp Hsp) as [->|[kind ->]]; [apply IH, He|exact I].
      + rewrite collect_go_simple by exact Hsp. eapply yields_bind; [apply Hp, (Forall_inv He)|]. intros [b1 k1] H1.
        eapply yields_bind; [apply IH, (Forall_inv_tail He)|]. intros [b2 k2] H2. apply Hcat; assumption.
    - destruct p as [v|s|s|sub|qs|q]; try discriminate; cbn [collect_go_gen]; fold (collect_go_gen collect_one).
      + eapply yields_bind; [apply (c_items_over collect_one sub Hc), He|]. intros [[bs kks] rest] [I1 I2].
        eapply yields_bind; [apply IH, I2|]. intros [b2 k2] H2. apply Hcat; [|exact H2].
        (* a variable of sub is bound to the list of its values in the environments of the repetitions *)
        intros x w Hin. apply in_map_iff in Hin. destruct Hin as [y [E _]]. injection E as _ <-.
        apply over_list, Forall_forall. intros v0 Hv0. apply in_flat_map in Hv0. destruct Hv0 as [b0 [Hb0 Hv0]].
        destruct (lookup y b0) as [v1|] eqn:El; [|contradiction]. destruct Hv0 as [<-|[]].
        exact (proj1 (Forall_forall _ _) I1 b0 Hb0 y v1 (lookup_In _ _ _ El)).
      + eapply yields_bind; [apply Hc|].
        { destruct es as [|e1 [|e2 r]]; [intros z []|destruct imp; [exact (Forall_inv He)|]|]; apply over_list, He. }
        intros [b1 k1] H1. eapply yields_bind; [apply IH|]; [destruct es; [constructor|exact (Forall_inv_tail He)]|].
        intros [b2 k2] H2. apply Hcat; assumption.
  Qed.

  Lemma collect_one_over : forall p, CI p.
  Proof.
    intro p. apply (pat_ind3 CI); unfold CI; try (intros; exact I).
    - intros v e He x w [E|[]]. injection E as _ <-. intro z. rewrite ids_freeze. apply He.
    - intros s e _. cbn. destruct e as [x o|x o| | ]; try destruct (_ || _); try exact I; intros y v [].
    - intros s e _ y v [].
    - intros ps HF e He. destruct (atomic e) eqn:Ha.
      + destruct (nonlist_shape ps) as [[sub [q ->]]|Hno]; [|rewrite (proj1 (Hno (fun _ => false) e Ha)); exact I].
        rewrite collect_one_nonlist by exact Ha.
        eapply yields_bind; [apply (proj2 (Forall_inv (Forall_inv_tail HF))), He|]. intros [b1 k1] H1.
        apply over_env_app; [exact H1|]. intros x w Hin. apply in_map_iff in Hin. destruct Hin as [y [E _]].
        injection E as _ <-. intros z [].
      + destruct e; try discriminate. apply (collect_go_over ps HF), (over_SL P xs imp), He.
  Qed.

  Lemma collect_over : forall ps xs imp, Forall over xs -> yields False bound_over (collect ps xs imp).
  Proof.
    intros ps xs imp H. rewrite collect_nested. exact (collect_one_over (PNested ps) (SL xs imp) (over_list xs imp H)).
  Qed.
End Over.

(* decidable condition on (macro definition, use): the use is written by the user (origin 0, instantiation
   number i > 0) and none of its non-keyword spellings occurs in a template of the macro - neither as a free
   identifier of the template nor as one of its ##-renamed identifiers (so in particular the use cannot spell a
   ##-name that the macro uses, and does not mention the template's free identifiers) *)
Definition safe_use (m : macro) (i : nat) (args : list sx) : bool :=
  negb (Nat.eqb i 0) &&
  forallb (fun v : ident => Nat.eqb (snd v) 0) (flat_map ids args) &&
  forallb (fun c => forallb (fun v : ident => mem (fst v) TOKENS || negb (mem (fst v) (atoms (c_tmpl c))))
                            (flat_map ids args)) (m_cases m).
