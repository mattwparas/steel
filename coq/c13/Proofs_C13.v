From Coq Require Import List String Ascii Bool Arith Lia.
From SV Require Import c13.Model_C13.
From SV Require Export lib.ListFacts.
Import ListNotations.
Open Scope string_scope.
Open Scope list_scope.
Open Scope nat_scope.
(* String is imported after List (as in Model_C13.v): a bare [length] is String.length, hence List.length *)

Section SxInd.
  Variable P : sx -> Prop.
  Hypothesis HI : forall s o, P (Id s o).
  Hypothesis HU : forall s o, P (UId s o).
  Hypothesis HLi : forall s, P (Lit s).
  Hypothesis HS : forall xs imp, Forall P xs -> P (SL xs imp).
  Fixpoint sx_ind2 (e : sx) : P e :=
    match e with
    | Id s o => HI s o
    | UId s o => HU s o
    | Lit s => HLi s
    | SL xs imp => HS xs imp ((fix go (zs : list sx) : Forall P zs :=
                                 match zs with
                                 | [] => Forall_nil P
                                 | z :: r => Forall_cons z (sx_ind2 z) (go r)
                                 end) xs)
    end.
End SxInd.

(* the two resolutions of an occurrence differ exactly when it is captured: they walk the scope together
   until the first binder of the same spelling, which has the same origin or not *)
Lemma resolve_captured : forall o,
  if captured o then resolve_name o <> resolve_mark o else resolve_name o = resolve_mark o.
Proof.
  intros [v g]; unfold captured, resolve_name, resolve_mark; cbn [fst snd].
  induction g as [|b r IH]; cbn [find index_of]; [reflexivity|].
  change (same_id v b) with (same_sp v b && Nat.eqb (snd v) (snd b)). destruct (same_sp v b); cbn [andb].
  - rewrite (Nat.eqb_sym (snd v)). destruct (Nat.eqb (snd b) (snd v)); cbn [negb]; [reflexivity|].
    destruct (index_of (same_id v) r); discriminate.
  - destruct (match find (same_sp v) r with Some b0 => negb (Nat.eqb (snd b0) (snd v)) | None => false end);
      [|rewrite IH; reflexivity].
    destruct (index_of (same_sp v) r), (index_of (same_id v) r); cbn; congruence.
Qed.

Lemma known_class_elim : forall e o, known_class e = false -> In o (occs [] e) -> captured o = false.
Proof.
  intros e o H Ho. apply not_true_is_false. intro Hc.
  unfold known_class in H. rewrite (proj2 (existsb_exists _ _)) in H by eauto. discriminate.
Qed.

(* what every sufficient condition for being outside the known class establishes *)
Lemma known_class_intro : forall e,
  (forall o b, In o (occs [] e) -> In b (snd o) -> fst (fst o) = fst b -> snd b = snd (fst o)) ->
  known_class e = false.
Proof.
  intros e H. apply not_true_is_false. intro E. apply existsb_exists in E. destruct E as [o [Ho Hc]].
  unfold captured in Hc. destruct (find (same_sp (fst o)) (snd o)) as [b|] eqn:F; [|discriminate].
  apply find_some in F. destruct F as [Hb Hs]. apply String.eqb_eq in Hs.
  rewrite (H o b Ho Hb Hs), Nat.eqb_refl in Hc. discriminate.
Qed.

Lemma map_differ : forall (A B : Type) (f g : A -> B) l x,
  In x l -> f x <> g x -> map f l <> map g l.
Proof.
  induction l as [|a l IH]; cbn; intros x Hin Hd; [contradiction|].
  destruct Hin as [->|Hin]; intro E; injection E; intros; [contradiction|].
  eapply IH; eauto.
Qed.

Lemma capture_kind_none : forall o, captured o = false -> capture_kind o = "none".
Proof.
  intros [v g]; unfold captured, capture_kind; cbn [fst snd].
  destruct (find (same_sp v) g) as [b|]; [|reflexivity].
  intro H. apply negb_false_iff in H. rewrite H. reflexivity.
Qed.

(* witnesses of finding F7 *)
Definition i (s : string) := Id s 0.
Definition l (xs : list sx) := SL xs false.
Definition n (s : string) := Lit s.

(* (define-syntax m2 (syntax-rules () [(_ a b) (let ([t 2]) (list a b t))]))
   (define-syntax m  (syntax-rules () [(_ x) (let ([t 1]) (m2 t x))]))   (m 0) *)
Definition W_m2 := mk_macro "m2" [] [([PSingle "a"; PSingle "b"],
  l [i "let"; l [l [i "t"; n "2"]]; l [i "list"; i "a"; i "b"; i "t"]])].
Definition W_m := mk_macro "m" [] [([PSingle "x"],
  l [i "let"; l [l [i "t"; n "1"]]; l [i "m2"; i "t"; i "x"]])].
Definition W_nested := l [i "m"; n "0"].
Definition W_nested_out :=
  l [i "let"; l [l [Id "##t" 1; n "1"]];
     l [Id "let" 2; l [l [Id "##t" 2; n "2"]]; l [UId "list" 2; Id "##t" 1; n "0"; Id "##t" 2]]].

(* non-colliding variant of the same shape: the inner macro introduces another spelling *)
Definition W_m2' := mk_macro "m2" [] [([PSingle "a"; PSingle "b"],
  l [i "let"; l [l [i "u"; n "2"]]; l [i "list"; i "a"; i "b"; i "u"]])].

(* (define-syntax uses-list (syntax-rules () [(_ x) (list x)]))
   (let ([list (lambda args 'shadowed)]) (uses-list 1)) *)
Definition W_ul := mk_macro "uses-list" [] [([PSingle "x"], l [i "list"; i "x"])].
Definition W_shadow := l [i "let"; l [l [i "list"; l [i "lambda"; i "args"; l [i "quote"; i "shadowed"]]]];
                          l [i "uses-list"; n "1"]].
Definition W_noshadow := l [i "let"; l [l [i "other"; l [i "lambda"; i "args"; l [i "quote"; i "shadowed"]]]];
                            l [i "uses-list"; n "1"]].

Definition dom (s : env) : list string := map fst s.
Definition closedb (d : list string) (e : sx) : bool :=
  forallb (fun x => negb (mem x d) || String.eqb x "_") (atoms e).
Definition env_clean (s : env) : Prop := forall x v, In (x, v) s -> closedb (dom s) v = true.

Lemma mem_In : forall x l, mem x l = true <-> In x l.
Proof. exact (existsb_eqb_In _ String.eqb_eq). Qed.

Lemma bind_ok : forall (A B : Type) (r : res A) (f : A -> res B) y, bind r f = Ok y -> exists a, r = Ok a /\ f a = Ok y.
Proof. intros A B [a|k|] f y H; cbn in H; try discriminate. eauto. Qed.

(* what holds of a result; [o] says whether running out of fuel is allowed: with True the statement is about the
   results there are, with False it also says that there is one or an error *)
Definition yields {A : Type} (o : Prop) (Q : A -> Prop) (r : res A) : Prop :=
  match r with Ok a => Q a | Err _ => True | OutOfFuel => o end.

Lemma yields_bind : forall (A B : Type) o (P : A -> Prop) (Q : B -> Prop) (r : res A) (f : A -> res B),
  yields o P r -> (forall a, P a -> yields o Q (f a)) -> yields o Q (bind r f).
Proof. intros A B o P Q [a|k|] f H1 H2; cbn in *; auto. Qed.

Lemma yields_mono : forall (A : Type) o (P Q : A -> Prop) (r : res A),
  yields o P r -> (forall a, P a -> Q a) -> yields o Q r.
Proof. intros A o P Q [a|k|] H1 H2; cbn in *; auto. Qed.

Lemma seq_res_yields : forall (A B : Type) o (Q : B -> Prop) (f : A -> res B) zs,
  (forall a, In a zs -> yields o Q (f a)) -> yields o (fun rs => forall r, In r rs -> Q r) (seq_res (map f zs)).
Proof.
  induction zs as [|a zs IH]; cbn [map seq_res]; intro H; [intros r []|].
  eapply yields_bind; [apply H; left; reflexivity|]. intros b Hb.
  eapply yields_bind; [apply IH; intros; apply H; right; assumption|]. intros bs Hbs r [<-|Hr]; auto.
Qed.

Lemma lookup_In : forall x s v, lookup x s = Some v -> In (x, v) s.
Proof.
  induction s as [|[y w] r IH]; cbn; intros v H; [discriminate|].
  destruct (String.eqb x y) eqn:E.
  - apply String.eqb_eq in E. inversion H; subst. left; reflexivity.
  - right. apply IH; assumption.
Qed.

Lemma dom_In : forall x s, In x (dom s) <-> exists v, In (x, v) s.
Proof.
  intros x s. unfold dom. rewrite in_map_iff.
  split; [intros [[y v] [E H]]; cbn in E; subst; eauto|intros [v H]; exists (x, v); auto].
Qed.

Lemma lookup_dom_iff : forall x s, In x (dom s) <-> exists v, lookup x s = Some v.
Proof.
  intros x s. split.
  - induction s as [|[y w] r IH]; cbn; intro H; [contradiction|].
    destruct (String.eqb x y) eqn:E; [eauto|].
    destruct H as [H|H]; [subst; rewrite String.eqb_refl in E; discriminate|]. apply IH; exact H.
  - intros [v H]. apply dom_In. exists v. apply lookup_In. exact H.
Qed.

Lemma lookup_None_iff : forall x s, lookup x s = None <-> ~ In x (dom s).
Proof.
  intros x s. rewrite lookup_dom_iff. split.
  - intros H [v E]. congruence.
  - intro H. destruct (lookup x s) as [v|]; [exfalso; eauto|reflexivity].
Qed.

Lemma lookup_app : forall x b2 b1,
  lookup x (b2 ++ b1) = match lookup x b2 with Some v => Some v | None => lookup x b1 end.
Proof.
  induction b2 as [|[y w] r IH]; cbn; intro b1; [reflexivity|]. destruct (String.eqb x y); [reflexivity|apply IH].
Qed.

Lemma lookup_gen : forall (f : string -> sx) vars x,
  In x vars -> lookup x (map (fun y => (y, f y)) vars) = Some (f x).
Proof.
  induction vars as [|y r IH]; cbn; intros x H; [contradiction|].
  destruct (String.eqb x y) eqn:E.
  - apply String.eqb_eq in E. subst. reflexivity.
  - destruct H as [H|H]; [subst; rewrite String.eqb_refl in E; discriminate|]. apply IH; exact H.
Qed.

Lemma dom_gen : forall (f : string -> sx) vars, dom (map (fun y => (y, f y)) vars) = vars.
Proof. induction vars as [|y r IH]; cbn; [reflexivity|]. f_equal. exact IH. Qed.

Lemma dom_app : forall b2 b1, dom (b2 ++ b1) = dom b2 ++ dom b1.
Proof. intros. unfold dom. apply map_app. Qed.

Lemma removelast'_last : forall (A : Type) (zs : list A) z,
  last_opt zs = Some z -> removelast' zs ++ [z] = zs.
Proof.
  induction zs as [|a r IH]; intros z H; [discriminate|].
  destruct r as [|b r']; [inversion H; reflexivity|].
  change (a :: (removelast' (b :: r') ++ [z]) = a :: b :: r'). f_equal. apply IH. exact H.
Qed.

Lemma removelast'_length : forall (A : Type) (zs : list A),
  List.length (removelast' zs) = List.length zs - 1.
Proof.
  induction zs as [|a r IH]; [reflexivity|]. destruct r as [|b r']; [reflexivity|].
  change (S (List.length (removelast' (b :: r'))) = S (List.length (b :: r')) - 1). rewrite IH. cbn. lia.
Qed.

Lemma last_opt_some : forall (A : Type) (zs : list A), zs <> [] -> exists z, last_opt zs = Some z.
Proof.
  induction zs as [|a r IH]; intro H; [congruence|]. destruct r as [|b r']; [exists a; reflexivity|].
  apply IH. discriminate.
Qed.

(* make_improper keeps the leaves, whatever is read off them *)
Lemma make_improper_leaves : forall (B : Type) (lv : sx -> list B),
  (forall xs imp, lv (SL xs imp) = flat_map lv xs) ->
  forall xs, lv (make_improper xs) = flat_map lv xs.
Proof.
  intros B lv H xs. unfold make_improper.
  destruct (last_opt xs) as [[ | | |l imp']|] eqn:E; try apply H.
  rewrite H. rewrite <- (removelast'_last _ xs _ E) at 2.
  rewrite !flat_map_app. cbn [flat_map]. rewrite H, app_nil_r. reflexivity.
Qed.

Lemma atoms_unflag : forall b, atoms (unflag b) = atoms b.
Proof. destruct b; reflexivity. Qed.

Lemma closedb_SL : forall d xs imp,
  closedb d (SL xs imp) = true <-> (forall e, In e xs -> closedb d e = true).
Proof.
  unfold closedb; intros d xs imp; cbn [atoms]. rewrite forallb_forall. split.
  - intros H e He. rewrite forallb_forall. intros x Hx. apply H. apply in_flat_map. eauto.
  - intros H x Hx. apply in_flat_map in Hx. destruct Hx as [e [He Hx]].
    specialize (H e He). rewrite forallb_forall in H. auto.
Qed.

Lemma closedb_make_improper : forall d xs, closedb d (make_improper xs) = closedb d (SL xs true).
Proof. intros d xs. unfold closedb. rewrite (make_improper_leaves _ atoms) by reflexivity. reflexivity. Qed.

Lemma find_ell_nth : forall xs i, find_ell xs = Some i -> i < List.length xs.
Proof.
  induction xs as [|e r IH]; cbn; intros i H; [discriminate|].
  destruct (is_ell e); [inversion H; lia|]. destruct (find_ell r); [|discriminate]. inversion H. specialize (IH _ eq_refl). lia.
Qed.

Definition splice (i : nat) (args items : list sx) : list sx := firstn i args ++ items ++ skipn (S (S i)) args.

Lemma in_splice : forall a i args items, In a (splice i args items) -> In a args \/ In a items.
Proof.
  intros a i args items H. apply in_app_or in H. destruct H as [H|H].
  - left. rewrite <- (firstn_skipn i args). apply in_or_app. left; exact H.
  - apply in_app_or in H. destruct H as [H|H]; [right; exact H|].
    left. rewrite <- (firstn_skipn (S (S i)) args). apply in_or_app. right; exact H.
Qed.

Definition atom_of (flagged : bool) (name : string) (o : nat) : sx := if flagged then UId name o else Id name o.

Lemma atoms_atom_of : forall fl name o, atoms (atom_of fl name o) = [name].
Proof. destruct fl; reflexivity. Qed.

Section InstStep.
  Variable in_scope is_global : string -> bool.
  Variable kinds : list string.
  Notation INST := (inst in_scope is_global kinds).

  (* the let-bound [atom] of inst *)
  Definition renamed (flagged : bool) (name : string) : string :=
    if flagged && in_scope name && negb (is_global name) then String.append "##" name else name.
  Definition inst_atom (s : env) (name : string) (o : nat) (flagged : bool) : res sx :=
    if String.eqb (renamed flagged name) "_" then Ok (atom_of flagged name o) else
    match lookup (renamed flagged name) s with
    | Some b => Ok (unflag b)
    | None => Ok (atom_of flagged (renamed flagged name) o)
    end.

  (* the two environments of the j-th iteration of a list sub-template *)
  Definition it_s (s : env) (v : sx) (j : nat) : env :=
    map (fun '(x, l) => (x, nth j l (Lit ""))) (ell_vars kinds s v) ++ s.
  Definition it_fb (s : env) (v : sx) : env := map (fun '(x, l) => (x, SL l false)) (ell_vars kinds s v).

  (* expand_ellipses on a variable followed by an ellipsis: the list bound to it, in the bindings or else in
     the fallback bindings, is spliced in *)
  Definition splice_var (s fb : env) (args : list sx) (i : nat) (var : string) : res (list sx) :=
    match lookup var s with
    | None => Ok args
    | Some (SL l _) => Ok (splice i args (map unflag l))
    | Some _ =>
        match lookup var fb with
        | None => Ok args
        | Some (SL l _) => Ok (splice i args (map unflag l))
        | Some _ => Err "BadSyntax"
        end
    end.

  (* expand_ellipses: the argument list before its members are visited *)
  Definition expand_step (f : nat) (s fb : env) (args : list sx) : res (list sx) :=
    match find_ell args with
    | None | Some O => Ok args
    | Some (S i) =>
        match nth i args (Lit "") with
        | Id var _ | UId var _ => splice_var s fb args i var
        | (SL _ _) as v =>
            match ell_vars kinds s v with
            | [] => Err "BadSyntax"
            | (_, l0) :: _ =>
                if negb (same_width (List.length l0) (ell_vars kinds s v)) then Err "BadSyntax" else
                do rs <- seq_res (map (fun j => INST f (it_s s v j) (it_fb s v) v) (seq 0 (List.length l0)));
                Ok (splice i args rs)
            end
        | Lit _ => Err "BadSyntax"
        end
    end.

  Lemma inst_atom_eq : forall f s fb fl name o, INST (S f) s fb (atom_of fl name o) = inst_atom s name o fl.
  Proof. intros f s fb fl name o. destruct fl; reflexivity. Qed.

  Lemma inst_SL : forall f s fb args imp,
    INST (S f) s fb (SL args imp) =
    (do args1 <- expand_step f s fb args;
     do args2 <- seq_res (map (INST f s fb) args1);
     Ok (if imp then make_improper args2 else SL args2 false)).
  Proof. reflexivity. Qed.

  Lemma inst_atom_spec : forall o' s name o fl, yields o' (fun r =>
    (exists b, In (renamed fl name, b) s /\ r = unflag b) \/
    (r = atom_of fl (renamed fl name) o /\ (renamed fl name = "_" \/ ~ In (renamed fl name) (dom s))))
    (inst_atom s name o fl).
  Proof.
    intros o' s name o fl. unfold inst_atom. destruct (String.eqb (renamed fl name) "_") eqn:Eu.
    - right. split; [|left; apply String.eqb_eq; exact Eu].
      f_equal. revert Eu. unfold renamed. destruct (fl && in_scope name && negb (is_global name)); [discriminate|reflexivity].
    - destruct (lookup (renamed fl name) s) as [b|] eqn:El.
      + left. exists b. split; [apply lookup_In; exact El|reflexivity].
      + right. split; [reflexivity|right; apply lookup_None_iff; exact El].
  Qed.

  Lemma ell_vars_in : forall s v x l, In (x, l) (ell_vars kinds s v) ->
    In x (atoms v) /\ exists imp', lookup x s = Some (SL l imp').
  Proof.
    intros s v x l H. unfold ell_vars in H. apply in_flat_map in H. destruct H as [y [Hy H]].
    destruct (lookup y s) as [[ | | |l' imp']|] eqn:E; try contradiction.
    destruct (mem y kinds); [|contradiction]. destruct H as [H|[]]. inversion H; subst. eauto.
  Qed.

  (* an iteration binds an ellipsis variable of v to a member of its list (Lit "" past the end), the fallback
     bindings bind it to the list made proper: what these inherit from the list holds of every binding of both *)
  Lemma iter_env : forall (Q : string -> sx -> Prop) s v j,
    (forall x w, In (x, w) s -> Q x w) ->
    (forall x l imp', In x (atoms v) -> In (x, SL l imp') s ->
       (forall e, In e l -> Q x e) /\ Q x (Lit "") /\ Q x (SL l false)) ->
    (forall x w, In (x, w) (it_s s v j) -> Q x w) /\ (forall x w, In (x, w) (it_fb s v) -> Q x w).
  Proof.
    intros Q s v j Hs Hl.
    assert (Hcol : forall x l, In (x, l) (ell_vars kinds s v) ->
              (forall e, In e l -> Q x e) /\ Q x (Lit "") /\ Q x (SL l false)).
    { intros x l H. destruct (ell_vars_in _ _ _ _ H) as [Hx [imp' El]]. exact (Hl x l imp' Hx (lookup_In _ _ _ El)). }
    split; intros x w H.
    - apply in_app_or in H. destruct H as [H|H]; [|exact (Hs x w H)].
      apply in_map_iff in H. destruct H as [[y l] [E H]]. inversion E; subst.
      destruct (Hcol x l H) as [H1 [H2 _]]. destruct (nth_in_or_default j l (Lit "")) as [Hn| ->]; auto.
    - apply in_map_iff in H. destruct H as [[y l] [E H]]. inversion E; subst. apply (Hcol x l H).
  Qed.

  (* a member of the list after expand_ellipses is a member before it, an (unflagged) member of a list bound in s or
     fb, or an instance of a member under the iteration environments *)
  Lemma expand_step_all : forall o (Q : sx -> Prop) f s fb args,
    (forall a, In a args -> Q a) ->
    (forall E var l imp' e, In var (flat_map atoms args) -> E = s \/ E = fb -> In (var, SL l imp') E -> In e l ->
       Q (unflag e)) ->
    (forall v j, In v args -> yields o Q (INST f (it_s s v j) (it_fb s v) v)) ->
    yields o (fun args1 => forall a, In a args1 -> Q a) (expand_step f s fb args).
  Proof.
    intros o Q f s fb args H1 H2 H3. unfold expand_step.
    destruct (find_ell args) as [[|i]|] eqn:Ef; [exact H1| |exact H1].
    assert (Hin : In (nth i args (Lit "")) args) by (apply nth_In; apply find_ell_nth in Ef; lia).
    assert (Hsp : forall items, (forall a, In a items -> Q a) -> forall a, In a (splice i args items) -> Q a).
    { intros items Hi a Ha. apply in_splice in Ha. destruct Ha; auto. }
    assert (Hsv : forall fl var o0, In (atom_of fl var o0) args ->
              yields o (fun args1 => forall a, In a args1 -> Q a) (splice_var s fb args i var)).
    { intros fl var o0 Ha.
      assert (Hl : forall E l imp', E = s \/ E = fb -> lookup var E = Some (SL l imp') ->
                forall a, In a (splice i args (map unflag l)) -> Q a).
      { intros E l imp' HE El. apply Hsp. intros a Hm. apply in_map_iff in Hm. destruct Hm as [e [<- He]].
        apply (H2 E var l imp' e); auto; [|apply lookup_In, El].
        apply in_flat_map. exists (atom_of fl var o0). rewrite atoms_atom_of. cbn. auto. }
      unfold splice_var.
      destruct (lookup var s) as [[ | | |l0 imp']|] eqn:El; [| | |exact (Hl s l0 imp' (or_introl eq_refl) El)|exact H1].
      all: destruct (lookup var fb) as [[ | | |l0 imp']|] eqn:Elf;
        [exact I|exact I|exact I|exact (Hl fb l0 imp' (or_intror eq_refl) Elf)|exact H1]. }
    revert Hin. generalize (nth i args (Lit "")). intros [var o0|var o0|lit|vxs vimp] Hin.
    - apply (Hsv false var o0 Hin).
    - apply (Hsv true var o0 Hin).
    - exact I.
    - destruct (ell_vars kinds s (SL vxs vimp)) as [|[x0 l0] vr]; [exact I|].
      destruct (negb _); [exact I|].
      eapply yields_bind; [apply seq_res_yields; intros j _; exact (H3 _ j Hin)|]. intros rs Hrs. exact (Hsp rs Hrs).
  Qed.

  Lemma inst_atom_closed : forall s name o fl, env_clean s ->
    yields True (fun r => closedb (dom s) r = true) (inst_atom s name o fl).
  Proof.
    intros s name o fl Hs. apply (yields_mono _ _ _ _ _ (inst_atom_spec True s name o fl)). intros r H. unfold closedb.
    destruct H as [[b [Hb ->]]|[-> Hn]]; [rewrite atoms_unflag; exact (Hs _ _ Hb)|].
    rewrite atoms_atom_of. cbn [forallb]. rewrite andb_true_r. destruct Hn as [->|Hn]; [apply orb_true_r|].
    destruct (mem _ (dom s)) eqn:Em; [apply mem_In in Em; contradiction|reflexivity].
  Qed.

End InstStep.
