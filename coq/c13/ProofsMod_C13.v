(* C13, macros imported from modules: when the collecting loop matches every spec shape the provide loop accepts
   ([collection_covers], decided from the generated flags where these lemmas are used), every name a module exports
   ([in_scope_complete]) and every local name a require binds ([bound_in_scope]) is among the identifiers the mangler
   qualifies. *)
From Coq Require Import String List Bool.
From SV Require Import c13.ModelMod_C13.
Import ListNotations.
Open Scope string_scope.

Lemma collect_one_exported : forall atom_ok heads c_atom c_list p n,
  collection_covers atom_ok heads c_atom c_list = true ->
  accepted atom_ok heads p = true -> exported_name p = Some n ->
  In n (collect_one c_atom c_list p).
Proof.
  intros atom_ok heads c_atom c_list p n Hc Ha He.
  unfold collection_covers in Hc. apply andb_true_iff in Hc. destruct Hc as [Hat Hli].
  destruct p as [m | h s].
  - simpl in Ha, He. injection He as He. rewrite Ha in Hat. simpl in Hat.
    rewrite Hat, He. simpl. left. reflexivity.
  - destruct s as [m |]; [| simpl in He; discriminate He].
    simpl in He. injection He as He.
    destruct heads as [| h0 hs]; [simpl in Ha; discriminate Ha |].
    simpl in Hli. rewrite Hli, He. simpl. left. reflexivity.
Qed.

Lemma in_scope_complete : forall atom_ok heads c_atom c_list,
  collection_covers atom_ok heads c_atom c_list = true ->
  forall specs n, exported atom_ok heads specs n -> In n (in_scope_names c_atom c_list specs).
Proof.
  intros atom_ok heads c_atom c_list Hc specs n [p [Hin [Ha He]]].
  unfold in_scope_names. apply in_flat_map. exists p. split; [exact Hin |].
  eapply collect_one_exported; eauto.
Qed.

Lemma exported_atom : forall heads f, exported true heads [PAtom f] f.
Proof. intros heads f. exists (PAtom f). simpl. auto. Qed.

Lemma bound_atom : forall r f l, bound_name r f = Some l -> bound true [] r [PAtom f] l.
Proof. intros r f l H. exists f. split; [apply exported_atom | exact H]. Qed.

(* the local name (before the prefix) an import item gives *)
Definition item_local (it : import_item) : string := match it with INormal n => n | IRenamed _ t => t end.

Lemma lookup_item_in : forall items n r, lookup_item items n = Some r ->
  exists it, In it items /\ item_local it = match r with Some alias => alias | None => n end.
Proof.
  induction items as [| it rest IH]; intros n r H; [discriminate |].
  cbn [lookup_item] in H. destruct (lookup_item rest n) as [r' |] eqn:El.
  - assert (r' = r) by (destruct it; congruence). subst r'.
    destruct (IH n r El) as [it' [Hin Hs]]. exists it'. split; [right; exact Hin | exact Hs].
  - exists it. split; [left; reflexivity |].
    destruct it as [i | f t]; destruct (String.eqb _ n) eqn:Ek; try discriminate; apply String.eqb_eq in Ek;
      inversion H; subst; reflexivity.
Qed.

Lemma item_ids_all : forall r it, item_ids true true true r it = [with_prefix r (item_local it)].
Proof. intros r it. unfold item_ids, with_prefix. destruct it, (r_prefix r); reflexivity. Qed.

Lemma bound_in_scope : forall atom_ok heads c_atom c_list pc_atom pc_list,
  collection_covers atom_ok heads c_atom c_list = true ->
  collection_covers atom_ok heads pc_atom pc_list = true ->
  forall r specs l, bound atom_ok heads r specs l ->
  In l (in_scope_req true true true c_atom c_list pc_atom pc_list r specs).
Proof.
  intros atom_ok heads c_atom c_list pc_atom pc_list Hc Hpc r specs l [n [Hex Hb]].
  unfold in_scope_req, bound_name in *.
  destruct (r_items r) as [| it0 rest] eqn:Eit.
  - inversion Hb; subst. apply in_or_app. right.
    unfold with_prefix. destruct (r_prefix r) as [p |] eqn:Ep.
    + apply in_or_app. right. apply in_map. eapply in_scope_complete; eauto.
    + apply in_or_app. left. eapply in_scope_complete; eauto.
  - apply in_or_app. left. unfold as_identifiers. rewrite Eit.
    destruct (lookup_item (it0 :: rest) n) as [r0 |] eqn:El; [| discriminate].
    destruct (lookup_item_in _ _ _ El) as [it [Hin Hl]].
    apply in_flat_map. exists it. split; [exact Hin |]. rewrite item_ids_all, Hl. left.
    destruct r0; inversion Hb; reflexivity.
Qed.
