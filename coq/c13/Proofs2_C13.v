(* C13 — lemmas on patterns: for a well-formed pattern and a form the matcher accepts, binding succeeds, binds
   exactly the pattern variables, and instantiating the pattern as a template under the bindings gives the form
   back ([S1], for every pattern: [all_P1]). *)
From Coq Require Import List String Ascii Bool Arith Lia.
From SV Require Import c13.Model_C13 c13.Proofs_C13.
Import ListNotations.
Open Scope string_scope.
Open Scope list_scope.
Open Scope nat_scope.

(* The loops over a pattern list hand the sub-pattern of an ellipsis or of a dotted tail to the function
   for one pattern, so a property of a list needs it for those sub-patterns as well as for the members. *)
Definition child_ok (P : pat -> Prop) (p : pat) : Prop := match p with PMany q | PRest q => P q | _ => True end.

Section PatInd.
  Variable P : pat -> Prop.
  Hypothesis HS : forall v, P (PSingle v).
  Hypothesis HY : forall s, P (PSyntax s).
  Hypothesis HL : forall s, P (PLit s).
  Hypothesis HM : forall p, P (PMany p).
  Hypothesis HR : forall p, P (PRest p).
  Hypothesis HN : forall ps, Forall (fun p => P p /\ child_ok P p) ps -> P (PNested ps).
  Fixpoint pat_ind3 (p : pat) : P p /\ child_ok P p :=
    match p with
    | PSingle v => conj (HS v) I
    | PSyntax s => conj (HY s) I
    | PLit s => conj (HL s) I
    | PMany q => conj (HM q) (proj1 (pat_ind3 q))
    | PRest q => conj (HR q) (proj1 (pat_ind3 q))
    | PNested ps => conj (HN ps ((fix go (zs : list pat) : Forall (fun p => P p /\ child_ok P p) zs :=
                                    match zs with
                                    | [] => Forall_nil _
                                    | z :: r => Forall_cons z (pat_ind3 z) (go r)
                                    end) ps)) I
    end.
End PatInd.

Lemma freeze_plain : forall e, plain e = true -> freeze e = e.
Proof.
  induction e using sx_ind2; cbn; intro Hp; try reflexivity; try discriminate.
  apply andb_prop in Hp. destruct Hp as [Hp _]. f_equal.
  rewrite forallb_forall in Hp. rewrite Forall_forall in H.
  rewrite <- (map_id xs) at 2. apply map_ext_in. intros a Ha. apply H; auto.
Qed.

Lemma freeze_plain_list : forall ces, forallb plain ces = true -> map freeze ces = ces.
Proof.
  intros ces H. rewrite forallb_forall in H. rewrite <- (map_id ces) at 2.
  apply map_ext_in. intros a Ha. apply freeze_plain. auto.
Qed.

Lemma seq_opt_seq : forall (A : Type) (d : A) (es : list A) (f : nat -> option A),
  (forall j, j < List.length es -> f j = Some (nth j es d)) ->
  seq_opt (map f (seq 0 (List.length es))) = Some es.
Proof.
  induction es as [|e r IH]; intros f H; [reflexivity|].
  cbn [List.length seq map seq_opt]. rewrite (H 0) by (cbn; lia). cbn [nth].
  rewrite <- seq_shift, map_map. rewrite (IH (fun j => f (S j))); [reflexivity|].
  intros j Hj. rewrite (H (S j)) by (cbn; lia). reflexivity.
Qed.

Lemma Forall2_In_r : forall (A B : Type) (R : A -> B -> Prop) l1 l2 b, Forall2 R l1 l2 -> In b l2 -> exists a, In a l1 /\ R a b.
Proof.
  induction 1; cbn; intro Hb; [contradiction|]. destruct Hb as [->|Hb]; [eauto|].
  destruct (IHForall2 Hb) as [a [Ha Hr]]. eauto.
Qed.

Definition simple (p : pat) : bool := match p with PMany _ | PRest _ => false | _ => true end.
Fixpoint nsimple (ps : list pat) : nat :=
  match ps with [] => 0 | p :: r => (if simple p then 1 else 0) + nsimple r end.
Definition has_many (ps : list pat) : bool := existsb is_many ps.

Lemma has_rest_not_rest : forall p ps, (forall q, p <> PRest q) -> has_rest (p :: ps) = has_rest ps.
Proof. intros p [|q r] H; [destruct p; try reflexivity; edestruct H; reflexivity|reflexivity]. Qed.

Lemma wf_no_many : forall w ps, wf_items_gen w false ps = true -> has_many ps = false.
Proof.
  induction ps as [|p r IH]; cbn; intro H; [reflexivity|].
  destruct p; cbn in *; try (apply andb_prop in H; destruct H as [_ H]; auto); try discriminate.
  destruct p; try discriminate. destruct r; [reflexivity|discriminate].
Qed.

Lemma simple_cons : forall p ps, simple p = true ->
  nsimple (p :: ps) = S (nsimple ps) /\ has_many (p :: ps) = has_many ps /\ has_rest (p :: ps) = has_rest ps.
Proof.
  intros p ps H. split; [cbn; rewrite H; reflexivity|]. split.
  - destruct p; try discriminate H; reflexivity.
  - apply has_rest_not_rest. intros q ->. discriminate H.
Qed.

(* wf_items_gen, match_go_gen, collect_go_gen and pinst_go_gen treat every pattern other than an ellipsis or a
   dotted tail alike *)
Lemma F_wf : forall w allow p ps, simple p = true ->
  wf_items_gen w allow (p :: ps) = (w p && wf_items_gen w allow ps)%bool.
Proof. intros w allow p ps H; destruct p; try discriminate; reflexivity. Qed.

Lemma wf_count : forall w allow ps, wf_items_gen w allow ps = true ->
  List.length ps - (if has_rest ps then 1 else 0) = nsimple ps + (if has_many ps then 1 else 0).
Proof.
  intros w allow ps; revert allow; induction ps as [|p r IH]; intros allow H; [reflexivity|].
  destruct (simple p) eqn:Hs.
  - rewrite F_wf in H by exact Hs. apply andb_prop in H. destruct H as [_ H]. specialize (IH _ H).
    destruct (simple_cons p r Hs) as [-> [-> ->]]. destruct r as [|q r']; [reflexivity|].
    cbn [List.length] in *. destruct (has_rest (q :: r')); lia.
  - destruct p as [ | | |q| |q]; try discriminate Hs.
    + cbn in H. repeat (apply andb_prop in H; destruct H as [H ?]).
      pose proof (wf_no_many _ _ H0) as Hm. specialize (IH _ H0). rewrite Hm in IH.
      rewrite has_rest_not_rest by discriminate. destruct r as [|q' r']; [reflexivity|].
      cbn [nsimple simple has_many existsb is_many orb List.length] in *.
      destruct (has_rest (q' :: r')); lia.
    + cbn in H. destruct q; try discriminate. destruct r; [|discriminate]. reflexivity.
Qed.

Lemma F_match : forall ms p ps ok es k mt imp, simple p = true ->
  match_go_gen ms (p :: ps) {| m_ok := ok; m_es := es; m_k := k; m_tail := mt; m_imp := imp |} =
  match es with
  | e :: es' => (ms p e && match_go_gen ms ps {| m_ok := true; m_es := es'; m_k := k; m_tail := mt; m_imp := imp |})%bool
  | [] => false
  end.
Proof. intros ms p ps ok es k mt imp H; destruct p; try discriminate; reflexivity. Qed.

Lemma collect_go_simple : forall p ps e es k imp, simple p = true ->
  collect_go_gen collect_one (p :: ps) (e :: es) k imp =
  (do (b1, k1) <- collect_one p e; do (b2, k2) <- collect_go_gen collect_one ps es k imp; Ok (b2 ++ b1, k2 ++ k1)).
Proof.
  intros p ps e es k imp H. destruct p as [v|x|l|q|qs|q]; try discriminate H.
  2,4: reflexivity.
  (* for a variable and a literal the loop has the result of collect_one built in *)
  all: cbn [collect_go_gen collect_one bind tl]; fold (collect_go_gen collect_one);
    destruct (collect_go_gen collect_one ps es k imp) as [[b2 k2]| |]; cbn [bind]; rewrite ?app_nil_r; reflexivity.
Qed.

Lemma collect_go_simple_nil : forall p ps k imp, simple p = true ->
  collect_go_gen collect_one (p :: ps) [] k imp = collect_go_gen collect_one ps [] k imp \/
  exists kind, collect_go_gen collect_one (p :: ps) [] k imp = Err kind.
Proof. intros p ps k imp H. destruct p; try discriminate; cbn; eauto. Qed.

Lemma F_pinst : forall pi s p ps, simple p = true ->
  pinst_go_gen pi s (p :: ps) =
  match pi p s, pinst_go_gen pi s ps with
  | Some e, Some (its, tl) => Some (e :: its, tl)
  | _, _ => None
  end.
Proof. intros pi s p ps H; destruct p; try discriminate; reflexivity. Qed.

Lemma F_pinst_many : forall pi s q ps x0 r0 l imp0, pvars q = x0 :: r0 -> lookup x0 s = Some (SL l imp0) ->
  pinst_go_gen pi s (PMany q :: ps) =
  match seq_opt (map (fun j => pi q (proj j (pvars q) s)) (seq 0 (List.length l))), pinst_go_gen pi s ps with
  | Some reps, Some (its, tl) => Some (reps ++ its, tl)
  | _, _ => None
  end.
Proof. intros pi s q ps x0 r0 l imp0 H1 H2. cbn [pinst_go_gen]. rewrite H1, H2. reflexivity. Qed.

(* a pattern list against a form that is not a list: only (sub ... . q) can match, with no repetition *)
Definition atomic (e : sx) : bool := match e with SL _ _ => false | _ => true end.

Lemma nonlist_shape : forall ps,
  (exists sub q, ps = [PMany sub; PRest q]) \/
  (forall bound e, atomic e = true ->
     collect_one (PNested ps) e = Err "BadSyntax" /\ match_single bound (PNested ps) e = false).
Proof.
  (* ps is taken apart in the order in which the match on [PMany _; PRest _] inspects it, which keeps
     the number of cases at 14 *)
  intro ps.
  destruct ps as [|p1 t];
    [|destruct p1 as [ | | |sub| | ];
      [| | |destruct t as [|p2 t2];
            [|destruct p2 as [ | | | | |q]; [| | | | |destruct t2 as [|p3 t3]; [left; eauto|]]]| |]];
    right; intros bound e He; destruct e; try discriminate; split; reflexivity.
Qed.

Lemma collect_one_nonlist : forall sub q e, atomic e = true ->
  collect_one (PNested [PMany sub; PRest q]) e =
  (do (b, k) <- collect_one q e; Ok (b ++ map (fun x => (x, SL [] false)) (pvars sub), k ++ pvars sub)).
Proof. intros sub q e He. destruct e; try discriminate; reflexivity. Qed.

Lemma collect_nested : forall ps xs imp, collect ps xs imp = collect_one (PNested ps) (SL xs imp).
Proof. intros ps xs imp. unfold collect, collect_go. cbn [collect_one]. reflexivity. Qed.

Lemma m_items_spec : forall ms sub n es es',
  m_items ms sub n es = Some es' ->
  exists es1, es = es1 ++ es' /\ List.length es1 = n /\ Forall (fun e => ms sub e = true) es1.
Proof.
  induction n as [|n IH]; cbn; intros es es' H.
  - inversion H; subst. exists []. auto.
  - destruct es as [|e r]; [discriminate|]. destruct (ms sub e) eqn:E; [|discriminate].
    destruct (IH _ _ H) as [es1 [-> [Hl Hf]]]. exists (e :: es1). cbn. auto.
Qed.

Lemma c_items_spec : forall co sub (R : sx -> env -> Prop) es1 rest,
  Forall (fun e => exists b k, co sub e = Ok (b, k) /\ R e b) es1 ->
  exists bs kks, c_items co sub (List.length es1) (es1 ++ rest) = Ok (bs, kks, rest) /\ Forall2 R es1 bs.
Proof.
  induction es1 as [|e r IH]; cbn; intros rest H.
  - exists [], []. auto.
  - destruct (Forall_inv H) as [b [k [Hb HR]]]. pose proof (Forall_inv_tail H) as Hr. rewrite Hb. cbn.
    destruct (IH rest Hr) as [bs [kks [E F]]]. rewrite E. cbn. exists (b :: bs), (k ++ kks). eauto.
Qed.

Definition val (x : string) (b : env) : sx := match lookup x b with Some v => v | None => Lit "" end.

Lemma flat_map_val : forall x (bs : list env), (forall b, In b bs -> In x (dom b)) ->
  flat_map (fun b => match lookup x b with Some v => [v] | None => [] end) bs = map (val x) bs.
Proof.
  induction bs as [|b r IH]; cbn; intro H; [reflexivity|].
  destruct (proj1 (lookup_dom_iff x b) (H b (or_introl eq_refl))) as [v E]. unfold val at 1. rewrite E. cbn.
  f_equal. apply IH. intros b' Hb'. apply H. right; exact Hb'.
Qed.

Definition agree (s b : env) (vars : list string) : Prop := forall x, In x vars -> lookup x s = lookup x b.
Definition domeq (b : env) (vars : list string) : Prop := forall x, In x (dom b) <-> In x vars.

Lemma domeq_dom : forall b vars, dom b = vars -> domeq b vars.
Proof. intros b vars <- x. reflexivity. Qed.

Definition S1 (bound : string -> bool) (p : pat) : Prop :=
  wf1 p = true -> NoDup (pvars p) ->
  forall e, plain e = true -> match_single bound p e = true ->
  exists b k, collect_one p e = Ok (b, k) /\ domeq b (pvars p) /\
              (forall s, agree s b (pvars p) -> pinst p s = Some e).
Definition P1 (bound : string -> bool) (p : pat) : Prop :=
  S1 bound p /\ match p with PMany q | PRest q => S1 bound q | _ => True end.

Lemma env_pieces : forall b1 b2 v1 v2, domeq b1 v1 -> domeq b2 v2 -> NoDup (v1 ++ v2) ->
  domeq (b2 ++ b1) (v1 ++ v2) /\
  (forall s, agree s (b2 ++ b1) (v1 ++ v2) -> agree s b1 v1 /\ agree s b2 v2).
Proof.
  intros b1 b2 v1 v2 D1 D2 ND. split.
  - intro x. rewrite dom_app, !in_app_iff, (D1 x), (D2 x). tauto.
  - intros s A. split; intros x Hx; rewrite (A x) by (apply in_or_app; auto); rewrite lookup_app.
    + rewrite (proj2 (lookup_None_iff x b2)); [reflexivity|].
      intro Hc. apply D2 in Hc. eapply (NoDup_app_inv _ _ _ ND); eauto.
    + destruct (proj1 (lookup_dom_iff x b2) (proj2 (D2 x) Hx)) as [v ->]. reflexivity.
Qed.

Definition Tcond (T : list sx) (imp : bool) : Prop :=
  (T = [] /\ imp = false) \/ (exists t, T = [t] /\ imp = true /\ plain t = true /\ atomic t = true).

(* the bindings of an ellipsis: each variable of q gets the list of its values in the repetitions *)
Definition many_env (q : pat) (bs : list env) : env :=
  map (fun x => (x, SL (flat_map (fun b => match lookup x b with Some v => [v] | None => [] end) bs) false)) (pvars q).

Lemma many_reps : forall q ps es1 bs s,
  Forall2 (fun e b => domeq b (pvars q) /\ forall s, agree s b (pvars q) -> pinst q s = Some e) es1 bs ->
  agree s (many_env q bs) (pvars q) -> negb (is_nil (pvars q)) = true ->
  pinst_go_gen pinst s (PMany q :: ps) =
  match pinst_go_gen pinst s ps with Some (its, tl) => Some (es1 ++ its, tl) | None => None end.
Proof.
  intros q ps es1 bs s F2 As1 Hnn.
  assert (Hlk : forall x, In x (pvars q) -> lookup x s = Some (SL (map (val x) bs) false)).
  { intros x Hx. rewrite (As1 x Hx). unfold many_env. rewrite lookup_gen by exact Hx.
    rewrite flat_map_val; [reflexivity|]. intros b Hb.
    destruct (Forall2_In_r _ _ _ _ _ _ F2 Hb) as [e [_ [D' _]]]. apply D'. exact Hx. }
  destruct (pvars q) as [|x0 r0] eqn:Epv in Hnn; [discriminate Hnn|].
  assert (Hin0 : In x0 (pvars q)) by (rewrite Epv; left; reflexivity).
  rewrite (F_pinst_many _ _ _ _ _ _ _ _ Epv (Hlk x0 Hin0)), map_length.
  rewrite <- (Forall2_length _ _ _ _ _ F2), (seq_opt_seq _ (Lit "")); [reflexivity|].
  intros j Hj. pose proof (Forall2_nth _ _ _ _ _ (Lit "") [] j F2 Hj) as [D' A']. apply A'.
  intros x Hx. unfold proj. rewrite lookup_app, lookup_gen by exact Hx. rewrite (Hlk x Hx).
  change (Lit "") with (val x []) at 1. rewrite map_nth.
  destruct (proj1 (lookup_dom_iff x (nth j bs [])) (proj2 (D' x) Hx)) as [v Ev].
  unfold val. rewrite Ev. symmetry. exact Ev.
Qed.

(* a dotted tail variable takes what is left: the remaining items and the tail of the form *)
Lemma rest_tail : forall v es T k imp, forallb plain es = true -> Tcond T imp ->
  exists arg, collect_go_gen collect_one [PRest (PSingle v)] (es ++ T) k imp = Ok ([(v, arg)], []) /\
    forall pre, (imp = true -> pre ++ es <> []) -> combine_tail pre (Some arg) = SL (pre ++ es ++ T) imp.
Proof.
  intros v es T k imp Hpl HT.
  assert (Hces : forallb plain (es ++ T) = true).
  { rewrite forallb_app, Hpl. destruct HT as [[-> _]|[t [-> [_ [Ht _]]]]]; cbn; [reflexivity|rewrite Ht; reflexivity]. }
  set (arg := match es ++ T with
              | [] => SL [] false
              | [e] => if imp then e else SL (es ++ T) imp
              | _ => SL (es ++ T) imp
              end).
  assert (Hfa : freeze arg = arg).
  { unfold arg. destruct (es ++ T) as [|e1 [|e2 r]] eqn:Ec; [reflexivity| |].
    - destruct imp; [apply freeze_plain; cbn in Hces; apply andb_prop in Hces; tauto|].
      cbn [freeze]. rewrite freeze_plain_list by exact Hces. reflexivity.
    - cbn [freeze]. rewrite freeze_plain_list by exact Hces. reflexivity. }
  exists arg. split; [cbn [collect_go_gen]; fold arg; cbn [collect_one bind]; rewrite Hfa; reflexivity|].
  intros pre Hne. unfold arg. destruct HT as [[-> ->]|[t [-> [-> [Ht Hat]]]]].
  - rewrite app_nil_r. destruct es as [|e1 [|e2 r]]; cbn; rewrite ?app_nil_r; reflexivity.
  - destruct es as [|e1 r].
    + cbn. destruct t; try discriminate; (destruct pre; [exfalso; apply (Hne eq_refl); reflexivity|reflexivity]).
    + destruct r; cbn; reflexivity.
Qed.

Section GLemma.
  Variable bound : string -> bool.
  Let ms := match_single bound.

  Lemma G : forall ps, Forall (P1 bound) ps ->
    forall allow, wf_items_gen wf1 allow ps = true -> NoDup (flat_map pvars ps) ->
    forall es T mt k imp ok,
      forallb plain es = true -> Tcond T imp ->
      (has_rest ps = false -> T = []) ->
      (has_many ps = true -> mt = T /\ List.length es = nsimple ps + k) ->
      (has_many ps = false -> nsimple ps <= List.length es -> mt = skipn (nsimple ps) es ++ T) ->
      (has_many ps = false -> has_rest ps = false -> List.length es = nsimple ps) ->
      match_go_gen ms ps {| m_ok := ok; m_es := es; m_k := k; m_tail := mt; m_imp := imp |} = true ->
      exists b kk, collect_go_gen collect_one ps (es ++ T) k imp = Ok (b, kk) /\ domeq b (flat_map pvars ps) /\
        forall s, agree s b (flat_map pvars ps) ->
          exists its tl, pinst_go_gen pinst s ps = Some (its, tl) /\
            forall pre, (imp = true -> pre ++ es <> []) ->
              combine_tail (pre ++ its) tl = SL (pre ++ es ++ T) imp.
  Proof.
    induction ps as [|p ps' IH]; intros HP allow Hwf ND es T mt k imp ok Hpl HT HrT Hm Hnm Hlen Hmatch.
    - assert (T = []) by (apply HrT; reflexivity). subst T.
      assert (Hes : es = []).
      { specialize (Hlen eq_refl eq_refl). destruct es; [reflexivity|discriminate]. }
      subst es. exists [], []. split; [reflexivity|]. split; [apply domeq_dom; reflexivity|].
      intros s _. exists [], None. split; [reflexivity|]. intros pre _.
      destruct HT as [[_ ->]|[t [Ht _]]]; [|discriminate]. cbn. rewrite !app_nil_r. reflexivity.
    - destruct (Forall_inv HP) as [HS1 HSq]. pose proof (Forall_inv_tail HP) as HPr.
      cbn [flat_map] in ND. destruct (NoDup_app_inv _ _ _ ND) as [ND1 [ND2 _]].
      destruct (simple p) eqn:Hsp.
      + rewrite F_wf in Hwf by exact Hsp. apply andb_prop in Hwf. destruct Hwf as [Hw1 Hw2].
        unfold ms in Hmatch. rewrite F_match in Hmatch by exact Hsp.
        destruct es as [|e es']; [discriminate|]. apply andb_prop in Hmatch. destruct Hmatch as [Hme Hmg].
        cbn [forallb] in Hpl. apply andb_prop in Hpl. destruct Hpl as [Hpe Hpl'].
        destruct (HS1 Hw1 ND1 e Hpe Hme) as [b1 [k1 [E1 [D1 A1]]]].
        destruct (simple_cons p ps' Hsp) as [Hns [Hhm Hhr]]. rewrite Hns, Hhm in Hm, Hnm, Hlen. rewrite Hhr in HrT, Hlen.
        destruct (IH HPr allow Hw2 ND2 es' T mt k imp true Hpl' HT HrT) as [b2 [k2 [E2 [D2 A2]]]].
        { intro H. destruct (Hm H) as [-> Hl]. split; [reflexivity|]. cbn in Hl. lia. }
        { intros H Hle. rewrite (Hnm H) by (cbn; lia). reflexivity. }
        { intros H1 H2. specialize (Hlen H1 H2). cbn in Hlen. lia. }
        { exact Hmg. }
        exists (b2 ++ b1), (k2 ++ k1).
        split; [cbn [app]; rewrite collect_go_simple, E1 by exact Hsp; cbn [bind]; rewrite E2; reflexivity|].
        destruct (env_pieces b1 b2 _ _ D1 D2 ND) as [Dq Aq]. split; [exact Dq|].
        intros s As. destruct (Aq s As) as [As1 As2].
        destruct (A2 s As2) as [its [tl [Ei C]]].
        exists (e :: its), tl. split.
        * rewrite F_pinst by exact Hsp. rewrite (A1 s As1), Ei. reflexivity.
        * intros pre _. specialize (C (pre ++ [e])).
          rewrite <- !app_assoc in C. cbn in C. apply C. intros _. destruct pre; discriminate.
      + destruct p as [v|x|x|q|qs|r]; try discriminate Hsp.
        * (* PMany q *)
          cbn in Hwf. repeat (apply andb_prop in Hwf; destruct Hwf as [Hwf ?]).
          rename H into Hw2, H0 into Hnn, H1 into Hwq.
          pose proof (wf_no_many _ _ Hw2) as Hnm'.
          assert (Hhm : has_many (PMany q :: ps') = true) by reflexivity.
          destruct (Hm Hhm) as [-> Hl]. cbn [nsimple simple] in Hl.
          unfold ms in Hmatch. cbn [match_go_gen] in Hmatch. fold (match_go_gen (match_single bound)) in Hmatch.
          cbn [m_k m_es m_tail m_imp] in Hmatch.
          destruct (m_items (match_single bound) q k es) as [es2|] eqn:Emi; [|discriminate].
          destruct (m_items_spec _ _ _ _ _ Emi) as [es1 [-> [Hl1 Hf1]]].
          rewrite app_length in Hl. assert (Hl2 : List.length es2 = nsimple ps') by lia.
          rewrite forallb_app in Hpl. apply andb_prop in Hpl. destruct Hpl as [Hp1 Hp2].
          rewrite forallb_forall in Hp1. rewrite Forall_forall in Hf1.
          (* each repetition e is bound by an environment b for the variables of q that gives back e *)
          destruct (c_items_spec collect_one q
                      (fun e b => domeq b (pvars q) /\ forall s, agree s b (pvars q) -> pinst q s = Some e)
                      es1 (es2 ++ T)) as [bs [kks [Eci F2]]].
          { apply Forall_forall. intros e He. apply (HSq Hwq ND1 e (Hp1 e He) (Hf1 e He)). }
          rewrite Hl1 in Eci. rewrite has_rest_not_rest in HrT by discriminate.
          destruct (IH HPr false Hw2 ND2 es2 T T k imp true Hp2 HT HrT) as [b2 [k2 [E2 [D2 A2]]]].
          { intro H. congruence. }
          { intros _ _. rewrite <- Hl2. rewrite skipn_all. reflexivity. }
          { intros _ _. exact Hl2. }
          { exact Hmatch. }
          exists (b2 ++ many_env q bs). eexists. split.
          { cbn [collect_go_gen]. fold (collect_go_gen collect_one). rewrite <- app_assoc. rewrite Eci. cbn [bind].
            rewrite E2. cbn [bind]. reflexivity. }
          assert (D1 : domeq (many_env q bs) (pvars q)) by apply domeq_dom, dom_gen.
          destruct (env_pieces _ b2 _ _ D1 D2 ND) as [Dq Aq]. split; [exact Dq|].
          intros s As. destruct (Aq s As) as [As1 As2].
          destruct (A2 s As2) as [its [tl [Ei C]]].
          exists (es1 ++ its), tl. split.
          { rewrite (many_reps q ps' es1 bs s F2 As1 Hnn), Ei. reflexivity. }
          { intros pre Hne. specialize (C (pre ++ es1)). rewrite <- !app_assoc in C. rewrite <- !app_assoc.
            apply C. exact Hne. }
        * (* PRest r *)
          cbn in Hwf. destruct r as [v| | | | | ]; try discriminate Hwf. destruct ps' as [|? ?]; [|discriminate Hwf].
          assert (Hmt : mt = es ++ T) by (apply (Hnm eq_refl); cbn; lia). subst mt.
          destruct (rest_tail v es T k imp Hpl HT) as [arg [Ec C]].
          exists [(v, arg)], []. split; [exact Ec|]. split; [apply domeq_dom; reflexivity|].
          intros s As. exists [], (Some arg). split.
          { cbn [pinst_go_gen pinst]. rewrite (As v (or_introl eq_refl)). cbn. rewrite String.eqb_refl. reflexivity. }
          intros pre Hne. rewrite app_nil_r. apply C. exact Hne.
  Qed.
End GLemma.
Section Patterns.
  Variable bound : string -> bool.

  Lemma plain_atom : forall e, plain e = true -> atomic e = true ->
    (exists s, e = Id s 0 /\ String.eqb s ELL = false) \/ (exists s, e = Lit s).
  Proof.
    intros [s o|s o|s|xs imp] Hp Ha; try discriminate.
    - cbn in Hp. apply andb_prop in Hp. destruct Hp as [Ho Hs]. apply Nat.eqb_eq in Ho. subst.
      apply negb_true_iff in Hs. left; eauto.
    - right; eauto.
  Qed.

  (* a user-written list form: the items before the dot, and the dotted tail *)
  Lemma plain_split : forall xs imp, plain (SL xs imp) = true ->
    exists es T, xs = es ++ T /\ Tcond T imp /\ forallb plain es = true /\
                 es = (if imp then removelast' xs else xs) /\ (imp = true -> es <> []).
  Proof.
    intros xs imp Hpl. cbn [plain] in Hpl. apply andb_prop in Hpl. destruct Hpl as [Hpx Himp].
    destruct imp.
    - cbn [negb orb] in Himp. apply andb_prop in Himp. destruct Himp as [Hlen Hlast]. apply Nat.leb_le in Hlen.
      destruct (last_opt_some _ xs) as [t Ht]; [destruct xs; [cbn in Hlen; lia|discriminate]|].
      exists (removelast' xs), [t]. pose proof (removelast'_last _ _ _ Ht) as Hx.
      rewrite <- Hx, forallb_app in Hpx. apply andb_prop in Hpx. destruct Hpx as [Hp1 Hp2]. cbn in Hp2.
      rewrite andb_true_r in Hp2. rewrite Ht in Hlast.
      split; [symmetry; exact Hx|]. split; [|split; [exact Hp1|split; [reflexivity|]]].
      + right. exists t. repeat split; auto.
      + intros _ Hc. pose proof (removelast'_length _ xs) as Hl. rewrite Hc in Hl. cbn in Hl. lia.
    - exists xs, []. rewrite app_nil_r. repeat split; auto. left; auto. intro; discriminate.
  Qed.

  Lemma S1_nested_list : forall ps, Forall (P1 bound) ps ->
    wf_items_gen wf1 true ps = true -> NoDup (flat_map pvars ps) ->
    forall xs imp, plain (SL xs imp) = true ->
    match_single bound (PNested ps) (SL xs imp) = true ->
    exists b k, collect_one (PNested ps) (SL xs imp) = Ok (b, k) /\ domeq b (flat_map pvars ps) /\
                (forall s, agree s b (flat_map pvars ps) -> pinst (PNested ps) s = Some (SL xs imp)).
  Proof.
    intros ps HP Hwf ND xs imp Hpl Hm.
    destruct (plain_split xs imp Hpl) as [es [T [Hxs [HT [Hpe [Hes Hne]]]]]].
    pose proof (wf_count _ _ _ Hwf) as Hcnt.
    cbn [match_single] in Hm. apply andb_prop in Hm. destruct Hm as [Hok Hgo].
    unfold mprep in Hok, Hgo. cbv zeta in Hok, Hgo. cbn [m_ok] in Hok.
    rewrite <- Hes in Hok, Hgo. fold (has_many ps) in Hok, Hgo, Hcnt. rewrite Hcnt in Hok, Hgo.
    apply andb_prop in Hok. destruct Hok as [Hlen Htail].
    assert (Hsk : skipn (List.length es) xs = T) by (rewrite Hxs, skipn_app, skipn_all, Nat.sub_diag; reflexivity).
    (* what mprep has computed is the state the loop invariant of G asks for *)
    eapply (G bound ps HP true Hwf ND es T) in Hgo; [|exact Hpe|exact HT| | | |].
    - destruct Hgo as [b [kk [Ec [Dq Aq]]]]. exists b, kk. split.
      + cbn [collect_one]. unfold cprep_k. fold (has_many ps).
        assert (Hl : (if imp then List.length xs - 1 else List.length xs) = List.length es).
        { rewrite Hes. destruct imp; [rewrite removelast'_length|]; reflexivity. }
        rewrite Hl, Hcnt, Hxs. exact Ec.
      + split; [exact Dq|]. intros s As. destruct (Aq s As) as [its [tl [Ei C]]].
        cbn [pinst]. rewrite Ei. specialize (C [] (fun Hi => Hne Hi)). cbn [app] in C. rewrite C, Hxs. reflexivity.
    - (* no rest => no dotted tail *)
      intro Hr. rewrite Hr in Hlen, Htail. rewrite orb_false_r in Hlen. cbn [orb] in Htail.
      destruct (has_many ps).
      + rewrite Hsk in Htail. destruct T; [reflexivity|discriminate].
      + apply Nat.eqb_eq in Hlen. rewrite Nat.add_0_r in Hlen, Htail. rewrite <- Hlen, Hsk in Htail.
        destruct T; [reflexivity|discriminate].
    - intro Hmany. rewrite Hmany in Hlen |- *. cbn [orb] in Hlen. apply Nat.leb_le in Hlen. split; [exact Hsk|lia].
    - intros Hmany Hle. rewrite Hmany. rewrite Nat.add_0_r. rewrite Hxs, skipn_app.
      replace (nsimple ps - List.length es) with 0 by lia. reflexivity.
    - intros Hmany Hr. rewrite Hmany, Hr in Hlen. cbn [orb] in Hlen. apply Nat.eqb_eq in Hlen. lia.
  Qed.

  Lemma S1_single : forall v, S1 bound (PSingle v).
  Proof.
    intros v _ _ e Hp _. exists [(v, e)], []. split; [cbn; rewrite freeze_plain by exact Hp; reflexivity|].
    split; [apply domeq_dom; reflexivity|].
    intros s As. cbn. rewrite (As v (or_introl eq_refl)). cbn. rewrite String.eqb_refl. reflexivity.
  Qed.

  Lemma S1_syntax : forall x, S1 bound (PSyntax x).
  Proof.
    intros x _ _ e Hp Hm. cbn in Hm.
    destruct e as [s o|s o|s|xs imp]; try discriminate.
    cbn in Hp. apply andb_prop in Hp. destruct Hp as [Ho Hs]. apply Nat.eqb_eq in Ho. subst o.
    apply negb_true_iff in Hs. unfold syntax_matches in Hm. rewrite Hs in Hm. cbn [orb] in Hm.
    apply andb_prop in Hm. destruct Hm as [Hsx _]. apply String.eqb_eq in Hsx. subst s.
    exists [], []. split; [cbn; rewrite String.eqb_refl, orb_true_r; reflexivity|].
    split; [apply domeq_dom; reflexivity|]. intros s _. reflexivity.
  Qed.

  Lemma S1_lit : forall l, S1 bound (PLit l).
  Proof.
    intros l _ _ e _ Hm. cbn in Hm. destruct e as [s o|s o|s|xs imp]; try discriminate.
    apply String.eqb_eq in Hm. subst s. exists [], []. split; [reflexivity|].
    split; [apply domeq_dom; reflexivity|]. intros s _. reflexivity.
  Qed.

  (* the quirk: (sub ... . v) matches an atom, binding v to it and the variables of sub to () *)
  Lemma S1_nested_atom : forall ps e, wf_items_gen wf1 true ps = true -> NoDup (flat_map pvars ps) ->
    plain e = true -> atomic e = true -> match_single bound (PNested ps) e = true ->
    exists b k, collect_one (PNested ps) e = Ok (b, k) /\ domeq b (flat_map pvars ps) /\
                (forall s, agree s b (flat_map pvars ps) -> pinst (PNested ps) s = Some e).
  Proof.
    intros ps e Hwf ND Hp Ha Hm.
    destruct (nonlist_shape ps) as [[sub [q ->]]|Hno]; [|rewrite (proj2 (Hno bound e Ha)) in Hm; discriminate].
    cbn in Hwf. destruct q as [v| | | | | ]; try (rewrite !andb_false_r in Hwf; discriminate).
    repeat (apply andb_prop in Hwf; destruct Hwf as [Hwf ?]). rename H0 into Hnn.
    cbn [flat_map pvars] in ND. rewrite app_nil_r in ND.
    exists ([(v, e)] ++ map (fun x => (x, SL [] false)) (pvars sub)). eexists. split.
    { rewrite collect_one_nonlist by exact Ha. cbn [collect_one bind]. rewrite freeze_plain by exact Hp. reflexivity. }
    destruct (env_pieces (map (fun x => (x, SL [] false)) (pvars sub)) [(v, e)] _ [v]
                (domeq_dom _ _ (dom_gen _ _)) (domeq_dom _ _ eq_refl) ND) as [Dq Aq].
    cbn [flat_map pvars]. rewrite app_nil_r. split; [exact Dq|].
    intros s As. destruct (Aq s As) as [As1 As2].
    assert (Hlv : lookup v s = Some e).
    { rewrite (As2 v (or_introl eq_refl)). cbn. rewrite String.eqb_refl. reflexivity. }
    (* no repetition: the ellipsis variables are bound to () *)
    cbn [pinst]. rewrite (many_reps sub _ [] [] s (Forall2_nil _) As1 Hnn).
    cbn [pinst_go_gen pinst]. rewrite Hlv. cbn [app combine_tail].
    destruct e; try discriminate; reflexivity.
  Qed.

  Lemma all_P1 : forall p, P1 bound p.
  Proof.
    intro p. apply (pat_ind3 (S1 bound)); try (intros q Hw; discriminate).
    - apply S1_single.
    - apply S1_syntax.
    - apply S1_lit.
    - intros ps H Hw ND e Hp Hm. cbn [wf1] in Hw. cbn [pvars] in ND. destruct (atomic e) eqn:Ha.
      + apply (S1_nested_atom ps e Hw ND Hp Ha Hm).
      + destruct e; try discriminate. apply (S1_nested_list ps H Hw ND xs imp Hp Hm).
  Qed.

  Lemma nodupb_NoDup : forall l, nodupb l = true -> NoDup l.
  Proof. exact (nodup_by_NoDup _ String.eqb_eq). Qed.
End Patterns.
