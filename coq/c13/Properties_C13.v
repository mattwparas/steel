(* C13 — the property theorems.  Pins_C13.v (compiled on every run) checks each statement and prints its assumptions. *)
From Coq Require Import List String Bool Arith.
From SV Require Import c13.Model_C13 c13.Proofs_C13 c13.Proofs2_C13 c13.Proofs3_C13 c13.Proofs4_C13 c13.Proofs5_C13.
Import ListNotations.
Open Scope string_scope.

(* Hygiene, binding-resolution view.  For every fully expanded program (any S-expression whose identifier
   occurrences carry their origin): outside the known class the engine's resolution (by spelling, after the ##
   renaming) and the hygienic resolution (by spelling and origin) pick the same binder for every occurrence ... *)
Theorem C13_hygiene_outside_known : forall e,
  known_class e = false -> resolution_engine e = resolution_hygienic e.
Proof.
  intros e H. apply map_ext_in. intros o Ho.
  pose proof (resolve_captured o) as R. rewrite (known_class_elim e o H Ho) in R. exact R.
Qed.

(* ... and inside the class they differ (the class is exact, not merely sufficient). *)
Theorem C13_hygiene_known_exact : forall e,
  known_class e = true -> resolution_engine e <> resolution_hygienic e.
Proof.
  intros e H. apply existsb_exists in H. destruct H as [o [Ho Hc]].
  pose proof (resolve_captured o) as R. rewrite Hc in R. exact (map_differ _ _ _ _ _ o Ho R).
Qed.

(* every capture is of one of the three recorded kinds *)
Theorem C13_capture_kinds : forall o, captured o = true ->
  capture_kind o = "nested_same_spelling" \/ capture_kind o = "use_site_shadowing" \/
  capture_kind o = "unrenamed_binder".
Proof.
  intros o H. unfold captured in H. unfold capture_kind.
  destruct (find (same_sp (fst o)) (snd o)) as [b|]; [|discriminate].
  apply negb_true_iff in H. rewrite H. destruct (snd (fst o)), (snd b); auto.
Qed.

(* a syntactic sufficient condition: template binders all carry the ## prefix, each ##-spelling in scope
   belongs to the instantiation of the occurrence, and un-prefixed spellings are bound by user binders for
   user occurrences only *)
Theorem C13_syntactic_sufficient : forall e,
  forallb syntactic_ok (occs [] e) = true -> known_class e = false.
Proof.
  intros e H. apply known_class_intro. intros [v g] b Ho Hb Hs; cbn [fst snd] in *.
  rewrite forallb_forall in H. specialize (H _ Ho).
  unfold syntactic_ok in H; cbn [fst snd] in H. rewrite forallb_forall in H. specialize (H _ Hb).
  unfold same_sp in H. rewrite (proj2 (String.eqb_eq _ _) Hs) in H. cbn [negb orb] in H.
  destruct (has_pfx (fst v)); apply andb_prop in H; destruct H as [H1 H2].
  - apply Nat.eqb_eq. exact H2.
  - apply Nat.eqb_eq in H1, H2. congruence.
Qed.

(* Template instantiation (ReplaceExpressions with its ellipsis expansion, any template, any fuel): no
   identifier bound in the environment survives, i.e. every pattern variable has been replaced (the wildcard _
   is never substituted).  env_clean: the matched sub-forms contain no identifier that is itself a (## -prefixed)
   pattern variable of the macro - guaranteed for user code by the reader, which rejects ## identifiers. *)
Theorem C13_instantiate_closed : forall in_scope is_global kinds s, env_clean s ->
  forall fuel fb t r, inst in_scope is_global kinds fuel s fb t = Ok r -> closedb (dom s) r = true.
Proof.
  intros in_scope is_global kinds s Hs fuel fb t r H.
  change (yields True (fun r => closedb (dom s) r = true) (Ok r)). rewrite <- H. clear H r. revert fb t.
  induction fuel as [|f IH]; intros fb t; [exact I|].
  destruct t as [name o|name o|lit|args imp];
    [change (Id name o) with (atom_of false name o)|change (UId name o) with (atom_of true name o)| |].
  1-2: (rewrite inst_atom_eq; exact (inst_atom_closed in_scope is_global s _ _ _ Hs)).
  - reflexivity.
  - rewrite inst_SL. destruct (expand_step _ _ _ f s fb args) as [args1| |]; try exact I. cbn [bind].
    eapply yields_bind; [exact (seq_res_yields _ _ _ _ _ _ (fun a _ => IH fb a))|]. intros args2 Hall.
    destruct imp; cbn [yields]; [rewrite closedb_make_improper|]; apply closedb_SL; assumption.
Qed.

(* Matching and binding are total: match_list is a (fuel-free, structurally recursive) boolean function and
   collect_bindings returns bindings or some error kind, never out-of-fuel, on every pattern list and every use,
   proper or improper.  The kinds of the model are BadSyntax, ArityMismatch and, for an ellipsis directly under an
   ellipsis or a dotted tail (a pattern parse_from_list does not build), "Unreachable"; the statement does not
   say which one. *)
Theorem C13_match_total : forall ps xs imp,
  (exists b k, collect ps xs imp = Ok (b, k)) \/ (exists kind, collect ps xs imp = Err kind).
Proof.
  intros ps xs imp.
  pose proof (collect_over (fun _ => True) ps xs imp (proj2 (Forall_forall _ _) (fun x _ v _ => I))) as H.
  destruct (collect ps xs imp) as [[b k]|kind|]; [left; eauto|right; eauto|destruct H].
Qed.

(* What the matcher accepts, the binder binds without loss (this direction only; nothing is said about a form
   the matcher rejects).  For every pattern list in the class wf_pattern (described in Model_C13.v; any nesting,
   ellipsis followed by more patterns and by a dotted tail) and every user-written form (proper or dotted):
   if match_list_pattern accepts, collect_bindings (the repaired code) succeeds, binds exactly the pattern
   variables, and instantiating the pattern itself as a template under these bindings gives back the form. *)
Theorem C13_match_sound_complete : forall bound ps xs imp,
  wf_pattern ps = true -> plain (SL xs imp) = true -> match_list bound ps xs imp = true ->
  exists b k, collect ps xs imp = Ok (b, k) /\
    (forall x, In x (dom b) <-> In x (flat_map pvars ps)) /\
    pinst (PNested ps) b = Some (SL xs imp).
Proof.
  intros bound ps xs imp Hwf Hp Hm. apply andb_prop in Hwf. destruct Hwf as [Hw Hn].
  destruct (proj1 (all_P1 bound (PNested ps)) Hw (nodupb_NoDup _ Hn) (SL xs imp) Hp Hm) as [b [k [E [D A]]]].
  exists b, k. split; [rewrite collect_nested; exact E|]. split; [exact D|]. apply A. intros x _. reflexivity.
Qed.

(* non-vacuity: (x (a b ...) ... c . r) against (0 (1 2 3) (4) 6 . 7) *)
Example C13_match_nonvacuous :
  let ps := [PSingle "x"; PMany (PNested [PSingle "a"; PMany (PSingle "b")]); PSingle "c"; PRest (PSingle "r")] in
  let xs := [Lit "0"; SL [Lit "1"; Lit "2"; Lit "3"] false; SL [Lit "4"] false; Lit "6"; Lit "7"] in
  wf_pattern ps = true /\ plain (SL xs true) = true /\ match_list (fun _ => false) ps xs true = true /\
  show_env (collect ps xs true) = "[r 7] [c 6] [a (1 4)] [b ((2 3) ())] [x 0]".
Proof. vm_compute. repeat split. Qed.

(* Fuel bound for template instantiation (the ReplaceExpressions model, any template): with
   fuel >= depth of the template + D, where D bounds the nesting depth of the matched sub-forms, inst never
   runs out of fuel, so up to that depth the expander's INST_FUEL = 4096 suffices.
   Hypotheses: env_ok - no identifier of a matched sub-form is a key of the environment (keys are the
   ##-prefixed pattern variables; the reader rejects ## in user code - without this the engine itself loops
   on (m (##a ...))); no wildcard key; uid_ok - the in-scope ## prefixing of ReplaceExpressions does not
   apply to a free identifier of the template (no use-site local binding shadows a non-global free identifier
   of the template). *)
Theorem C13_inst_fuel : forall in_scope is_global kinds s t D fuel,
  ~ In "_" (dom s) ->
  env_ok in_scope is_global (dom s) D s ->
  uid_ok in_scope is_global t ->
  depth t + D <= fuel ->
  inst in_scope is_global kinds fuel s [] t <> OutOfFuel.
Proof.
  intros in_scope is_global kinds s t D fuel Hu He Ht Hf.
  refine (_ (inst_bound in_scope is_global kinds (dom s) Hu fuel D s [] t _ Ht Hf)); [intros Y E; rewrite E in Y; exact Y|].
  constructor; [tauto|intros x []|]. intros E x v [-> | ->] Hin; [|destruct Hin].
  destruct (He x v Hin). auto.
Qed.

(* Every occurrence and every binder in scope that the resolution looks at is an
   identifier atom of the program, hence a program in which no spelling occurs with two different origins
   (template-introduced identifiers carry spellings the user's forms do not use, and vice versa) is outside
   the known class, i.e. resolved hygienically by C13_hygiene_outside_known. *)
Theorem C13_no_shared_spelling : forall e,
  (forall v b, In v (ids e) -> In b (ids e) -> fst v = fst b -> snd v = snd b) -> known_class e = false.
Proof. intros e H. apply no_shared_spelling_nt. intros v b Hv Hb _. apply H; assumption. Qed.

(* End to end for one macro use at top level (SteelMacro::expand = match_case + collect_bindings +
   ReplaceExpressions on the stamped, ##-renamed template): if the use satisfies the decidable condition safe_use
   - written by the user, and none of its non-keyword spellings occurs in a template of the macro (neither as a
   free identifier nor as a ##-renamed one) - then the expansion is outside the known class and every identifier
   occurrence resolves exactly as under the hygienic reading.  Proof: in the stamped template (origin i) and in the
   arguments (origin 0) the origin of a non-keyword identifier is a function of its spelling, and what holds of every
   identifier of both holds of every identifier of the bindings and of the output - collect_over, inst_over - so no
   non-keyword spelling is shared between two origins (no_shared_spelling_nt). *)
Theorem C13_expand_use_hygienic : forall globals m i args imp out,
  safe_use m i args = true ->
  expand_use globals m [] i args imp = Ok out ->
  known_class out = false /\ resolution_engine out = resolution_hygienic out.
Proof.
  intros globals m i args imp out Hs H.
  enough (Hk : known_class out = false) by (split; [exact Hk|exact (C13_hygiene_outside_known out Hk)]).
  unfold safe_use in Hs.
  apply andb_prop in Hs. destruct Hs as [Hs Hc]. apply andb_prop in Hs. destruct Hs as [_ Ho].
  rewrite forallb_forall in Ho, Hc.
  unfold expand_use in H.
  destruct (find (fun c => match_list (fun s => mem s []) (c_pats c) args imp) (m_cases m)) as [c|] eqn:Ef; [|discriminate].
  apply find_some in Ef. destruct Ef as [Hcin _]. specialize (Hc c Hcin). rewrite forallb_forall in Hc.
  apply bind_ok in H. destruct H as [[b kinds] [Ec H]].
  (* the origin of an identifier is a function of its spelling: in the arguments, in the stamped template, hence
     in the bindings and in the output *)
  set (P := fun v : ident => mem (fst v) TOKENS = false -> snd v = if mem (fst v) (atoms (c_tmpl c)) then i else 0).
  assert (Hb : over_env P b).
  { refine (_ (collect_over P (c_pats c) args imp _)); [rewrite Ec; exact (fun h => h)|].
    apply Forall_forall. intros x Hx v Hv Hnt. assert (Hin : In v (flat_map ids args)) by (apply in_flat_map; eauto).
    specialize (Hc v Hin). rewrite Hnt in Hc. apply negb_true_iff in Hc. rewrite Hc. apply Nat.eqb_eq, (Ho v Hin). }
  assert (Hout : over P out).
  { change (yields True (over P) (Ok out)). rewrite <- H.
    apply (inst_over P _ _ kinds (fun _ => eq_refl) _ _ _ _ Hb (fun _ _ (F : In _ []) => match F with end)).
    intros v Hv _. apply ids_stamp in Hv. destruct Hv as [Hi' Hin]. rewrite (proj2 (mem_In _ _) Hin). exact Hi'. }
  apply no_shared_spelling_nt. intros v w Hv Hw Hnt Hsp.
  rewrite (Hout v Hv Hnt), (Hout w Hw) by (rewrite <- Hsp; exact Hnt). rewrite Hsp. reflexivity.
Qed.

(* non-vacuity: (m2 p 5) is a safe use and expands; (uses-list list) is not safe (it mentions the template's
   free identifier), (m2 t 5) is safe although m2 binds t (the binder is spelled ##t in the template) *)
Example C13_safe_use_nonvacuous :
  safe_use W_m2 1 [Id "p" 0; Lit "5"] = true /\
  (exists out, expand_use ["list"] W_m2 [] 1 [Id "p" 0; Lit "5"] false = Ok out /\
               show out = "(let ((##t 2)) (list p 5 ##t))" /\ known_class out = false) /\
  safe_use W_m2 1 [Id "t" 0; Lit "5"] = true /\
  safe_use W_ul 1 [Id "list" 0] = false.
Proof.
  split; [vm_compute; reflexivity|]. split; [|split; vm_compute; reflexivity].
  eexists. split; [vm_compute; reflexivity|]. split; vm_compute; reflexivity.
Qed.

(* F7, first witness: nested macros introducing the same spelling; replayed on the engine by checks/c13.py *)
Theorem C13_hygiene_refuted :
  exists e, expand_top [W_m; W_m2] ["list"] W_nested = Ok e /\
            show e = "(let ((##t 1)) (let ((##t 2)) (list ##t 0 ##t)))" /\
            resolution_engine e = [None; Some 0; Some 0] /\
            resolution_hygienic e = [None; Some 1; Some 0] /\
            map capture_kind (occs [] e) = ["none"; "nested_same_spelling"; "none"].
Proof. eexists. split; [vm_compute; reflexivity|]. vm_compute. repeat split. Qed.

Example C13_hygiene_noncolliding :
  exists e, expand_top [W_m; W_m2'] ["list"] W_nested = Ok e /\
            known_class e = false /\ resolution_engine e = [None; Some 1; Some 0].
Proof. eexists. split; [vm_compute; reflexivity|]. vm_compute. repeat split. Qed.

(* F7, second witness: a use-site binding captures a free identifier of the template *)
Theorem C13_reftransp_refuted :
  exists e, expand_top [W_ul] ["list"] W_shadow = Ok e /\
            show e = "(let ((list (lambda args (quote shadowed)))) (list 1))" /\
            resolution_engine e = [Some 0] /\ resolution_hygienic e = [None] /\
            map capture_kind (occs [] e) = ["use_site_shadowing"].
Proof. eexists. split; [vm_compute; reflexivity|]. vm_compute. repeat split. Qed.

Example C13_reftransp_noshadow :
  exists e, expand_top [W_ul] ["list"] W_noshadow = Ok e /\
            known_class e = false /\ resolution_engine e = [None].
Proof. eexists. split; [vm_compute; reflexivity|]. vm_compute. repeat split. Qed.
