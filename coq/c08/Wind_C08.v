From Coq Require Import ZArith List Bool String Arith Lia.
From SV Require Import lib.Lang.
Import ListNotations.

(* the wind thunks a continuation jump schedules (Lang.apply_proc, VCont case) *)
Definition plan (cur w : list wind) : list (bool * wind) :=
  let n := common_suffix_len cur w in
  (map (fun x => (false, x)) (firstn (List.length cur - n) cur) ++
   map (fun x => (true, x)) (rev (firstn (List.length w - n) w)))%list.

(* executing a plan on the stack of entered extents (innermost first): an exit must concern the innermost
   entered extent, an entry pushes *)
Fixpoint apply_plan (stack : list nat) (p : list (bool * wind)) : option (list nat) :=
  match p with
  | [] => Some stack
  | (false, x) :: r => match stack with
                       | i :: s' => if Nat.eqb i (wind_id x) then apply_plan s' r else None
                       | [] => None
                       end
  | (true, x) :: r => apply_plan (wind_id x :: stack) r
  end.

Lemma common_prefix_firstn : forall a b,
  firstn (common_prefix_len a b) a = firstn (common_prefix_len a b) b.
Proof.
  induction a as [| x a IH]; intros b; [reflexivity |].
  destruct b as [| y b]; [reflexivity |]. cbn [common_prefix_len].
  destruct (Nat.eqb_spec x y); [| reflexivity].
  subst y. cbn [firstn]. rewrite (IH b). reflexivity.
Qed.

Lemma common_suffix_ids : forall a b, let n := common_suffix_len a b in
  map wind_id (skipn (List.length a - n) a) = map wind_id (skipn (List.length b - n) b).
Proof.
  intros a b n. unfold n, common_suffix_len.
  pose proof (common_prefix_firstn (rev (map wind_id a)) (rev (map wind_id b))) as H1.
  apply (f_equal (@rev _)) in H1. rewrite !firstn_rev, !rev_involutive, !map_length in H1.
  rewrite <- !skipn_map. exact H1.
Qed.

Lemma apply_plan_leave : forall l s r,
  apply_plan (map wind_id l ++ s) (map (fun x => (false, x)) l ++ r) = apply_plan s r.
Proof.
  induction l as [| x l IH]; intros s r; [reflexivity |]. cbn. rewrite Nat.eqb_refl. apply IH.
Qed.

Lemma apply_plan_enter : forall l s,
  apply_plan s (map (fun x => (true, x)) l) = Some (rev (map wind_id l) ++ s)%list.
Proof.
  induction l as [| x l IH]; intros s; [reflexivity |]. cbn [map apply_plan]. rewrite IH.
  cbn [map rev]. rewrite <- app_assoc. reflexivity.
Qed.

Lemma jump_uses_plan : forall st k w v,
  apply_proc st (VCont k w) [v] = set_ck st (CRet VVoid) [FRewind (plan (winds st) w) k w v].
Proof. intros. reflexivity. Qed.

Lemma wind_ret_step : forall st x v k,
  ctl st = CRet x -> kont st = FWindRet v :: k ->
  step st = inl (mkState (CRet v) k (store st) (next st) (genv st) (out st) (winds st)).
Proof. intros st x v k Hc Hk. unfold step. rewrite Hc, Hk. reflexivity. Qed.

Definition is_handler (f : frame) : bool := match f with FHandler _ _ => true | _ => false end.

Fixpoint find_handler (k : list frame) : option (val * list wind * list frame) :=
  match k with
  | [] => None
  | FHandler h w :: r => Some (h, w, r)
  | _ :: r => find_handler r
  end.

Lemma find_handler_app : forall above h w k',
  forallb (fun f => negb (is_handler f)) above = true ->
  find_handler (above ++ FHandler h w :: k') = Some (h, w, k').
Proof.
  induction above as [| f above IH]; intros h w k' H; [reflexivity |].
  cbn in H. apply andb_true_iff in H. destruct H as [Hf H]. cbn [app find_handler].
  destruct f; try (apply IH; exact H). discriminate Hf.
Qed.

Lemma raise_step : forall st e,
  ctl st = CRaise e ->
  step st =
  match find_handler (kont st) with
  | Some (h, w, k') =>
      match firstn (List.length (winds st) - List.length w) (winds st) with
      | [] => inl (set_ck (set_winds st w) (CApply h [e]) k')
      | leaving => inl (set_ck st (CRet VVoid) [FRewind (map (fun x => (false, x)) leaving) (FFun [e] :: k') w h])
      end
  | None =>
      match winds st with
      | [] => inr (Failed e st)
      | ws => inl (set_ck st (CRet VVoid) [FRewind (map (fun x => (false, x)) ws) [FReraise e] [] VVoid])
      end
  end.
Proof.
  intros st e Hc. unfold step. rewrite Hc.
  (* the literal text of the local [fix find] in Lang.step: an edit there, or of [find_handler], has to be repeated here *)
  change ((fix find (k : list frame) : option (val * list wind * list frame) :=
             match k with
             | [] => None
             | FHandler h w :: r => Some (h, w, r)
             | _ :: r => find r
             end) (kont st)) with (find_handler (kont st)).
  destruct (find_handler (kont st)) as [[[h w] k'] |]; [| reflexivity].
  destruct (firstn (List.length (winds st) - List.length w) (winds st)); reflexivity.
Qed.

Lemma handler_unwinds : forall st e above h w k',
  ctl st = CRaise e -> kont st = (above ++ FHandler h w :: k')%list ->
  forallb (fun f => negb (is_handler f)) above = true ->
  step st =
  match firstn (List.length (winds st) - List.length w) (winds st) with
  | [] => inl (set_ck (set_winds st w) (CApply h [e]) k')
  | leaving => inl (set_ck st (CRet VVoid) [FRewind (map (fun x => (false, x)) leaving) (FFun [e] :: k') w h])
  end.
Proof.
  intros st e above h w k' Hc Hk Ha. rewrite (raise_step st e Hc), Hk, (find_handler_app above h w k' Ha).
  reflexivity.
Qed.
