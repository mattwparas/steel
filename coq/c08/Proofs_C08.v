(* C08 — the invariant of the mechanism model (Model_C08.v) and its preservation by every operation.
   The idea: [eager] records the full copy an eager call/cc would have taken.  A closed mark IS that copy; an
   open mark agrees with it on everything it stores, its frame is still on the frame stack, and the stack below
   that frame's sp is unchanged since capture, so closing it at any later time rebuilds the copy. *)
From Coq Require Import List Bool Arith Lia.
From SV Require Import gen.Gen_C08 c08.Model_C08.
Import ListNotations.

Lemma firstn_le_eq : forall (A : Type) n k (a b : list A),
  firstn n a = firstn n b -> k <= n -> firstn k a = firstn k b.
Proof.
  intros A n k a b H Hk.
  assert (E : forall l : list A, firstn k l = firstn k (firstn n l)).
  { intros l. rewrite firstn_firstn. rewrite Nat.min_l by lia. reflexivity. }
  rewrite (E a), (E b), H. reflexivity.
Qed.

Lemma firstn_app_le : forall (A : Type) n (a b : list A), n <= length a -> firstn n (a ++ b) = firstn n a.
Proof.
  intros A n a b H. rewrite firstn_app. replace (n - length a) with 0 by lia. cbn. apply app_nil_r.
Qed.

Definition same_below (n : nat) (stk stk' : list nat) : Prop :=
  forall k, k <= n -> k <= length stk -> firstn k stk' = firstn k stk.

Lemma same_below_trunc_app : forall n stk l, same_below n stk (firstn n stk ++ l).
Proof.
  intros n stk l k Hk Hl.
  rewrite firstn_app_le by (rewrite firstn_length; lia).
  rewrite firstn_firstn. rewrite Nat.min_l by lia. reflexivity.
Qed.

Lemma same_below_trunc : forall n stk, same_below n stk (firstn n stk).
Proof. intros n stk. rewrite <- (app_nil_r (firstn n stk)). apply same_below_trunc_app. Qed.

Lemma same_below_app : forall n stk l, same_below n stk (stk ++ l).
Proof. intros n stk l k Hk Hl. apply firstn_app_le. exact Hl. Qed.

Lemma same_below_refl : forall n stk, same_below n stk stk.
Proof. intros n stk k _ _. reflexivity. Qed.

Lemma same_below_weaken : forall n n' stk stk', same_below n stk stk' -> n' <= n -> same_below n' stk stk'.
Proof. intros n n' stk stk' H Hn k Hk Hl. apply H; lia. Qed.

Lemma prefix_len : forall k (a b : list nat), firstn k a = firstn k b -> k <= length b -> k <= length a.
Proof.
  intros k a b H Hb. assert (L : length (firstn k a) = length (firstn k b)) by (rewrite H; reflexivity).
  rewrite !firstn_length in L. lia.
Qed.

Lemma lookup_cons_ne : forall (A : Type) m k (a : A) l, m <> k -> lookup m ((k, a) :: l) = lookup m l.
Proof. intros A m k a l H. cbn. destruct (Nat.eqb_spec m k); [contradiction | reflexivity]. Qed.
Lemma lookup_cons_eq : forall (A : Type) m (a : A) l, lookup m ((m, a) :: l) = Some a.
Proof. intros A m a l. cbn. rewrite Nat.eqb_refl. reflexivity. Qed.

Definition entry_ok (stk : list nat) (below : list frame) (fr : frame) (eg : list (mid * closed)) : Prop :=
  match f_mark fr with
  | Some m' => forall e', lookup m' eg = Some e' ->
      c_frames e' = below /\ firstn (c_sp e') stk = firstn (c_sp e') (c_stack e') /\
      c_sp e' <= f_sp fr /\ c_sp e' <= length (c_stack e')
  | None => True
  end.

Fixpoint live_ok (stk : list nat) (fs : list frame) (eg : list (mid * closed)) : Prop :=
  match fs with
  | [] => True
  | fr :: below => entry_ok stk below fr eg /\ cur_sp below <= f_sp fr /\ live_ok stk below eg
  end.

Lemma live_ok_stack : forall eg fs stk stk',
  live_ok stk fs eg -> same_below (cur_sp fs) stk stk' -> live_ok stk' fs eg.
Proof.
  intros eg. induction fs as [| fr below IH]; intros stk stk' H Hs; [exact I |].
  cbn [live_ok cur_sp] in *. destruct H as [He [Hsp Hl]]. split; [| split; [exact Hsp |]].
  - unfold entry_ok in *. destruct (f_mark fr); [| exact I].
    intros e' Hl'. destruct (He e' Hl') as [H1 [H2 [H3 H4]]]. repeat split; auto.
    rewrite <- H2. apply Hs; [exact H3 |]. apply (prefix_len _ _ _ H2 H4).
  - exact (IH stk stk' Hl (same_below_weaken _ _ _ _ Hs Hsp)).
Qed.

Definition marks_lt (fs : list frame) (n : mid) : Prop :=
  forall fr m, In fr fs -> f_mark fr = Some m -> m < n.

Lemma marks_lt_weaken : forall fs n n', marks_lt fs n -> n <= n' -> marks_lt fs n'.
Proof. intros fs n n' H Hn fr m Hin Hm. specialize (H fr m Hin Hm). lia. Qed.

Lemma marks_lt_tail : forall fr fs n, marks_lt (fr :: fs) n -> marks_lt fs n.
Proof. intros fr fs n H fr' m Hin Hm. apply (H fr' m); [right; exact Hin | exact Hm]. Qed.

Lemma live_ok_eager_ext : forall stk fs eg m e,
  live_ok stk fs eg -> marks_lt fs m -> live_ok stk fs ((m, e) :: eg).
Proof.
  intros stk fs eg m e. induction fs as [| fr below IH]; intros H Hlt; [exact I |].
  cbn [live_ok] in *. destruct H as [He [Hsp Hl]]. split; [| split; [exact Hsp |]].
  - unfold entry_ok in *. destruct (f_mark fr) as [m' |] eqn:Em; [| exact I].
    intros e' Hl'. assert (m' < m) by (apply (Hlt fr m'); [left; reflexivity | exact Em]).
    rewrite lookup_cons_ne in Hl' by lia. exact (He e' Hl').
  - apply IH; [exact Hl | exact (marks_lt_tail fr below m Hlt)].
Qed.

Definition agree (o : openm) (e : closed) : Prop :=
  c_ip e = o_ip o /\ c_sp e = o_sp o /\ c_pc e = o_pc o /\ c_ins e = o_ins o /\
  c_stack e = firstn (o_sp o) (c_stack e) ++ o_vals o.

Definition open_agree (mk : list (mid * mark)) (eg : list (mid * closed)) : Prop :=
  forall m o, lookup m mk = Some (MOpen o) -> exists e, lookup m eg = Some e /\ agree o e.
Definition closed_eager (mk : list (mid * mark)) (eg : list (mid * closed)) : Prop :=
  forall m c, lookup m mk = Some (MClosed c) -> lookup m eg = Some c.
Definition open_live (mk : list (mid * mark)) (fs : list frame) : Prop :=
  forall m o, lookup m mk = Some (MOpen o) -> exists fr, In fr fs /\ f_mark fr = Some m.

(* the mark table against the eager copies, key by key *)
Definition mark_ok (x : option mark) (y : option closed) : Prop :=
  match x with
  | Some (MOpen o) => exists e, y = Some e /\ agree o e
  | Some (MClosed c) => y = Some c
  | None => True
  end.

Definition marks_ok (mk : list (mid * mark)) (eg : list (mid * closed)) : Prop :=
  open_agree mk eg /\ closed_eager mk eg.

Lemma marks_ok_iff : forall mk eg, marks_ok mk eg <-> forall m, mark_ok (lookup m mk) (lookup m eg).
Proof.
  intros mk eg. split.
  - intros [Ha Hc] m. destruct (lookup m mk) as [[o | c] |] eqn:E; [exact (Ha m o E) | exact (Hc m c E) | exact I].
  - intros H. split; intros m x E; specialize (H m); rewrite E in H; exact H.
Qed.

(* an update of both tables that touches one key only *)
Lemma marks_ok_upd : forall mk mk' eg eg' m,
  marks_ok mk eg ->
  (forall k, k <> m -> lookup k mk' = lookup k mk /\ lookup k eg' = lookup k eg) ->
  mark_ok (lookup m mk') (lookup m eg') ->
  marks_ok mk' eg'.
Proof.
  intros mk mk' eg eg' m H Ho Hm. rewrite marks_ok_iff in *. intros k.
  destruct (Nat.eq_dec k m) as [-> | Hne]; [exact Hm |]. destruct (Ho k Hne) as [-> ->]. exact (H k).
Qed.

(* shrinking the set of open marks, none of the frame [fr] being left open, lets [fr] go *)
Lemma open_live_pop : forall mk mk' fr rest,
  open_live mk (fr :: rest) ->
  (forall k o, lookup k mk' = Some (MOpen o) -> lookup k mk = Some (MOpen o) /\ f_mark fr <> Some k) ->
  open_live mk' rest.
Proof.
  intros mk mk' fr rest Ho H k o E. destruct (H k o E) as [E' Hne].
  destruct (Ho k o E') as [f [[<- | Hin] Hf]]; [contradiction | eauto].
Qed.

Lemma open_live_mono : forall mk fs fr, open_live mk fs -> open_live mk (fr :: fs).
Proof. intros mk fs fr H m o Hm. destruct (H m o Hm) as [f [Hin Hf]]. exists f. split; [right; exact Hin | exact Hf]. Qed.

(* closing an open mark whose saved prefix is still on the stack rebuilds the eager copy *)
Lemma close_eq_eager : forall stk rest fr eg m o,
  entry_ok stk rest fr eg -> f_mark fr = Some m -> (exists e, lookup m eg = Some e /\ agree o e) ->
  lookup m eg = Some (mkC (firstn (o_sp o) stk ++ o_vals o) rest (o_ip o) (o_sp o) (o_pc o) (o_ins o)).
Proof.
  intros stk rest fr eg m o He Hm [e [Hl [A1 [A2 [A3 [A4 A5]]]]]]. unfold entry_ok in He. rewrite Hm in He.
  destruct (He e Hl) as [H1 [H2 _]]. rewrite Hl. clear He Hl.
  destruct e as [cs cf ci csp cpc cins]. cbn in *. subst cf ci csp cpc cins. do 2 f_equal.
  rewrite H2. exact A5.
Qed.

Lemma close_in_other : forall stk fs mk m k, k <> m -> lookup k (close_in stk fs mk m) = lookup k mk.
Proof.
  intros stk fs mk m k H. unfold close_in. destruct (lookup m mk) as [[o | c] |]; try reflexivity.
  apply lookup_cons_ne. exact H.
Qed.

Lemma close_in_self : forall stk fs mk m,
  lookup m (close_in stk fs mk m) =
  match lookup m mk with
  | Some (MOpen o) => Some (MClosed (mkC (firstn (o_sp o) stk ++ o_vals o) fs (o_ip o) (o_sp o) (o_pc o) (o_ins o)))
  | x => x
  end.
Proof.
  intros stk fs mk m. unfold close_in. destruct (lookup m mk) as [[o | c] |] eqn:E; try exact E.
  apply lookup_cons_eq.
Qed.

Lemma close_frame_mark : forall stk fs mk fr m, f_mark fr = Some m -> close_frame stk fs mk fr = close_in stk fs mk m.
Proof. intros stk fs mk fr m H. unfold close_frame. rewrite H. reflexivity. Qed.

Lemma close_frame_ok : forall stk rest fr eg mk,
  entry_ok stk rest fr eg -> marks_ok mk eg ->
  let mk' := close_frame stk rest mk fr in
  marks_ok mk' eg /\
  (forall k, f_mark fr <> Some k -> lookup k mk' = lookup k mk) /\
  (forall k o, lookup k mk' = Some (MOpen o) -> lookup k mk = Some (MOpen o) /\ f_mark fr <> Some k).
Proof.
  intros stk rest fr eg mk He Hk. unfold close_frame. destruct (f_mark fr) as [m |] eqn:Em; cbn zeta.
  - assert (Hoth : forall k, Some m <> Some k -> lookup k (close_in stk rest mk m) = lookup k mk)
      by (intros k Hne; apply close_in_other; congruence).
    split; [| split; [exact Hoth |]].
    + apply (marks_ok_upd mk _ eg eg m Hk); [intros k Hne; rewrite close_in_other by exact Hne; auto |].
      rewrite close_in_self. pose proof (proj1 (marks_ok_iff mk eg) Hk m) as Hm.
      destruct (lookup m mk) as [[o | c] |]; [| exact Hm | exact I].
      exact (close_eq_eager stk rest fr eg m o He Em Hm).
    + intros k o E. destruct (Nat.eq_dec m k) as [<- | Hne].
      * rewrite close_in_self in E. destruct (lookup m mk) as [[o' | c'] |]; discriminate E.
      * rewrite Hoth in E by congruence. split; [exact E | congruence].
  - split; [exact Hk |]. split; [reflexivity |]. intros k o E. split; [exact E | discriminate].
Qed.

Lemma lookup_remove : forall mk m k, lookup k (remove_mark m mk) = if Nat.eqb k m then None else lookup k mk.
Proof.
  unfold remove_mark. induction mk as [| [a b] mk IH]; intros m k; cbn [filter fst lookup].
  - destruct (Nat.eqb k m); reflexivity.
  - destruct (Nat.eqb_spec a m) as [-> | Ha]; cbn [negb lookup]; rewrite IH.
    + destruct (Nat.eqb k m); reflexivity.
    + destruct (Nat.eqb_spec k a) as [-> | Hk]; [| reflexivity].
      apply Nat.eqb_neq in Ha. rewrite Ha. reflexivity.
Qed.

Lemma remove_mark_ok : forall mk m eg,
  marks_ok mk eg ->
  marks_ok (remove_mark m mk) eg /\
  (forall k o, lookup k (remove_mark m mk) = Some (MOpen o) -> lookup k mk = Some (MOpen o) /\ k <> m).
Proof.
  intros mk m eg Hk. split.
  - apply (marks_ok_upd mk _ eg eg m Hk).
    + intros k Hne. rewrite lookup_remove. apply Nat.eqb_neq in Hne. rewrite Hne. auto.
    + rewrite lookup_remove, Nat.eqb_refl. exact I.
  - intros k o E. rewrite lookup_remove in E. destruct (Nat.eqb_spec k m); [discriminate E | auto].
Qed.

(* what is still open after popping every frame belongs to a frame of the target *)
Lemma pop_all_ok : forall keep eg fs stk mk,
  live_ok stk fs eg -> marks_ok mk eg ->
  (forall k o, lookup k mk = Some (MOpen o) -> keep k = true \/ exists fr, In fr fs /\ f_mark fr = Some k) ->
  let mk' := pop_all keep stk fs mk in
  marks_ok mk' eg /\ forall k o, lookup k mk' = Some (MOpen o) -> keep k = true.
Proof.
  intros keep eg. induction fs as [| fr rest IH]; intros stk mk Hl Hk Ho; cbn [pop_all].
  - split; [exact Hk |]. intros k o E. destruct (Ho k o E) as [H | [fr [[] _]]]. exact H.
  - assert (Hskip : (forall m, f_mark fr = Some m -> keep m = true) ->
                    marks_ok (pop_all keep stk rest mk) eg /\
                    forall k o, lookup k (pop_all keep stk rest mk) = Some (MOpen o) -> keep k = true).
    { intros Hm. apply (IH stk mk (proj2 (proj2 Hl)) Hk). intros k o E.
      destruct (Ho k o E) as [H | [f [[<- | Hin] Hf]]]; [left; exact H | left; exact (Hm k Hf) | right; eauto]. }
    destruct (f_mark fr) as [m |] eqn:Em; [| apply Hskip; discriminate].
    destruct (keep m) eqn:Ek; [apply Hskip; congruence |].
    pose proof (live_ok_stack eg (fr :: rest) stk _ Hl (same_below_trunc _ _)) as [He' [_ Hl']].
    destruct (close_frame_ok _ rest fr eg mk He' Hk) as [C1 [_ C3]].
    rewrite <- (close_frame_mark _ rest mk fr m Em).
    apply (IH _ _ Hl' C1). intros k o E. destruct (C3 k o E) as [E' Hne].
    destruct (Ho k o E') as [H | [f [[<- | Hin] Hf]]]; [left; exact H | contradiction | right; eauto].
Qed.

Lemma pop_all_keep_all : forall keep fs stk mk,
  (forall fr m, In fr fs -> f_mark fr = Some m -> keep m = true) -> pop_all keep stk fs mk = mk.
Proof.
  intros keep. induction fs as [| fr rest IH]; intros stk mk H; [reflexivity |]. cbn [pop_all].
  assert (Hr : forall fr' m, In fr' rest -> f_mark fr' = Some m -> keep m = true)
    by (intros fr' m Hin; apply H; right; exact Hin).
  destruct (f_mark fr) as [m |] eqn:Em; [| apply IH; exact Hr].
  rewrite (H fr m (or_introl eq_refl) Em). apply IH. exact Hr.
Qed.

Lemma has_mark_iff : forall m fr, has_mark m fr = true <-> f_mark fr = Some m.
Proof.
  intros m fr. unfold has_mark. destruct (f_mark fr) as [k |]; [| split; discriminate].
  rewrite Nat.eqb_eq. split; congruence.
Qed.

Lemma pop_to_ok : forall eg m o fs stk mk n,
  live_ok stk fs eg -> marks_ok mk eg -> open_live mk fs -> lookup m mk = Some (MOpen o) ->
  exists fr rest stk' mk' n',
    pop_to m stk fs mk n = Some (fr, rest, stk', mk', n') /\ n' + length rest = n + length fs /\
    f_mark fr = Some m /\ live_ok stk' (fr :: rest) eg /\ marks_ok mk' eg /\ open_live mk' (fr :: rest) /\
    lookup m mk' = Some (MOpen o).
Proof.
  intros eg m o. induction fs as [| fr rest IH]; intros stk mk n Hl Hk Ho Em; [destruct (Ho m o Em) as [? [[] _]] |].
  cbn [pop_to]. destruct (has_mark m fr) eqn:Eh.
  - apply has_mark_iff in Eh. exists fr, rest, stk, mk, (S n).
    split; [reflexivity |]. split; [cbn [length]; lia |]. exact (conj Eh (conj Hl (conj Hk (conj Ho Em)))).
  - assert (Hne : f_mark fr <> Some m) by (rewrite <- has_mark_iff; congruence).
    pose proof (live_ok_stack eg (fr :: rest) stk _ Hl (same_below_trunc _ _)) as [He' [_ Hl']].
    destruct (close_frame_ok _ rest fr eg mk He' Hk) as [C1 [C2 C3]].
    destruct (IH _ _ (S n) Hl' C1 (open_live_pop _ _ fr rest Ho C3) (eq_trans (C2 m Hne) Em))
      as (fr1 & rest1 & stk1 & mk1 & n1 & P1 & P2 & P).
    exists fr1, rest1, stk1, mk1, n1.
    split; [exact P1 |]. split; [cbn [length]; lia | exact P].
Qed.

Lemma pop_to_none_panics : forall m fs stk mk n,
  (forall fr, In fr fs -> f_mark fr <> Some m) -> pop_to m stk fs mk n = None.
Proof.
  intros m. induction fs as [| fr rest IH]; intros stk mk n H; [reflexivity |]. cbn [pop_to].
  destruct (has_mark m fr) eqn:E.
  - apply has_mark_iff in E. exfalso. exact (H fr (or_introl eq_refl) E).
  - apply IH. intros fr' Hin. apply H. right. exact Hin.
Qed.

Definition copy_ok (eg : list (mid * closed)) (e : closed) : Prop :=
  live_ok (c_stack e) (c_frames e) eg /\ c_sp e = cur_sp (c_frames e) /\
  c_pc e = S (length (c_frames e)) /\ c_sp e <= length (c_stack e).

Record Inv (s : vm) : Prop := mkInv {
  i_live : live_ok (stack s) (frames s) (eager s);
  i_copies : forall m e, lookup m (eager s) = Some e ->
               copy_ok (eager s) e /\ marks_lt (c_frames e) (nextm s) /\ m < nextm s;
  i_agree : open_agree (marks s) (eager s);
  i_closed : closed_eager (marks s) (eager s);
  i_openlive : open_live (marks s) (frames s);
  i_sp : sp s = cur_sp (frames s);
  i_pc : pc s = S (length (frames s));
  i_len : sp s <= length (stack s);
  i_lt : marks_lt (frames s) (nextm s)
}.

Lemma inv_init : Inv init.
Proof.
  constructor; cbn; auto; try (intros ? ? H; discriminate H); try (intros ? ? [] ).
Qed.

Lemma inv_marks : forall s, Inv s -> marks_ok (marks s) (eager s).
Proof. intros s HI. exact (conj (i_agree s HI) (i_closed s HI)). Qed.

Lemma inv_mark_eager : forall s m, Inv s -> lookup m (marks s) <> None -> exists e, lookup m (eager s) = Some e.
Proof.
  intros s m HI Hm. destruct (lookup m (marks s)) as [[o | c] |] eqn:Em; [| | contradiction].
  - destruct (i_agree s HI m o Em) as [e [He _]]. eauto.
  - exists c. exact (i_closed s HI m c Em).
Qed.

Lemma install_inv : forall s e m0 v mk,
  Inv s -> lookup m0 (eager s) = Some e -> marks_ok mk (eager s) -> open_live mk (c_frames e) ->
  Inv (install s e v mk).
Proof.
  intros s e m0 v mk HI He [Ha Hc] Ho. destruct (i_copies s HI m0 e He) as [[C1 [C2 [C3 C4]]] [C5 C6]].
  constructor; cbn [install stack frames eager marks sp pc nextm]; auto.
  - apply (live_ok_stack (eager s) (c_frames e) (c_stack e) _ C1), same_below_app.
  - exact (i_copies s HI).
  - rewrite app_length. lia.
Qed.

Lemma install_ctl : forall s e v mk, ctl6 (install s e v mk) = resume e v /\ heap (install s e v mk) = heap s.
Proof. intros. split; reflexivity. Qed.

(* a normal return and an error unwind: the top frame goes, its mark is closed in a stack [stkc] and the new
   stack is [stk'], both agreeing with the old one below the frame's sp *)
Lemma pop_inv : forall s fr rest stkc stk' i j,
  Inv s -> frames s = fr :: rest ->
  same_below (f_sp fr) (stack s) stkc -> same_below (f_sp fr) (stack s) stk' ->
  Inv (mkVM stk' rest i (cur_sp rest) (pred (pc s)) j (close_frame stkc rest (marks s) fr)
            (eager s) (nextm s) (heap s)).
Proof.
  intros s fr rest stkc stk' i j HI Hf Hc Hs.
  pose proof (i_live s HI) as Hl. pose proof (i_openlive s HI) as Ho. pose proof (i_lt s HI) as Hlt.
  pose proof (i_sp s HI) as Hsp. pose proof (i_pc s HI) as Hpc. pose proof (i_len s HI) as Hlen.
  rewrite Hf in Hl, Ho, Hlt, Hsp, Hpc. cbn [cur_sp] in Hsp.
  destruct (close_frame_ok stkc rest fr (eager s) (marks s) (proj1 (live_ok_stack _ (fr :: rest) _ _ Hl Hc)) (inv_marks s HI))
    as [[Ha' Hc'] [_ C3]].
  destruct (live_ok_stack _ (fr :: rest) _ _ Hl Hs) as [_ [Hcs Hl']].
  constructor; cbn [stack frames eager marks sp pc nextm].
  - exact Hl'.
  - exact (i_copies s HI).
  - exact Ha'.
  - exact Hc'.
  - exact (open_live_pop _ _ fr rest Ho C3).
  - reflexivity.
  - rewrite Hpc. reflexivity.
  - assert (f_sp fr <= length stk') by (apply (prefix_len _ _ (stack s)); [apply Hs |]; lia). lia.
  - exact (marks_lt_tail fr rest _ Hlt).
Qed.

(* under Inv, invoking m installs its eager copy *)
Lemma invoke_installs : forall s m v last w1 e,
  Inv s -> lookup m (eager s) = Some e -> lookup m (marks s) <> None ->
  exists mk, exec s (OInvoke m v last w1) = Ok (install s e v mk) /\
             marks_ok mk (eager s) /\ open_live mk (c_frames e).
Proof.
  intros s m v last w1 e HI He Hm. pose proof (inv_marks s HI) as Hk. cbn [exec].
  destruct (lookup m (marks s)) as [[o | c] |] eqn:Em; [| | contradiction].
  - (* open mark: e is what closing it in the frame found by pop_to gives *)
    destruct (pop_to_ok (eager s) m o (frames s) (stack s) (marks s) 0 (i_live s HI) Hk (i_openlive s HI) Em)
      as (fr & rest & stk & mk & n & -> & Hn & Hf & [Hen _] & Hk1 & Ho1 & Hm1).
    pose proof (close_eq_eager stk rest fr (eager s) m o Hen Hf (i_agree s HI m o Em)) as Ee.
    rewrite He in Ee. injection Ee as ->.
    unfold reinstate_closes_when_shared. cbn [orb]. rewrite andb_true_r.
    destruct last; cbn [negb].
    + (* nobody else holds the continuation: direct reinstatement, the object dies *)
      destruct (i_copies s HI m _ He) as [[_ [_ [Hpc _]]] _]. cbn [c_pc c_frames] in Hpc.
      pose proof (i_pc s HI) as Hpcs.
      exists (remove_mark m mk). split; [unfold install; cbn [c_stack c_frames c_ip c_sp c_pc c_ins]; do 2 f_equal; lia |].
      destruct (remove_mark_ok mk m (eager s) Hk1) as [R1 R2]. split; [exact R1 |].
      apply (open_live_pop mk _ fr rest Ho1). intros k o' E. destruct (R2 k o' E) as [E' Hne].
      split; [exact E' | congruence].
    + (* shared: close through the frame, then reinstate the closed copy; no frame of the target is popped *)
      rewrite close_in_self, Hm1. cbn [c_frames].
      rewrite pop_all_keep_all
        by (intros fr' k Hin Hfk; apply existsb_exists; exists fr'; split; [exact Hin | apply has_mark_iff; exact Hfk]).
      exists (close_in stk rest mk m). split; [reflexivity |].
      destruct (close_frame_ok stk rest fr (eager s) mk Hen Hk1) as [C1 [_ C3]].
      rewrite <- (close_frame_mark stk rest mk fr m Hf).
      split; [exact C1 | exact (open_live_pop mk _ fr rest Ho1 C3)].
  - (* closed mark: it is the eager copy *)
    pose proof (i_closed s HI m c Em) as Hc. rewrite He in Hc. injection Hc as <-.
    destruct (pop_all_ok (fun k => existsb (has_mark k) (c_frames e)) (eager s) (frames s) (stack s) (marks s)
                         (i_live s HI) Hk) as [I1 I2].
    { intros k o E. right. exact (i_openlive s HI k o E). }
    set (mk1 := pop_all _ (stack s) (frames s) (marks s)) in *.
    assert (Ho1 : open_live mk1 (c_frames e)).
    { intros k o E. apply I2, existsb_exists in E. destruct E as [f [Hin Hf]]. apply has_mark_iff in Hf. eauto. }
    destruct last.
    + exists (remove_mark m mk1). split; [reflexivity |].
      destruct (remove_mark_ok mk1 m (eager s) I1) as [R1 R2]. split; [exact R1 |].
      intros k o E. exact (Ho1 k o (proj1 (R2 k o E))).
    + exists mk1. auto.
Qed.

(* an operation that leaves frames, marks and copies alone may change the stack above sp only *)
Lemma stack_inv : forall s stk i j h, Inv s -> same_below (sp s) (stack s) stk -> sp s <= length stk ->
  Inv (mkVM stk (frames s) i (sp s) (pc s) j (marks s) (eager s) (nextm s) h).
Proof.
  intros s stk i j h [Hl Hcp Ha Hcl Ho Hsp Hpc Hlen Hlt] Hs Hn.
  constructor; cbn [stack frames eager marks sp pc nextm]; try assumption.
  rewrite Hsp in Hs. exact (live_ok_stack (eager s) (frames s) (stack s) stk Hl Hs).
Qed.

(* [eager] grows at a capture and nowhere else *)
Lemma exec_eager : forall s o s', exec s o = Ok s' ->
  eager s' = eager s \/
  exists fn, o = OCapture fn /\ eager s' = (nextm s, mkC (stack s) (frames s) (ip s) (sp s) (pc s) (ins s)) :: eager s.
Proof.
  intros s o s' E. destruct o as [l | i | a v | k fn | fn | v | | m v last w1]; cbn [exec] in E.
  - injection E as <-. left. reflexivity.
  - injection E as <-. left. reflexivity.
  - injection E as <-. left. reflexivity.
  - destruct (Nat.leb _ _); [injection E as <-; left; reflexivity | discriminate E].
  - injection E as <-. right. exists fn. split; reflexivity.
  - destruct (frames s); [discriminate E | injection E as <-; left; reflexivity].
  - destruct (frames s); [discriminate E | injection E as <-; left; reflexivity].
  - left. destruct (lookup m (marks s)) as [[o | c] |]; [| injection E as <-; reflexivity | discriminate E].
    destruct (pop_to m (stack s) (frames s) (marks s) 0) as [[[[[fr rest] stk] mk] n] |]; [| discriminate E].
    destruct (negb last && _); [| injection E as <-; reflexivity].
    destruct (lookup m (close_in stk rest mk m)) as [[o' | c'] |]; try discriminate E.
    injection E as <-. reflexivity.
Qed.

Lemma eager_stable : forall s o s' m e, exec s o = Ok s' -> Inv s -> lookup m (eager s) = Some e ->
  lookup m (eager s') = Some e.
Proof.
  intros s o s' m e E HI He. destruct (exec_eager s o s' E) as [-> | [fn [_ ->]]]; [exact He |].
  destruct (i_copies s HI m e He) as [_ [_ Hlt]]. rewrite lookup_cons_ne by lia. exact He.
Qed.

(* what an operation, or a sequence of them, may do to a state with the invariant: no panic, the invariant again,
   every eager copy taken so far still there *)
Definition ok_from (s : vm) (r : res) : Prop :=
  match r with
  | Ok s' => Inv s' /\ forall m e, lookup m (eager s) = Some e -> lookup m (eager s') = Some e
  | Stuck => True
  | Panic => False
  end.

Lemma exec_ok : forall s o, Inv s -> ok_from s (exec s o).
Proof.
  intros s o HI.
  (* the copies stay by eager_stable; what is left is the invariant, operation by operation *)
  enough (H : match exec s o with Ok s' => Inv s' | Stuck => True | Panic => False end).
  { pose proof (eager_stable s o) as Hk. revert H Hk. destruct (exec s o) as [s' | |]; intros H Hk; [| exact H | exact H].
    split; [exact H | intros m e; exact (Hk s' m e eq_refl HI)]. }
  destruct o as [l | i | a v | k fn | fn | v | | m v last w1]; cbn [exec].
  - (* OSetTop *)
    apply stack_inv; [exact HI | apply same_below_trunc_app |].
    pose proof (i_len s HI). rewrite app_length, firstn_length. lia.
  - (* OJump *) apply stack_inv; [exact HI | apply same_below_refl | exact (i_len s HI)].
  - (* OHeap *) apply stack_inv; [exact HI | apply same_below_refl | exact (i_len s HI)].
  - (* OCall *)
    destruct (Nat.leb (sp s + k) (length (stack s))) eqn:Ek; [| exact I].
    apply Nat.leb_le in Ek. destruct HI as [Hl Hcp Ha Hcl Ho Hsp Hpc Hlen Hlt].
    constructor; cbn [stack frames eager marks sp pc nextm]; try assumption.
    + split; [exact I |]. split; [cbn [f_sp]; lia | exact Hl].
    + apply open_live_mono. exact Ho.
    + reflexivity.
    + cbn [length]. rewrite Hpc. reflexivity.
    + intros fr m [<- | Hin] Hm; [discriminate Hm | exact (Hlt fr m Hin Hm)].
  - (* OCapture *)
    set (m := nextm s). set (e := mkC (stack s) (frames s) (ip s) (sp s) (pc s) (ins s)).
    set (o := mkO (skipn (sp s) (stack s)) (ip s) (sp s) (pc s) (ins s)).
    assert (Hmk : marks_ok ((m, MOpen o) :: marks s) ((m, e) :: eager s)).
    { apply (marks_ok_upd (marks s) _ (eager s) _ m (inv_marks s HI)).
      - intros k Hne. rewrite !lookup_cons_ne by exact Hne. auto.
      - rewrite !lookup_cons_eq. exists e. split; [reflexivity |].
        unfold agree. cbn. repeat split. symmetry. apply firstn_skipn. }
    destruct HI as [Hl Hcp Ha Hcl Ho Hsp Hpc Hlen Hlt].
    assert (Hlive' : live_ok (stack s ++ [m]) (frames s) ((m, e) :: eager s)).
    { apply live_ok_eager_ext; [| exact Hlt].
      apply (live_ok_stack (eager s) (frames s) (stack s) _ Hl), same_below_app. }
    constructor; cbn [stack frames eager marks sp pc nextm ip ins].
    + cbn [live_ok]. split; [| split; [cbn [f_sp]; lia | exact Hlive']].
      unfold entry_ok. cbn [f_mark]. intros e' He'. rewrite lookup_cons_eq in He'. inversion He'; subst e'.
      cbn [c_frames c_sp c_stack f_sp e]. repeat split; auto. apply firstn_app_le. exact Hlen.
    + intros m' e' He'. destruct (Nat.eq_dec m' m) as [-> | Hne].
      * rewrite lookup_cons_eq in He'. inversion He'; subst e'.
        split; [| split; [apply (marks_lt_weaken _ _ _ Hlt); lia | lia]].
        unfold copy_ok. cbn [c_stack c_frames c_sp c_pc e]. repeat split; auto.
        apply live_ok_eager_ext; [exact Hl | exact Hlt].
      * rewrite lookup_cons_ne in He' by exact Hne.
        destruct (Hcp m' e' He') as [[C1 [C2 [C3 C4]]] [C5 C6]].
        split; [| split; [apply (marks_lt_weaken _ _ _ C5); lia | lia]].
        split; [| auto]. apply live_ok_eager_ext; [exact C1 | exact C5].
    + apply Hmk.
    + apply Hmk.
    + intros k o' Hk. destruct (Nat.eq_dec k m) as [-> | Hne].
      * eexists. split; [left; reflexivity | reflexivity].
      * rewrite lookup_cons_ne in Hk by exact Hne. exact (open_live_mono _ _ _ Ho k o' Hk).
    + reflexivity.
    + cbn [length]. rewrite Hpc. reflexivity.
    + rewrite app_length. cbn. lia.
    + intros fr k [<- | Hin] Hk; [cbn in Hk; inversion Hk; lia |]. specialize (Hlt fr k Hin Hk). lia.
  - (* OReturn *)
    destruct (frames s) as [| fr rest] eqn:Ef; [exact I |].
    apply (pop_inv s fr rest _ _ _ _ HI Ef); [apply same_below_refl | apply same_below_trunc_app].
  - (* OUnwind *)
    destruct (frames s) as [| fr rest] eqn:Ef; [exact I |]. unfold unwind_closes_marks.
    apply (pop_inv s fr rest _ _ _ _ HI Ef); apply same_below_trunc.
  - (* OInvoke *)
    destruct (lookup m (marks s)) as [x |] eqn:Em; [| exact I].
    destruct (inv_mark_eager s m HI) as [e He]; [congruence |].
    destruct (invoke_installs s m v last w1 e HI He) as (mk & E & Hk & Ho); [congruence |].
    cbn [exec] in E. rewrite Em in E. rewrite E. exact (install_inv s e m v mk HI He Hk Ho).
Qed.

Lemma run_ok : forall ops s, Inv s -> ok_from s (run s ops).
Proof.
  induction ops as [| o ops IH]; intros s HI; cbn [run]; [split; auto |].
  pose proof (exec_ok s o HI) as H. destruct (exec s o) as [s1 | |]; [| exact I | exact H].
  destruct H as [HI1 Hk]. specialize (IH s1 HI1). destruct (run s1 ops); try exact IH.
  split; [apply IH | intros m e He; apply IH, Hk, He].
Qed.

Lemma exec_inv : forall s o s', Inv s -> exec s o = Ok s' -> Inv s'.
Proof. intros s o s' HI E. pose proof (exec_ok s o HI) as H. rewrite E in H. apply H. Qed.

Lemma open_closed_equiv : forall ops s m v last w1 e,
  run init ops = Ok s -> lookup m (eager s) = Some e -> lookup m (marks s) <> None ->
  exists s', exec s (OInvoke m v last w1) = Ok s' /\ ctl6 s' = resume e v /\ heap s' = heap s.
Proof.
  intros ops s m v last w1 e E He Hm. pose proof (run_ok ops init inv_init) as R. rewrite E in R.
  destruct (invoke_installs s m v last w1 e (proj1 R) He Hm) as (mk & E1 & _).
  exact (ex_intro _ _ (conj E1 (install_ctl s e v mk))).
Qed.

Lemma reenter_many : forall ops1 ops2 s1 s2 m e v1 v2 l1 l2 w1 w2,
  run init ops1 = Ok s1 -> run s1 ops2 = Ok s2 ->
  lookup m (eager s1) = Some e -> lookup m (marks s1) <> None -> lookup m (marks s2) <> None ->
  exists t1 t2,
    exec s1 (OInvoke m v1 l1 w1) = Ok t1 /\ exec s2 (OInvoke m v2 l2 w2) = Ok t2 /\
    ctl6 t1 = resume e v1 /\ ctl6 t2 = resume e v2 /\ heap t1 = heap s1 /\ heap t2 = heap s2.
Proof.
  intros ops1 ops2 s1 s2 m e v1 v2 l1 l2 w1 w2 E1 E2 He Hm1 Hm2.
  pose proof (run_ok ops1 init inv_init) as R1. rewrite E1 in R1. destruct R1 as [HI1 _].
  pose proof (run_ok ops2 s1 HI1) as R2. rewrite E2 in R2. destruct R2 as [HI2 Hk].
  destruct (invoke_installs s1 m v1 l1 w1 e HI1 He Hm1) as (mk1 & A & _).
  destruct (invoke_installs s2 m v2 l2 w2 e HI2 (Hk m e He) Hm2) as (mk2 & B & _).
  exists (install s1 e v1 mk1), (install s2 e v2 mk2). repeat split; assumption.
Qed.
