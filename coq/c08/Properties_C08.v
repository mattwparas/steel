(* C08 — the property theorems; Pins_C08.v repeats each statement. *)
From Coq Require Import ZArith List Bool String Arith Lia.
From SV Require lib.Lang gen.Gen_C08 c08.Model_C08 c08.Proofs_C08 c08.Wind_C08.
Import ListNotations.

Module Mechanism.
Import Gen_C08 Model_C08 Proofs_C08.
(* for every reachable VM state (every sequence of pushes, pops, calls, returns, error unwinds, captures and
   invocations) and every continuation object still alive: lazy capture + reinstatement yields exactly the (stack,
   frames, ip, sp, pop_count, instructions) of the eager full copy taken at capture time, with the value pushed and
   ip advanced; the heap is untouched *)
Theorem C08_open_closed_equiv : forall ops s m v last w1 e,
  run init ops = Ok s -> lookup m (eager s) = Some e -> lookup m (marks s) <> None ->
  exists s', exec s (OInvoke m v last w1) = Ok s' /\ ctl6 s' = resume e v /\ heap s' = heap s.
Proof. exact open_closed_equiv. Qed.

(* the eager copy is the state in which call/cc ran *)
Theorem C08_capture_eager : forall ops s fn s',
  run init ops = Ok s -> exec s (OCapture fn) = Ok s' ->
  lookup (nextm s) (eager s') = Some (mkC (stack s) (frames s) (ip s) (sp s) (pc s) (ins s)) /\
  lookup (nextm s) (marks s') <> None.
Proof.
  intros ops s fn s' _ E. injection E as <-. cbn [eager marks].
  rewrite !lookup_cons_eq. split; [reflexivity | discriminate].
Qed.

(* invoking the same continuation from any two later states gives identical resumptions; box contents are those of
   the invoking state (shared, not restored) *)
Theorem C08_reenter_many : forall ops1 ops2 s1 s2 m e v1 v2 l1 l2 w1 w2,
  run init ops1 = Ok s1 -> run s1 ops2 = Ok s2 ->
  lookup m (eager s1) = Some e -> lookup m (marks s1) <> None -> lookup m (marks s2) <> None ->
  exists t1 t2,
    exec s1 (OInvoke m v1 l1 w1) = Ok t1 /\ exec s2 (OInvoke m v2 l2 w2) = Ok t2 /\
    ctl6 t1 = resume e v1 /\ ctl6 t2 = resume e v2 /\ heap t1 = heap s1 /\ heap t2 = heap s2.
Proof. exact reenter_many. Qed.

(* no sequence of operations reaches panic!("Failed to find an open continuation on the stack") *)
Theorem C08_no_panic : forall ops, run init ops <> Panic.
Proof. intros ops H. pose proof (run_ok ops init inv_init) as R. rewrite H in R. exact R. Qed.

(* the invariant behind the three theorems above: an open mark's frame is still on the frame stack and
   everything below its sp is unchanged since capture *)
Theorem C08_exec_inv : forall s o s', Inv s -> exec s o = Ok s' -> Inv s'.
Proof. exact exec_inv. Qed.

(* generated facts about vm.rs the model rests on *)
Theorem C08_gen_facts : unwind_closes_marks = true /\ reinstate_closes_when_shared = true /\
  capture_before_push = true /\ open_copies_from_sp = true /\ close_rebuilds = true /\
  pop_closes_before_truncate = true /\ open_reinstate_pops = true.
Proof. repeat split; reflexivity. Qed.

(* before the repair: an error unwind left the mark open; the later invocation panics *)
Theorem C08_unwind_refuted : run_old false true init [OCapture 7; OUnwind; OInvoke 0 5 false true] = Panic.
Proof. vm_compute. reflexivity. Qed.

(* before the repair: a shared continuation invoked while open (weak_count <> 1) stayed open; the second invocation panics *)
Theorem C08_shared_refuted : run_old true false init [OCapture 7; OInvoke 0 1 false false; OInvoke 0 2 false false] = Panic.
Proof. vm_compute. reflexivity. Qed.

(* non-vacuity *)
Theorem C08_repaired_example : match run init [OSetTop [11; 12]; OCapture 7; OSetTop [99]; OCall 0 3; OInvoke 0 1 false false; OSetTop [4; 5; 6];
                  OInvoke 0 2 false true] with
  | Ok s => ctl6 s = ([11; 12; 2], [], 1, 0, 1, 0)
  | _ => False
  end.
Proof. vm_compute. reflexivity. Qed.

End Mechanism.

Module Reference.
Import Lang Wind_C08.
(* every continuation jump, for all current and target winders: the scheduled thunks leave the extents not shared
   with the target (innermost first) and enter the target's (outermost first), each exactly once, well bracketed,
   ending exactly in the target's extents *)
Theorem C08_wind_once : forall cur w, apply_plan (map wind_id cur) (plan cur w) = Some (map wind_id w).
Proof.
  intros cur w. unfold plan. pose proof (common_suffix_ids cur w) as Hc.
  set (n := common_suffix_len cur w) in *.
  rewrite <- (firstn_skipn (List.length cur - n) cur) at 1. rewrite map_app, apply_plan_leave.
  rewrite apply_plan_enter. rewrite map_rev, rev_involutive, Hc, <- map_app, firstn_skipn. reflexivity.
Qed.

(* and that plan is what the reference machine executes *)
Theorem C08_jump_uses_plan : forall st k w v,
  apply_proc st (VCont k w) [v] = set_ck st (CRet VVoid) [FRewind (plan (winds st) w) k w v].
Proof. exact jump_uses_plan. Qed.

(* normal entry: once `before` has returned the extent is entered and the body runs *)
Theorem C08_wind_enter : forall st x b t a k,
  ctl st = CRet x -> kont st = FWindBody b t a :: k ->
  step st = inl (mkState (CApply t []) (FWindAfter a :: k) ((next st, VVoid) :: store st) (S (next st)) (genv st) (out st)
                         (Wind (next st) b a :: winds st)).
Proof. intros st x b t a k Hc Hk. unfold step. rewrite Hc, Hk. reflexivity. Qed.

(* normal exit: the extent is left, `after` runs, the body's value is kept *)
Theorem C08_wind_exit : forall st v a k,
  ctl st = CRet v -> kont st = FWindAfter a :: k ->
  step st = inl (mkState (CApply a []) (FWindRet v :: k) (store st) (next st) (genv st) (out st) (tl (winds st))).
Proof. intros st v a k Hc Hk. unfold step. rewrite Hc, Hk. reflexivity. Qed.

(* jump, leaving phase *)
Theorem C08_rewind_leave : forall st i b a r k w v x ws,
  ctl st = CRet x -> kont st = [FRewind ((false, Wind i b a) :: r) k w v] -> winds st = Wind i b a :: ws ->
  step st = inl (mkState (CApply a []) [FRewind r k w v] (store st) (next st) (genv st) (out st) ws).
Proof. intros st i b a r k w v x ws Hc Hk Hw. unfold step. rewrite Hc, Hk. cbn. rewrite Hw. reflexivity. Qed.

(* jump, entering phase *)
Theorem C08_rewind_enter : forall st i b a r k w v x,
  ctl st = CRet x -> kont st = [FRewind ((true, Wind i b a) :: r) k w v] ->
  step st = inl (mkState (CApply b []) [FRewind r k w v] (store st) (next st) (genv st) (out st) (winds st)).
Proof. intros st i b a r k w v x Hc Hk. unfold step. rewrite Hc, Hk. reflexivity. Qed.

(* jump, installation of the captured continuation and winders *)
Theorem C08_rewind_done : forall st k w v x,
  ctl st = CRet x -> kont st = [FRewind [] k w v] ->
  step st = inl (mkState (CRet v) k (store st) (next st) (genv st) (out st) w).
Proof. intros st k w v x Hc Hk. unfold step. rewrite Hc, Hk. reflexivity. Qed.

(* a raised error reaches the nearest enclosing handler with the continuation truncated to the with-handler's own;
   the extents entered inside it are left first, innermost first *)
Theorem C08_handler_unwinds : forall st e above h w k',
  ctl st = CRaise e -> kont st = (above ++ FHandler h w :: k')%list ->
  forallb (fun f => negb (is_handler f)) above = true ->
  step st =
  match firstn (List.length (winds st) - List.length w) (winds st) with
  | [] => inl (set_ck (set_winds st w) (CApply h [e]) k')
  | leaving => inl (set_ck st (CRet VVoid) [FRewind (map (fun x => (false, x)) leaving) (FFun [e] :: k') w h])
  end.
Proof. exact handler_unwinds. Qed.

(* then the handler procedure is applied to the error in that continuation *)
Theorem C08_handler_after_unwind : forall st x e k' w h,
  ctl st = CRet x -> kont st = [FRewind [] (FFun [e] :: k') w h] ->
  exists st1, step st = inl st1 /\
    step st1 = inl (mkState (CApply h [e]) k' (store st) (next st) (genv st) (out st) w).
Proof.
  intros st x e k' w h Hc Hk. eexists. split; [exact (C08_rewind_done st _ w h x Hc Hk) |]. reflexivity.
Qed.

(* an uncaught error leaves every entered extent before the evaluation fails *)
Theorem C08_uncaught_unwinds : forall st e, ctl st = CRaise e -> find_handler (kont st) = None ->
  step st = match winds st with
            | [] => inr (Failed e st)
            | ws => inl (set_ck st (CRet VVoid) [FRewind (map (fun x => (false, x)) ws) [FReraise e] [] VVoid])
            end.
Proof. intros st e Hc Hn. rewrite (raise_step st e Hc), Hn. reflexivity. Qed.

End Reference.
