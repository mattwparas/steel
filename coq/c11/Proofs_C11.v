(* C11 — concrete graphs: the witnesses on which the algorithm as found answers wrongly (DESIGN F6),
   and a well-formed graph with sharing, maps keyed by collections, and sets.  Everything here is
   evaluation of the model. *)
From Coq Require Import List Arith Bool PeanoNat ZArith.
From SV Require Import c11.Model_C11.
Import ListNotations.

(* (define a (list 1 2 3)) (equal? (list a a) (list (list 9 9 9) (list 1 2 3))) *)
Definition g_f6 : graph :=
  [NAtom (AInt 1); NAtom (AInt 2); NAtom (AInt 3); NAtom (AInt 9);
   NList [0; 1; 2]; NList [4; 4]; NList [3; 3; 3]; NList [0; 1; 2]; NList [6; 7]].

Lemma eq_current_wrong_list :
  eq_alg_current g_f6 5 8 = Some true /\ tree_eqb (unfold g_f6 5) (unfold g_f6 8) = false.
Proof. split; vm_compute; reflexivity. Qed.

(* (define iv (immutable-vector 1 2)) (equal? (list iv iv) (list (immutable-vector 1 2) (immutable-vector 1 2))) *)
Definition g_f6_ivec : graph :=
  [NAtom (AInt 1); NAtom (AInt 2); NIVec [0; 1]; NList [2; 2]; NIVec [0; 1]; NIVec [0; 1]; NList [4; 5]].
Lemma eq_current_wrong_ivec :
  eq_alg_current g_f6_ivec 3 6 = Some false /\ tree_eqb (unfold g_f6_ivec 3) (unfold g_f6_ivec 6) = true.
Proof. split; vm_compute; reflexivity. Qed.

(* (equal? (hashset 1 2) (hashset 3 4)) *)
Definition g_f6_set : graph :=
  [NAtom (AInt 1); NAtom (AInt 2); NAtom (AInt 3); NAtom (AInt 4); NSet [0; 1]; NSet [2; 3]].
Lemma eq_current_wrong_set :
  eq_alg_current g_f6_set 4 5 = Some true /\ tree_eqb (unfold g_f6_set 4) (unfold g_f6_set 5) = false.
Proof. split; vm_compute; reflexivity. Qed.

(* (equal? (list 1/2) (list 1/2)) *)
Definition g_leaf : graph := [NAtom (ARat 1 2); NList [0]; NAtom (ARat 1 2); NList [2]].
Lemma eq_current_wrong_leaf :
  eq_alg_current g_leaf 1 3 = Some false /\ tree_eqb (unfold g_leaf 1) (unfold g_leaf 3) = true.
Proof. split; vm_compute; reflexivity. Qed.

Definition g_demo : graph :=
  [NAtom (AInt 1); NAtom (AStr [97]); NList [0; 1]; NList [0; 1]; NIVec [2; 2]; NIVec [2; 3];
   NMap [(2, 0); (1, 4)]; NMap [(1, 5); (3, 0)]; NSet [2; 0]; NSet [0; 3]; NBox 6; NBox 7;
   NStruct 1 [10; 8]; NStruct 1 [11; 9]; NMVec [12; 12]; NPair 13 0].
Lemma demo_eq : eq_alg g_demo 12 13 = Some true /\ eq_alg g_demo 14 15 = Some false.
Proof. split; vm_compute; reflexivity. Qed.
