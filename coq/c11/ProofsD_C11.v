(* C11 proofs: on a well-formed graph the repaired work-list algorithm computes the fuelled
   structural relation [teq] at its canonical fuel ([T]). *)
From Coq Require Import List Arith Bool PeanoNat ZArith Lia.
From SV Require Import c11.Model_C11 lib.ListFacts.
Import ListNotations.

Lemma mem_In p l : mem p l = true <-> In p l.
Proof.
  unfold mem. rewrite existsb_exists. split.
  - intros [q [Hq He]]. unfold pair_eqb in He. apply andb_true_iff in He as [H1 H2].
    apply Nat.eqb_eq in H1, H2. destruct p, q; simpl in *; subst; auto.
  - intros H. exists p. split; auto. unfold pair_eqb. now rewrite !Nat.eqb_refl.
Qed.

Lemma forallb_ext_in {A} (f h : A -> bool) l :
  (forall x, In x l -> f x = h x) -> forallb f l = forallb h l.
Proof.
  induction l as [|x l IH]; intros H; simpl; [reflexivity|].
  rewrite H by (left; reflexivity). rewrite IH; [reflexivity|]. intros y Hy. apply H. right; exact Hy.
Qed.

Lemma existsb_ext_in {A} (f h : A -> bool) l :
  (forall x, In x l -> f x = h x) -> existsb f l = existsb h l.
Proof.
  induction l as [|x l IH]; intros H; simpl; [reflexivity|].
  rewrite H by (left; reflexivity). rewrite IH; [reflexivity|]. intros y Hy. apply H. right; exact Hy.
Qed.

Lemma in_combine_both {A B} (l : list A) (r : list B) p : In p (combine l r) -> In (fst p) l /\ In (snd p) r.
Proof. destruct p as [x y]. intros H. split; [eapply in_combine_l|eapply in_combine_r]; exact H. Qed.

Lemma flat_map_combine_eq {A B} (f h : A -> list B) (l r : list A) :
  length l = length r -> (forall p, In p (combine l r) -> f (fst p) = h (snd p)) ->
  flat_map f l = flat_map h r.
Proof.
  revert r. induction l as [|x l IH]; intros [|y r] Hl H; simpl in *; try discriminate; [reflexivity|].
  pose proof (H (x, y) (or_introl eq_refl)) as Hxy. simpl in Hxy. rewrite Hxy. f_equal.
  apply IH; [lia|]. intros p Hp. apply H. right; exact Hp.
Qed.

Lemma map_fst_combine {A B} (l : list A) (r : list B) : length l = length r -> map fst (combine l r) = l.
Proof.
  revert r. induction l as [|x l IH]; intros [|y r] H; simpl in *; try discriminate; [reflexivity|].
  f_equal. apply IH. lia.
Qed.

Lemma forallb_combine_self {A} (f : A * A -> bool) cs :
  (forall c, In c cs -> f (c, c) = true) -> forallb f (combine cs cs) = true.
Proof.
  induction cs as [|c cs IH]; intros H; simpl; [reflexivity|].
  rewrite H by (left; reflexivity). apply IH. intros c' Hc. apply H. right; exact Hc.
Qed.

Lemma forallb_filter_skip {A} (P f : A -> bool) l :
  (forall x, f x = false -> P x = true) -> forallb P (filter f l) = forallb P l.
Proof.
  intros H. induction l as [|x l IH]; simpl; [reflexivity|].
  destruct (f x) eqn:Fx; simpl; [f_equal; exact IH|]. rewrite (H x Fx). exact IH.
Qed.

Lemma existsb_find {A} (p : A -> bool) l : existsb p l = if find p l then true else false.
Proof. induction l as [|x l IH]; simpl; [reflexivity|]. destruct (p x); [reflexivity|exact IH]. Qed.

Lemma find_map_dup {A} (p : A -> bool) l :
  find (fun kv => p (fst kv)) (map (fun x => (x, x)) l) = option_map (fun x => (x, x)) (find p l).
Proof. induction l as [|x l IH]; simpl; [reflexivity|]. destruct (p x); [reflexivity|exact IH]. Qed.

Lemma existsb_unamb {A} (p : id -> bool) (q : A -> bool) (kvs : list (id * A)) :
  unamb p (map fst kvs) = true ->
  existsb (fun kv => p (fst kv) && q (snd kv)) kvs =
  match find (fun kv => p (fst kv)) kvs with Some kv => q (snd kv) | None => false end.
Proof.
  induction kvs as [|[x y] rest IH]; simpl; intros Hu; [reflexivity|].
  destruct (p x); simpl; [|apply IH, Hu]. destruct (q y); simpl; [reflexivity|].
  apply not_true_is_false. intros Ex. apply existsb_exists in Ex as [kv [Hin Hb]].
  rewrite forallb_forall in Hu. specialize (Hu (fst kv) (in_map fst _ _ Hin)).
  destruct (p (fst kv)); discriminate.
Qed.

Lemma fold_sum_ext {A} (f h : A -> nat) l : (forall c, In c l -> f c = h c) ->
  fold_right (fun c acc => f c + acc) 0 l = list_sum (map h l).
Proof.
  induction l as [|c l IH]; intros H; simpl; [reflexivity|].
  rewrite (H c (or_introl eq_refl)). f_equal. apply IH. intros c' Hc'. apply H. right; exact Hc'.
Qed.

Lemma list_sum_rev l : list_sum (rev l) = list_sum l.
Proof. induction l as [|c l IH]; simpl; [reflexivity|]. rewrite list_sum_app, IH. simpl. lia. Qed.

Lemma list_sum_filter_le {A} (w : A -> nat) f l : list_sum (map w (filter f l)) <= list_sum (map w l).
Proof. induction l as [|x l IH]; simpl; [apply le_n|]. destruct (f x); simpl; lia. Qed.

Definition kids (s : skel) : list id :=
  match s with
  | SAtom _ => []
  | SOrd _ _ cs => cs
  | SMap kvs => flat_map (fun kv => [fst kv; snd kv]) kvs
  | SSet ks => ks
  end.

Lemma kids_children n : kids (skel_of n) = children n.
Proof. destruct n; reflexivity. Qed.

Lemma in_map_kids (kvs : list (id * id)) kv :
  In kv kvs -> In (fst kv) (kids (SMap kvs)) /\ In (snd kv) (kids (SMap kvs)).
Proof. intros H. split; apply in_flat_map; exists kv; simpl; auto. Qed.

Lemma list_sum_map_snd_le (w : id -> nat) (kvs : list (id * id)) :
  list_sum (map w (map snd kvs)) <= list_sum (map w (kids (SMap kvs))).
Proof. induction kvs as [|kv kvs IH]; simpl in *; lia. Qed.

Lemma skel_inv n :
  match skel_of n with
  | SAtom x => n = NAtom x | SMap kvs => n = NMap kvs | SSet ks => n = NSet ks | SOrd _ _ _ => True
  end.
Proof. destruct n; simpl; auto. Qed.

Lemma keys_children n k : In k (keys_of n) -> In k (children n).
Proof.
  destruct n; simpl; try tauto. intros H. apply in_map_iff in H as [kv [<- H]]. apply (in_map_kids _ _ H).
Qed.

Lemma nats_eqb_eq l r : nats_eqb l r = true <-> l = r.
Proof. exact (eqb_list_eq _ Nat.eqb_eq l r). Qed.

Lemma atom_eqb_refl x : atom_is_nan x = false -> atom_eqb x x = true.
Proof.
  destruct x; simpl; intros H; try reflexivity; try apply Z.eqb_refl; try apply Nat.eqb_refl;
    try (apply nats_eqb_eq; reflexivity); try (rewrite !Z.eqb_refl; reflexivity).
  - unfold flo_eqb. rewrite H. simpl. destruct (flo_is_zero bits); simpl; [reflexivity|apply Z.eqb_refl].
  - destruct b; reflexivity.
Qed.

(* Apart from floats (0.0 = -0.0), equal? atoms are the same atom. *)
Lemma atom_eqb_nonflo x y : atom_eqb x y = true -> match x with AFlo _ => True | _ => x = y end.
Proof.
  (* every test but the one on floats reflects equality of the payloads *)
  destruct x, y; try discriminate; simpl; intros H; trivial; f_equal;
    try apply andb_true_iff in H as [H H'];
    (apply Z.eqb_eq || apply Nat.eqb_eq || apply nats_eqb_eq || apply Bool.eqb_prop); assumption.
Qed.

(* on floats equal? is equality of the bit patterns of two non-NaNs once -0.0 is read as 0.0 *)
Definition fcanon (b : Z) : Z := if flo_is_zero b then 0%Z else b.

Lemma flo_eqb_canon b c :
  flo_eqb b c = true <-> flo_is_nan b = false /\ flo_is_nan c = false /\ fcanon b = fcanon c.
Proof.
  unfold flo_eqb, fcanon.
  destruct (flo_is_nan b), (flo_is_nan c); simpl; try (split; [discriminate|intros (A & B & _); discriminate]).
  destruct (flo_is_zero b) eqn:Zb, (flo_is_zero c) eqn:Zc; simpl; rewrite ?Z.eqb_eq; try tauto;
    (split; [intros ->; congruence|intros (_ & _ & E); subst; discriminate]).
Qed.

Lemma atom_eqb_eq x y :
  atom_eqb x y = true -> atom_is_negzero x = false -> atom_is_negzero y = false -> x = y.
Proof.
  intros H Hx Hy. pose proof (atom_eqb_nonflo x y H) as E.
  destruct x; try exact E. destruct y; try discriminate. simpl in *.
  apply flo_eqb_canon in H as (_ & _ & H). unfold fcanon, flo_is_zero in H. rewrite Hx, Hy, !orb_false_r in H.
  destruct (Z.eqb_spec bits 0), (Z.eqb_spec bits0 0); congruence.
Qed.

Lemma atom_eqb_cong x y z : atom_eqb x y = true -> atom_eqb x z = atom_eqb y z.
Proof.
  intros H. pose proof (atom_eqb_nonflo x y H) as E. destruct x; try (rewrite E; reflexivity).
  destruct y; try discriminate H. destruct z; try reflexivity. simpl in *.
  apply flo_eqb_canon in H as (Hx & Hy & E'). apply eq_true_iff_eq. rewrite !flo_eqb_canon, E'. tauto.
Qed.

Lemma tok_eqb_refl x : tok_eqb x x = true.
Proof. destruct x; simpl; try reflexivity; try apply Nat.eqb_refl; apply Z.eqb_refl. Qed.
Lemma toks_eqb_refl l : toks_eqb l l = true.
Proof. induction l; simpl; [reflexivity|]. rewrite tok_eqb_refl. exact IHl. Qed.

Section Graph.
  Variable g : graph.
  Hypothesis Hr : ranked g.
  Hypothesis Hnan : nan_free g.
  Hypothesis Hst : keys_hash_stable g.
  Hypothesis Hun : keys_unamb g.

  Lemma kid_lt a c : In c (kids (skel_of (get g a))) -> c < a.
  Proof. rewrite kids_children. apply Hr. Qed.

  (* A fuelled function whose step consults the previous level only at children of the node does not
     depend on the fuel once the fuel exceeds the node ([b] stands for the other arguments). *)
  Lemma fuel_stable {B R} (f : nat -> id -> B -> R) :
    (forall n m a b, (forall c b', In c (children (get g a)) -> f n c b' = f m c b') ->
                     f (S n) a b = f (S m) a b) ->
    forall n m a b, a < n -> a < m -> f n a b = f m a b.
  Proof.
    intros Hstep. induction n as [|n IH]; intros [|m] a b Hn Hm; try lia.
    apply Hstep. intros c b' Hc. apply Hr in Hc. apply IH; lia.
  Qed.

  (* one level of [teq], with [h] for the comparisons one level down.  A copy of the body of Model_C11.teq, to be kept
     equal to it: teq_stable and T_eq use [teq (S n) g] as [teq_step (teq n g)] by conversion. *)
  Definition teq_step (h : id -> id -> bool) (a b : id) : bool :=
    match skel_of (get g a), skel_of (get g b) with
    | SAtom x, SAtom y => atom_eqb x y
    | SOrd t u cs, SOrd t' u' cs' =>
        (t =? t') && (u =? u') && (length cs =? length cs') &&
        forallb (fun p => h (fst p) (snd p)) (combine cs cs')
    | SMap kvs, SMap kvs' =>
        (length kvs =? length kvs') &&
        forallb (fun kv => existsb (fun kv' => h (fst kv) (fst kv') && h (snd kv) (snd kv')) kvs') kvs
    | SSet ks, SSet ks' => (length ks =? length ks') && forallb (fun k => existsb (fun k' => h k k') ks') ks
    | _, _ => false
    end.

  Lemma teq_step_ext h h' a b :
    (forall c b', In c (children (get g a)) -> h c b' = h' c b') -> teq_step h a b = teq_step h' a b.
  Proof.
    intros H. rewrite <- kids_children in H. unfold teq_step.
    destruct (skel_of (get g a)) as [x|t u cs|kvs|ks]; destruct (skel_of (get g b)) as [y|t' u' cs'|kvs'|ks'];
      try reflexivity; f_equal; apply forallb_ext_in.
    - intros p Hp. apply in_combine_both in Hp as [Hp _]. apply H, Hp.
    - intros kv Hkv. apply existsb_ext_in. intros kv' _. destruct (in_map_kids _ _ Hkv). f_equal; apply H; assumption.
    - intros k Hk. apply existsb_ext_in. intros k' _. apply H, Hk.
  Qed.

  Lemma teq_stable : forall n m a b, a < n -> a < m -> teq n g a b = teq m g a b.
  Proof.
    apply (fuel_stable (fun n => teq n g)). intros n m a b H. exact (teq_step_ext (teq n g) (teq m g) a b H).
  Qed.

  Lemma hash_stable_stable n m a : a < n -> a < m -> hash_stable n g a = hash_stable m g a.
  Proof.
    refine (fuel_stable (fun n a (_ : unit) => hash_stable n g a) _ n m a tt).
    intros n' m' c _ H. cbn [hash_stable].
    destruct (get g c); try reflexivity; apply forallb_ext_in; intros k Hk; apply (H k tt Hk).
  Qed.

  Lemma weight_stable n m a : a < n -> a < m -> weight n g a = weight m g a.
  Proof.
    refine (fuel_stable (fun n a (_ : unit) => weight n g a) _ n m a tt).
    intros n' m' c _ H. cbn [weight]. f_equal.
    rewrite (fold_sum_ext (weight n' g) (weight m' g)), (fold_sum_ext (weight m' g) (weight m' g)); auto.
    intros k Hk. apply (H k tt Hk).
  Qed.

  Definition T (a b : id) : bool := teq (S a) g a b.
  Definition Pb (p : id * id) : bool := T (fst p) (snd p).

  Lemma T_eq a b : T a b = teq_step T a b.
  Proof.
    apply (teq_step_ext (teq a g) T). intros c b' Hc. apply teq_stable; [apply Hr, Hc|apply Nat.lt_succ_diag_r].
  Qed.

  Lemma T_refl a : T a a = true.
  Proof.
    induction a as [a IH] using lt_wf_ind. rewrite T_eq. unfold teq_step.
    pose proof (kid_lt a) as Hk. pose proof (skel_inv (get g a)) as Ga.
    destruct (skel_of (get g a)) as [x|t u cs|kvs|ks].
    - apply atom_eqb_refl, (Hnan a), Ga.
    - rewrite !Nat.eqb_refl. apply forallb_combine_self. intros c Hc. apply IH, Hk, Hc.
    - rewrite Nat.eqb_refl. apply forallb_forall. intros kv Hkv.
      apply existsb_exists. exists kv. split; [exact Hkv|]. destruct (in_map_kids _ _ Hkv).
      rewrite !IH by (apply Hk; assumption). reflexivity.
    - rewrite Nat.eqb_refl. apply forallb_forall. intros k Hkk.
      apply existsb_exists. exists k. split; [exact Hkk|]. apply IH, Hk, Hkk.
  Qed.

  Lemma hash_respects_n : forall n m a b, a < n -> b < m ->
    teq n g a b = true -> hash_stable n g a = true -> hash_stable m g b = true ->
    htok n g a = htok m g b.
  Proof.
    induction n as [|n IH]; intros [|m] a b Ha Hb He Hsa Hsb; try lia.
    assert (K : forall c c', c < a -> c' < b ->
              teq n g c c' = true -> hash_stable n g c = true -> hash_stable m g c' = true ->
              htok n g c = htok m g c').
    { intros c c' Hc Hc'. apply IH; lia. }
    assert (Kl : forall cs cs', (forall c, In c cs -> c < a) -> (forall c, In c cs' -> c < b) ->
                 (length cs =? length cs') && forallb (fun p => teq n g (fst p) (snd p)) (combine cs cs') = true ->
                 forallb (hash_stable n g) cs = true -> forallb (hash_stable m g) cs' = true ->
                 flat_map (htok n g) cs = flat_map (htok m g) cs').
    { intros cs cs' Ra Rb E A B. apply andb_true_iff in E as [El E]. apply Nat.eqb_eq in El.
      rewrite forallb_forall in E, A, B. apply flat_map_combine_eq; [exact El|]. intros p Hp.
      destruct (in_combine_both _ _ _ Hp). apply K; auto. }
    pose proof (Hr a) as Ra. pose proof (Hr b) as Rb. simpl in He, Hsa, Hsb |- *.
    (* mutable vectors, maps and sets are not hash-stable: they go on each side before the shapes are compared *)
    destruct (get g a); simpl in Hsa; try discriminate Hsa; simpl in He |- *;
      destruct (get g b); simpl in Hsb; try discriminate Hsb; simpl in He |- *; try discriminate He.
    - apply negb_true_iff in Hsa, Hsb. rewrite (atom_eqb_eq _ _ He Hsa Hsb). reflexivity.
    - f_equal. apply Kl; assumption.
    - rewrite !andb_true_r in He, Hsa, Hsb. apply andb_true_iff in He as [E1 E2].
      apply andb_true_iff in Hsa as [A1 A2]. apply andb_true_iff in Hsb as [B1 B2].
      rewrite (K a0 a1), (K d d0); simpl in Ra, Rb; auto.
    - f_equal. apply Kl; assumption.
    - rewrite <- andb_assoc in He. apply andb_true_iff in He as [Ety He]. apply Nat.eqb_eq in Ety. subst.
      assert (El := He). apply andb_true_iff in El as [El _]. apply Nat.eqb_eq in El. rewrite El.
      do 3 f_equal. apply Kl; assumption.
    - rewrite !andb_true_r in He, Hsa, Hsb. f_equal. apply K; simpl in Ra, Rb; auto.
  Qed.

  Lemma hash_respects_T a b :
    T a b = true -> hash_stable (S a) g a = true -> hash_stable (S b) g b = true ->
    hash_tokens g a = hash_tokens g b.
  Proof. apply hash_respects_n; lia. Qed.

  Lemma hs_key a k : In k (keys_of (get g a)) -> k < a /\ hash_stable (S k) g k = true.
  Proof.
    intros Hk. assert (Hlt : k < a) by apply Hr, keys_children, Hk.
    split; [exact Hlt|]. rewrite (hash_stable_stable (S k) (S a)) by lia.
    pose proof (Hst a) as H. unfold keys_hash_stable_node in H.
    destruct (get g a); try destruct Hk; rewrite forallb_forall in H.
    - apply in_map_iff in Hk as [kv [<- Hk]]. apply H, Hk.
    - apply H, Hk.
  Qed.

  Definition W (a : id) : nat := weight (S a) g a.
  Definition sumW (l : list id) : nat := list_sum (map W l).

  Lemma W_unfold a : W a = S (sumW (children (get g a))).
  Proof.
    unfold W at 1. cbn [weight]. f_equal. apply fold_sum_ext.
    intros c Hc. apply Hr in Hc. apply weight_stable; lia.
  Qed.

  (* [keq] is the nested comparison the loop runs on candidate keys; it is assumed correct on ids
     below [d'] and instantiated with [eq_d d'] in [eq_d_correct] *)
  Section Keq.
  Variable d' : nat.
  Variable keq : id -> id -> option bool.
  Hypothesis Hkeq : forall k k', k < d' -> keq k k' = Some (T k k').

  Lemma lookup_find k kvs' :
    k < d' -> hash_stable (S k) g k = true ->
    (forall k', In k' (map fst kvs') -> hash_stable (S k') g k' = true) ->
    lookup keq g k kvs' = Some (option_map snd (find (fun kv' => T k (fst kv')) kvs')).
  Proof.
    intros Hk Hs. induction kvs' as [|[k' v'] rest IH]; intros Hs'; simpl; [reflexivity|].
    assert (IH' := IH (fun x H => Hs' x (or_intror H))). clear IH.
    destruct (toks_eqb (hash_tokens g k) (hash_tokens g k')) eqn:Et.
    - rewrite (Hkeq k k' Hk). destruct (T k k'); [reflexivity|exact IH'].
    - destruct (T k k') eqn:Ek; [|exact IH'].
      rewrite (hash_respects_T k k' Ek Hs (Hs' k' (or_introl eq_refl))), toks_eqb_refl in Et. discriminate.
  Qed.

  (* the map arm pushes one pair of values per entry, and these pairs decide the comparison of the two maps *)
  Lemma map_body_ok kvs' : forall kvs acc,
    (forall k, In k (map fst kvs) ->
       (k < d' /\ hash_stable (S k) g k = true) /\ unamb (T k) (map fst kvs') = true) ->
    (forall k', In k' (map fst kvs') -> hash_stable (S k') g k' = true) ->
    match map_body keq g kvs kvs' acc with
    | APush ps => exists ps', ps = rev acc ++ ps' /\ map fst ps' = map snd kvs /\
        forallb (fun kv => existsb (fun kv' => T (fst kv) (fst kv') && T (snd kv) (snd kv')) kvs') kvs = forallb Pb ps'
    | AFalse => forallb (fun kv => existsb (fun kv' => T (fst kv) (fst kv') && T (snd kv) (snd kv')) kvs') kvs = false
    | _ => False
    end.
  Proof.
    induction kvs as [|[k v] rest IH]; intros acc Hk Hs'; simpl.
    - exists []. rewrite app_nil_r. auto.
    - destruct (Hk k (or_introl eq_refl)) as [[Hkd Hks] Hu].
      rewrite (lookup_find k kvs' Hkd Hks Hs'), (existsb_unamb (T k) (T v)) by exact Hu.
      destruct (find (fun kv' => T k (fst kv')) kvs') as [[k' v']|]; simpl; [|reflexivity].
      specialize (IH ((v, v') :: acc) (fun x H => Hk x (or_intror H)) Hs').
      destruct (map_body keq g rest kvs' ((v, v') :: acc)); try contradiction.
      + rewrite IH. apply andb_false_r.
      + destruct IH as (ps' & -> & M & ->). exists ((v, v') :: ps'). simpl. rewrite <- app_assoc, M. auto.
  Qed.

  Lemma set_body_eq ks ks' :
    (forall k, In k ks -> k < d' /\ hash_stable (S k) g k = true) ->
    (forall k', In k' ks' -> hash_stable (S k') g k' = true) ->
    set_body keq g ks ks' =
    if forallb (fun k => existsb (fun k' => T k k') ks') ks then ANext else AFalse.
  Proof.
    induction ks as [|k rest IH]; intros Hk Hs'; simpl; [reflexivity|].
    destruct (Hk k (or_introl eq_refl)) as [Hkd Hks].
    rewrite (lookup_find k _ Hkd Hks) by (rewrite map_map, map_id; exact Hs').
    rewrite (find_map_dup (T k)), existsb_find.
    destruct (find (T k) ks'); simpl; [|reflexivity].
    apply IH; [intros k0 H; apply Hk; right; exact H|exact Hs'].
  Qed.

  Definition pushok (a b : id) (ps : list (id * id)) : Prop :=
    T a b = forallb Pb ps /\ sumW (map fst ps) < W a /\ (forall p, In p ps -> fst p < a).

  Definition act_ok (a b : id) (act : action) : Prop :=
    match act with
    | AFalse => T a b = false
    | ANext => T a b = true
    | AFuel => False
    | APush ps => pushok a b ps
    | AVisit _ _ => False
    end.

  Lemma skipped_T p : negb (list_child_skipped g p) = false -> Pb p = true.
  Proof.
    intros H. apply negb_false_iff, andb_true_iff in H as [_ H]. unfold Pb.
    apply orb_true_iff in H as [H|H].
    - apply andb_true_iff in H as [H1 H2].
      assert (E0 : forall x, is_empty_list (get g x) = true -> skel_of (get g x) = SOrd 0 0 []).
      { intros x. destruct (get g x) as [|[|]| | | | | | |]; simpl; try discriminate. reflexivity. }
      rewrite T_eq. unfold teq_step. rewrite (E0 _ H1), (E0 _ H2). reflexivity.
    - apply Nat.eqb_eq in H. rewrite H. apply T_refl.
  Qed.

  Lemma pushok_filter a b f ps :
    (forall p, f p = false -> Pb p = true) -> pushok a b ps -> pushok a b (filter f ps).
  Proof.
    intros Hf [H1 [H2 H3]]. split; [|split].
    - rewrite H1. symmetry. apply forallb_filter_skip, Hf.
    - eapply Nat.le_lt_trans; [|exact H2]. unfold sumW. rewrite !map_map. apply list_sum_filter_le.
    - intros p Hp. apply filter_In in Hp as [Hp _]. apply H3, Hp.
  Qed.

  Lemma keys_ok a : a <= d' -> forall k, In k (keys_of (get g a)) -> k < d' /\ hash_stable (S k) g k = true.
  Proof. intros Ha k Hk. destruct (hs_key a k Hk). split; [lia|assumption]. Qed.

  Lemma expand_spec a b : a <= d' ->
    match expand keq g true a b with
    | AVisit _ body => act_ok a b body
    | act => act_ok a b act
    end.
  Proof.
    intros Had. unfold expand. cbv zeta.
    pose proof (T_eq a b) as HT. unfold teq_step in HT. pose proof (T_refl a) as Hrefl.
    pose proof (skel_inv (get g a)) as Ga. pose proof (skel_inv (get g b)) as Gb.
    destruct (skel_of (get g a)) as [x|t u cs|kvs|ks] eqn:Sa;
      destruct (skel_of (get g b)) as [y|t' u' cs'|kvs'|ks'] eqn:Sb; try exact HT.
    - (* atoms *)
      assert (loop_has_arm true x = true) as -> by (destruct x; reflexivity). simpl.
      rewrite <- HT. destruct (T a b); reflexivity.
    - (* ordered nodes *)
      destruct ((t =? t') && (u =? u')); simpl; [|exact HT].
      destruct (arm_ptr (get g a) (get g b) && (a =? b)) eqn:Ep.
      { apply andb_true_iff in Ep as [_ Ep]. apply Nat.eqb_eq in Ep. subst b. exact Hrefl. }
      set (ps := if is_list (get g a) then filter _ (combine cs cs') else combine cs cs').
      assert (Hbody : act_ok a b (if length cs =? length cs' then APush ps else AFalse)).
      { destruct (length cs =? length cs') eqn:El; simpl; [|exact HT].
        apply Nat.eqb_eq in El.
        assert (H0 : pushok a b (combine cs cs')).
        { split; [exact HT|]. rewrite (map_fst_combine cs cs' El), W_unfold, <- kids_children, Sa.
          split; [apply Nat.lt_succ_diag_r|]. intros p Hp. apply in_combine_both in Hp as [Hp _].
          apply kid_lt. rewrite Sa. exact Hp. }
        unfold ps. destruct (is_list (get g a)); [apply pushok_filter; [exact skipped_T|exact H0]|exact H0]. }
      destruct (arm_visit true (get g a) (get g b)); [exact Hbody|].
      destruct (length cs =? length cs'); exact Hbody.
    - (* maps *)
      destruct (Nat.eqb_spec a b) as [<-|_]; [exact Hrefl|].
      simpl. destruct (length kvs =? length kvs'); simpl; [|exact HT].
      pose proof (keys_ok a Had) as Ka. pose proof (fun k Hk => proj2 (hs_key b k Hk)) as Kb.
      pose proof (Hun a b) as Hu. unfold unamb_pair in Hu. rewrite Ga in Ka, Hu. rewrite Gb in Kb, Hu.
      rewrite forallb_forall in Hu.
      pose proof (map_body_ok kvs' kvs [] (fun k Hk => conj (Ka k Hk) (Hu k Hk)) Kb) as Hm.
      destruct (map_body keq g kvs kvs' []) as [| | |ps|]; simpl; try contradiction; [rewrite HT; exact Hm|].
      destruct Hm as (ps' & -> & M2 & M1). split; [rewrite HT; exact M1|]. simpl. rewrite M2. split.
      + rewrite W_unfold, Ga. apply Nat.lt_succ_r, list_sum_map_snd_le.
      + intros p Hp. apply (in_map fst) in Hp. rewrite M2 in Hp. apply in_map_iff in Hp as [kv [<- Hin]].
        apply kid_lt. rewrite Sa. apply (in_map_kids _ _ Hin).
    - (* sets *)
      destruct (Nat.eqb_spec a b) as [<-|_]; [exact Hrefl|].
      simpl. destruct (length ks =? length ks'); simpl; [|exact HT].
      pose proof (keys_ok a Had) as Ka. pose proof (fun k Hk => proj2 (hs_key b k Hk)) as Kb.
      rewrite Ga in Ka. rewrite Gb in Kb. rewrite (set_body_eq ks ks' Ka Kb).
      simpl in HT. destruct (forallb (fun k => existsb (fun k' => T k k') ks') ks); exact HT.
  Qed.

  Definition M (work : list (id * id)) : nat := sumW (map fst work).
  Definition bound (work : list (id * id)) : Prop := forall p, In p work -> fst p <= d'.
  (* a visited pair is equal provided the pending pairs below it are *)
  Definition Inv (work vis : list (id * id)) : Prop :=
    forall q, In q vis -> (forall p, In p work -> fst p < fst q -> Pb p = true) -> Pb q = true.

  Lemma M_push ps w : M (rev ps ++ w) = sumW (map fst ps) + M w.
  Proof. unfold M, sumW. rewrite !map_app, !map_rev, list_sum_app, list_sum_rev. reflexivity. Qed.

  Lemma bound_push a b ps w : pushok a b ps -> bound ((a, b) :: w) -> bound (rev ps ++ w).
  Proof.
    intros [_ [_ Hlt]] H p Hp. apply in_app_or in Hp as [Hp|Hp]; [|apply H; right; exact Hp].
    apply in_rev, Hlt in Hp. specialize (H (a, b) (or_introl eq_refl)). simpl in H. lia.
  Qed.

  Lemma forallb_push a b ps w : pushok a b ps -> forallb Pb (rev ps ++ w) = T a b && forallb Pb w.
  Proof.
    intros [-> _]. rewrite forallb_app. f_equal.
    induction ps as [|p ps IH]; simpl; [reflexivity|]. rewrite forallb_app, IH. simpl.
    rewrite andb_true_r. apply andb_comm.
  Qed.

  (* continuing with the next pair is pushing nothing *)
  Lemma pushok_nil a b : T a b = true -> pushok a b [].
  Proof. intros Ht. split; [exact Ht|]. split; [rewrite W_unfold; apply Nat.lt_0_succ|intros p []]. Qed.

  (* whether or not the popped pair is marked visited: it is equal as soon as the pairs pushed for it
     are, and these lie below it *)
  Lemma Inv_push a b ps w vis vis' :
    pushok a b ps -> Inv ((a, b) :: w) vis -> incl vis' ((a, b) :: vis) -> Inv (rev ps ++ w) vis'.
  Proof.
    intros [Ht [_ Hk]] HI Hv q Hq H.
    assert (Hab : a <= fst q -> Pb (a, b) = true).
    { intros Hle. unfold Pb. simpl. rewrite Ht. apply forallb_forall. intros p' Hp'. apply H.
      - apply in_or_app. left. apply in_rev in Hp'. exact Hp'.
      - apply Hk in Hp'. lia. }
    destruct (Hv q Hq) as [<-|Hq']; [apply Hab, le_n|].
    apply (HI q Hq'). intros p [<-|Hp] Hlt; [apply Hab, Nat.lt_le_incl, Hlt|].
    apply H; [apply in_or_app; right; exact Hp|exact Hlt].
  Qed.

  Lemma Inv_skip a b w vis : In (a, b) vis -> Inv ((a, b) :: w) vis -> Inv w vis.
  Proof.
    intros Hin HI q Hq H. apply (HI q Hq). intros p [Hp|Hp] Hlt; [|apply H; assumption].
    subst p. simpl in Hlt. apply (HI (a, b) Hin). intros p [Hp|Hp] Hlt'.
    - subst p. simpl in Hlt'. lia.
    - apply H; [exact Hp|]. simpl in Hlt'. lia.
  Qed.

  (* Within the step budget the loop answers whether every pending pair is equal: it terminates, and
     is sound and complete at once. *)
  Lemma loop_correct : forall fuel work vis, M work < fuel -> bound work -> Inv work vis ->
    eq_loop keq fuel g work vis = Some (forallb Pb work).
  Proof.
    induction fuel as [|f IH]; intros work vis Hm Hb HI; [inversion Hm|].
    destruct work as [|[a b] w]; [reflexivity|].
    pose proof (expand_spec a b (Hb (a, b) (or_introl eq_refl))) as Hx.
    assert (HM : M ((a, b) :: w) = W a + M w) by reflexivity. pose proof (W_unfold a) as HW.
    assert (Hbw : bound w) by (intros p Hp; apply Hb; right; exact Hp).
    change (forallb Pb ((a, b) :: w)) with (T a b && forallb Pb w).
    assert (Hpush : forall ps vis', pushok a b ps -> incl vis' ((a, b) :: vis) ->
              eq_loop keq f g (rev ps ++ w) vis' = Some (T a b && forallb Pb w)).
    { intros ps vis' Hok Hv. rewrite <- (forallb_push a b ps w Hok).
      apply IH; [|eapply bound_push; eauto|eapply Inv_push; eauto].
      rewrite M_push. destruct Hok as [_ [Hs _]]. lia. }
    cbn [eq_loop].
    destruct (expand keq g true a b) as [| | |ps|iv body]; simpl in Hx.
    - rewrite Hx. reflexivity.
    - apply (Hpush []); [apply pushok_nil, Hx|apply incl_tl, incl_refl].
    - contradiction.
    - apply Hpush; [exact Hx|apply incl_tl, incl_refl].
    - destruct (mem (a, b) vis) eqn:Em.
      + (* revisit: if the rest of the work list is equal, the invariant says this pair is too *)
        apply mem_In in Em. rewrite IH; [|lia|exact Hbw|eapply Inv_skip; eauto]. f_equal.
        destruct (forallb Pb w) eqn:Ew; [|symmetry; apply andb_false_r].
        rewrite andb_true_r. symmetry. apply (HI (a, b) Em). intros p [Hp|Hp] Hlt.
        * subst p. simpl in Hlt. lia.
        * rewrite forallb_forall in Ew. apply Ew, Hp.
      + destruct body as [| | |ps|? ?]; simpl in Hx; try contradiction.
        * rewrite Hx. reflexivity.
        * apply (Hpush []); [apply pushok_nil, Hx|apply incl_refl].
        * apply Hpush; [exact Hx|apply incl_refl].
  Qed.

  Lemma run_correct a b : a <= d' -> eq_loop keq (S (W a)) g [(a, b)] [] = Some (T a b).
  Proof.
    intros Hab. rewrite loop_correct.
    - simpl. unfold Pb. simpl. rewrite andb_true_r. reflexivity.
    - change (M [(a, b)]) with (W a + 0). lia.
    - intros p [<-|[]]. exact Hab.
    - intros q [].
  Qed.
  End Keq.

  Lemma eq_d_correct : forall d a b, a < d -> eq_d d g a b = Some (T a b).
  Proof.
    induction d as [|d IH]; intros a b Ha; [inversion Ha|].
    apply (run_correct d (eq_d d g) IH). lia.
  Qed.

  Lemma eq_alg_T a b : eq_alg g a b = Some (T a b).
  Proof. apply eq_d_correct. lia. Qed.
End Graph.
