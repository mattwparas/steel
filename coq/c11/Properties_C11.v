(* C11 — the property theorems, from the lemmas of the proof files; the statements are checked again in
   Pins_C11.v. *)
From Coq Require Import List Arith Bool PeanoNat ZArith Lia.
From SV Require Import c11.Model_C11 c11.ProofsD_C11 c11.Proofs_C11 c11.Coll_C11 c11.ProofsColl_C11
  c11.ProofsF_C11.
Import ListNotations.

(* The algorithm before the fix (DESIGN F6: visited set keyed on single identities) is unsound ... *)
Theorem C11_eq_refuted :
  exists g a b, rankedb g = true /\ keys_unambb g = true /\ nan_freeb g = true /\
    eq_alg_current g a b = Some true /\ tree_eqb (unfold g a) (unfold g b) = false.
Proof. exists g_f6, 5, 8. split; [|split; [|split; [|exact eq_current_wrong_list]]]; vm_compute; reflexivity. Qed.

(* ... and incomplete (immutable-vector revisit answers false) *)
Theorem C11_eq_refuted_incomplete :
  exists g a b, rankedb g = true /\ keys_unambb g = true /\ nan_freeb g = true /\
    eq_alg_current g a b = Some false /\ tree_eqb (unfold g a) (unfold g b) = true.
Proof. exists g_f6_ivec, 3, 6. split; [|split; [|split; [|exact eq_current_wrong_ivec]]]; vm_compute; reflexivity. Qed.

Theorem C11_set_eq_refuted :
  exists g a b, rankedb g = true /\ keys_unambb g = true /\ nan_freeb g = true /\
    eq_alg_current g a b = Some true /\ tree_eqb (unfold g a) (unfold g b) = false.
Proof. exists g_f6_set, 4, 5. split; [|split; [|split; [|exact eq_current_wrong_set]]]; vm_compute; reflexivity. Qed.

Theorem C11_eq_fixed_on_witnesses :
  eq_alg g_f6 5 8 = Some false /\ eq_alg g_f6_ivec 3 6 = Some true /\
  eq_alg g_f6_set 4 5 = Some false /\ eq_alg g_leaf 1 3 = Some true.
Proof. repeat split; vm_compute; reflexivity. Qed.

(* the repaired algorithm (pair-keyed visited set), on every acyclic graph with arbitrary sharing:
   it terminates within its budget (never None) and decides structural equality of the unfoldings -
   soundness AND completeness, whatever the sharing. *)
Theorem C11_eq_alg_structural : forall g a b, wfb g = true ->
  eq_alg g a b = Some (tree_eqb (unfold g a) (unfold g b)).
Proof. intros g a b H. rewrite (eq_alg_wf g a b H). f_equal. apply T_tree, wfb_ranked, H. Qed.

Theorem C11_eq_refl : forall g a, wfb g = true -> eq_alg g a a = Some true.
Proof.
  intros g a H. rewrite (eq_alg_wf g a a H). f_equal. destruct (wfb_sound g H) as [Hr [Hn _]].
  apply T_refl; assumption.
Qed.

(* equal? hash-stable values feed identical token streams to the hasher (any hasher) *)
Theorem C11_hash_respects_eq : forall g a b, wfb g = true ->
  eq_alg g a b = Some true ->
  hash_stable (S a) g a = true -> hash_stable (S b) g b = true ->
  hash_tokens g a = hash_tokens g b.
Proof.
  intros g a b H He. rewrite (eq_alg_wf g a b H) in He. injection He. apply hash_respects_T, wfb_ranked, H.
Qed.

(* interchangeable as keys: probing a map / set that stores k with p succeeds exactly when p equal? k *)
Theorem C11_probe_iff_equal : forall g k p, wfb g = true ->
  hash_stable (S k) g k = true -> hash_stable (S p) g p = true ->
  obs_probe g k p = obs_equal g p k.
Proof.
  intros g k p H Hk Hp. destruct (wfb_sound g H) as [Hr [Hn [Hs Hu]]]. unfold obs_probe, obs_equal.
  rewrite (lookup_find g Hr (S p) (eq_d (S p) g)), (eq_alg_wf g p k H).
  - simpl. destruct (T g p k); reflexivity.
  - intros x x' Hx. apply eq_d_correct; assumption.
  - apply Nat.lt_succ_diag_r.
  - exact Hp.
  - intros k' [<-|[]]. exact Hk.
Qed.

Example C11_nonvacuous : wfb g_demo = true /\ wfb g_f6 = true /\ wfb g_f6_ivec = true /\ wfb g_f6_set = true.
Proof. repeat split; vm_compute; reflexivity. Qed.

(* hash maps: every sequence of hash-insert / hash-remove on the association-list model is the same
   sequence on the finite map seen as a function key -> option value *)
Theorem C11_map_refines : forall ops m x,
  mlookup x (fold_left mapply ops m) = fold_left fapply ops (fun y => mlookup y m) x.
Proof.
  induction ops as [|o ops IH]; intros m x; simpl; [reflexivity|].
  rewrite IH. apply fold_fapply_ext. intros y. apply mapply_lookup.
Qed.

Theorem C11_map_laws : forall k k' v m,
  mlookup k (minsert k v m) = Some v /\
  (k <> k' -> mlookup k' (minsert k v m) = mlookup k' m) /\
  mlookup k (mremove k m) = None /\
  (k <> k' -> mlookup k' (mremove k m) = mlookup k' m) /\
  (mlookup k m <> None <-> In k (map fst m)).
Proof.
  intros. assert (E : k <> k' -> key_eqb k' k = false) by (intros Hn; apply key_eqb_neq; congruence).
  split; [rewrite lookup_insert, key_eqb_refl; reflexivity|].
  split; [intros Hn; rewrite lookup_insert, (E Hn); reflexivity|].
  split; [rewrite lookup_remove, key_eqb_refl; reflexivity|].
  split; [intros Hn; rewrite lookup_remove, (E Hn); reflexivity|apply lookup_in_keys].
Qed.

Theorem C11_map_length : forall k v m, NoDup (map fst m) ->
  length (minsert k v m) = match mlookup k m with Some _ => length m | None => S (length m) end.
Proof.
  intros k v m Hnd. unfold minsert. simpl. destruct (mlookup k m) eqn:L.
  - apply remove_length_present; [exact Hnd|congruence].
  - rewrite remove_absent by exact L. reflexivity.
Qed.

(* hash sets: membership after any sequence of insertions *)
Theorem C11_set_refines : forall ks s x,
  In x (fold_left (fun s k => sinsert k s) ks s) <-> In x ks \/ In x s.
Proof. exact set_refines_lemma. Qed.

(* hashmaps.rs / hashsets.rs primitives on the association-list model: a map or set without duplicate keys has
   none after any sequence of operations that ends without an error (the other kinds carry no condition) *)
Theorem C11_coll_invariant : forall ops c acc outs c', coll_ok c -> run c ops acc = inl (outs, c') -> coll_ok c'.
Proof.
  induction ops as [|o ops IH]; intros c acc outs c' H E; simpl in E; [inversion E; subst; exact H|].
  destruct (step c o) eqn:S; try discriminate.
  - eapply IH; [|exact E]. eapply step_ok; eauto.
  - eapply IH; eauto.
Qed.

(* vectors: set-then-ref, other indices untouched, length kept *)
Theorem C11_vector_set_ref : forall l z x, (0 <= z < zlen l)%Z ->
  exists l', step (CMVec l) (OVecSet (IZ z) x) = RColl (CMVec l') /\ zlen l' = zlen l /\
             step (CMVec l') (OVecRef (IZ z)) = ROut (OInt x) /\
             forall z', (0 <= z' < zlen l)%Z -> z' <> z ->
               step (CMVec l') (OVecRef (IZ z')) = step (CMVec l) (OVecRef (IZ z')).
Proof.
  intros l z x H. destruct (ref_at_inbounds l z H) as [y Hy]. exists (set_nth l (Z.to_nat z) x).
  assert (Hl : zlen (set_nth l (Z.to_nat z) x) = zlen l) by (unfold zlen; rewrite set_nth_length; reflexivity).
  cbn [step]. rewrite ref_at_u_nonneg by lia. rewrite Hy. split; [reflexivity|]. split; [exact Hl|]. split.
  - rewrite ref_at_in, set_nth_same; [reflexivity|unfold zlen in H; lia|rewrite Hl; exact H].
  - intros z' Hz' Hne. rewrite !ref_at_in, set_nth_other; [reflexivity|lia|exact Hz'|rewrite Hl; exact Hz'].
Qed.

(* an index outside the sequence: vector-ref and list-ref answer an Index error; vector-set! converts the index
   to usize first, so a negative index is a Type error and one past the end an Index error *)
Theorem C11_index_errors : forall l z x, ~ (0 <= z < zlen l)%Z ->
  step (CMVec l) (OVecRef (IZ z)) = RErr EIndex /\
  step (CMVec l) (OVecSet (IZ z) x) = (if (z <? 0)%Z then RErr EType else RErr EIndex) /\
  step (CList l) (OListRef (IZ z)) = RErr EIndex.
Proof.
  intros l z x H. cbn [step]. unfold ref_at_u. rewrite (ref_at_outofbounds l z H).
  destruct (z <? 0)%Z; repeat split.
Qed.

(* lists: the operations are the sequence operations; take and drop split the list *)
Theorem C11_list_ops : forall l l2 x,
  step (CList l) (OCons x) = RColl (CList (x :: l)) /\
  step (CList l) (OAppend l2) = RColl (CList (l ++ l2)) /\
  step (CList l) OReverse = RColl (CList (rev l)) /\
  step (CList l) OLength = ROut (OInt (Z.of_nat (length l))) /\
  (forall z, (0 <= z < zlen l)%Z -> step (CList l) (OListRef (IZ z)) = ROut (OInt (nth (Z.to_nat z) l 0%Z))).
Proof.
  intros l l2 x. repeat split. intros z Hz. cbn [step].
  rewrite (ref_at_in l z Hz), (nth_error_nth' l 0%Z); [reflexivity|unfold zlen in Hz; lia].
Qed.

Theorem C11_take_drop : forall l n, (0 <= n <= zlen l)%Z ->
  exists a b, step (CList l) (OTake (IZ n)) = RColl (CList a) /\ step (CList l) (ODrop (IZ n)) = RColl (CList b) /\
              a ++ b = l /\ zlen a = n.
Proof.
  intros l n H. exists (firstn (Z.to_nat n) l), (skipn (Z.to_nat n) l). simpl.
  assert ((n <? 0)%Z = false) as -> by lia. assert ((zlen l <? n)%Z = false) as -> by lia. simpl.
  repeat split; [apply firstn_skipn|]. unfold zlen in *. rewrite firstn_length. lia.
Qed.

(* reflexivity: C11_eq_refl (all kinds).  Symmetry / transitivity: only without hash maps and hash sets, both from T_cong.
   With them, not formalised here: transitivity (the test on maps and sets is one-sided, so partners compose); symmetry
   (needs keys_unamb on both sides and: an injective matching between entry lists of equal length is onto). *)
Theorem C11_eq_sym : forall g a b, wfb g = true -> ord_onlyb g = true -> eq_alg g a b = eq_alg g b a.
Proof.
  intros g a b H Ho. rewrite !eq_alg_wf by exact H. f_equal. destruct (wfb_sound g H) as [Hr [Hn _]].
  apply eq_true_iff_eq. split; apply T_sym; assumption.
Qed.

Theorem C11_eq_trans : forall g a b c, wfb g = true -> ord_onlyb g = true ->
  eq_alg g a b = Some true -> eq_alg g b c = Some true -> eq_alg g a c = Some true.
Proof.
  intros g a b c H Ho. rewrite !eq_alg_wf by exact H. intros H1 H2. injection H1 as H1. injection H2 as H2.
  f_equal. rewrite (T_cong g (wfb_ranked g H) Ho a b c H1). exact H2.
Qed.

(* hash-union: for every key the LEFT value wins, otherwise the right one (hashmaps.rs doc) *)
Theorem C11_union_spec : forall k l r,
  mlookup k (munion l r) = match mlookup k l with Some v => Some v | None => mlookup k r end.
Proof.
  intros k l r. unfold munion. rewrite mlookup_app. destruct (mlookup k l) eqn:E; [reflexivity|].
  rewrite (mlookup_filter (fun x => match mlookup x l with Some _ => false | None => true end)), E. reflexivity.
Qed.

Theorem C11_union_keeps_keys_distinct : forall l r,
  NoDup (map fst l) -> NoDup (map fst r) -> NoDup (map fst (munion l r)).
Proof. exact munion_nodup. Qed.

(* hashset-union / -intersection / -difference (symmetric, as documented) / -subset? *)
Theorem C11_set_ops_spec : forall l r x,
  (In x (sunion l r) <-> In x l \/ In x r) /\
  (In x (sinter l r) <-> In x l /\ In x r) /\
  (In x (ssymdiff l r) <-> (In x l /\ ~ In x r) \/ (In x r /\ ~ In x l)) /\
  (ssubset l r = true <-> incl l r).
Proof.
  intros l r x. split; [apply sunion_spec|]. split; [apply sinter_spec|]. split; [apply ssymdiff_spec|apply ssubset_spec].
Qed.
