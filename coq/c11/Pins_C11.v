(* Compiled on every run of the C11 check: pins each statement and prints its assumptions. *)
From Coq Require Import List Arith Bool PeanoNat ZArith.
From SV Require Import c11.Model_C11 c11.Proofs_C11 c11.Coll_C11 c11.ProofsColl_C11 c11.ProofsF_C11 c11.Properties_C11.
Import ListNotations.

Check (C11_eq_refuted :
  exists g a b, rankedb g = true /\ keys_unambb g = true /\ nan_freeb g = true /\
    eq_alg_current g a b = Some true /\ tree_eqb (unfold g a) (unfold g b) = false).
Check (C11_eq_refuted_incomplete :
  exists g a b, rankedb g = true /\ keys_unambb g = true /\ nan_freeb g = true /\
    eq_alg_current g a b = Some false /\ tree_eqb (unfold g a) (unfold g b) = true).
Check (C11_set_eq_refuted :
  exists g a b, rankedb g = true /\ keys_unambb g = true /\ nan_freeb g = true /\
    eq_alg_current g a b = Some true /\ tree_eqb (unfold g a) (unfold g b) = false).
Check (C11_eq_fixed_on_witnesses :
  eq_alg g_f6 5 8 = Some false /\ eq_alg g_f6_ivec 3 6 = Some true /\
  eq_alg g_f6_set 4 5 = Some false /\ eq_alg g_leaf 1 3 = Some true).

Check (C11_eq_alg_structural : forall g a b, wfb g = true ->
  eq_alg g a b = Some (tree_eqb (unfold g a) (unfold g b))).
Check (C11_eq_refl : forall g a, wfb g = true -> eq_alg g a a = Some true).
Check (C11_hash_respects_eq : forall g a b, wfb g = true ->
  eq_alg g a b = Some true ->
  hash_stable (S a) g a = true -> hash_stable (S b) g b = true ->
  hash_tokens g a = hash_tokens g b).
Check (C11_probe_iff_equal : forall g k p, wfb g = true ->
  hash_stable (S k) g k = true -> hash_stable (S p) g p = true ->
  obs_probe g k p = obs_equal g p k).
Check (C11_nonvacuous : wfb g_demo = true /\ wfb g_f6 = true /\ wfb g_f6_ivec = true /\ wfb g_f6_set = true).

Check (C11_map_refines : forall ops m x,
  mlookup x (fold_left mapply ops m) = fold_left fapply ops (fun y => mlookup y m) x).
Check (C11_map_laws : forall k k' v m,
  mlookup k (minsert k v m) = Some v /\
  (k <> k' -> mlookup k' (minsert k v m) = mlookup k' m) /\
  mlookup k (mremove k m) = None /\
  (k <> k' -> mlookup k' (mremove k m) = mlookup k' m) /\
  (mlookup k m <> None <-> In k (map fst m))).
Check (C11_map_length : forall k v m, NoDup (map fst m) ->
  length (minsert k v m) = match mlookup k m with Some _ => length m | None => S (length m) end).
Check (C11_set_refines : forall ks s x,
  In x (fold_left (fun s k => sinsert k s) ks s) <-> In x ks \/ In x s).
Check (C11_coll_invariant : forall ops c acc outs c', coll_ok c -> run c ops acc = inl (outs, c') -> coll_ok c').
Check (C11_vector_set_ref : forall l z x, (0 <= z < zlen l)%Z ->
  exists l', step (CMVec l) (OVecSet (IZ z) x) = RColl (CMVec l') /\ zlen l' = zlen l /\
             step (CMVec l') (OVecRef (IZ z)) = ROut (OInt x) /\
             forall z', (0 <= z' < zlen l)%Z -> z' <> z ->
               step (CMVec l') (OVecRef (IZ z')) = step (CMVec l) (OVecRef (IZ z'))).
Check (C11_index_errors : forall l z x, ~ (0 <= z < zlen l)%Z ->
  step (CMVec l) (OVecRef (IZ z)) = RErr EIndex /\
  step (CMVec l) (OVecSet (IZ z) x) = (if (z <? 0)%Z then RErr EType else RErr EIndex) /\
  step (CList l) (OListRef (IZ z)) = RErr EIndex).
Check (C11_list_ops : forall l l2 x,
  step (CList l) (OCons x) = RColl (CList (x :: l)) /\
  step (CList l) (OAppend l2) = RColl (CList (l ++ l2)) /\
  step (CList l) OReverse = RColl (CList (rev l)) /\
  step (CList l) OLength = ROut (OInt (Z.of_nat (length l))) /\
  (forall z, (0 <= z < zlen l)%Z -> step (CList l) (OListRef (IZ z)) = ROut (OInt (nth (Z.to_nat z) l 0%Z)))).
Check (C11_take_drop : forall l n, (0 <= n <= zlen l)%Z ->
  exists a b, step (CList l) (OTake (IZ n)) = RColl (CList a) /\ step (CList l) (ODrop (IZ n)) = RColl (CList b) /\
              a ++ b = l /\ zlen a = n).

Check (C11_eq_sym : forall g a b, wfb g = true -> ord_onlyb g = true -> eq_alg g a b = eq_alg g b a).
Check (C11_eq_trans : forall g a b c, wfb g = true -> ord_onlyb g = true ->
  eq_alg g a b = Some true -> eq_alg g b c = Some true -> eq_alg g a c = Some true).

Check (C11_union_spec : forall k l r,
  mlookup k (munion l r) = match mlookup k l with Some v => Some v | None => mlookup k r end).
Check (C11_union_keeps_keys_distinct : forall l r,
  NoDup (map fst l) -> NoDup (map fst r) -> NoDup (map fst (munion l r))).
Check (C11_set_ops_spec : forall l r x,
  (In x (sunion l r) <-> In x l \/ In x r) /\
  (In x (sinter l r) <-> In x l /\ In x r) /\
  (In x (ssymdiff l r) <-> (In x l /\ ~ In x r) \/ (In x r /\ ~ In x l)) /\
  (ssubset l r = true <-> incl l r)).

Print Assumptions C11_eq_refuted.
Print Assumptions C11_eq_refuted_incomplete.
Print Assumptions C11_set_eq_refuted.
Print Assumptions C11_eq_fixed_on_witnesses.
Print Assumptions C11_eq_alg_structural.
Print Assumptions C11_eq_refl.
Print Assumptions C11_hash_respects_eq.
Print Assumptions C11_probe_iff_equal.
Print Assumptions C11_nonvacuous.
Print Assumptions C11_map_refines.
Print Assumptions C11_map_laws.
Print Assumptions C11_map_length.
Print Assumptions C11_set_refines.
Print Assumptions C11_coll_invariant.
Print Assumptions C11_vector_set_ref.
Print Assumptions C11_index_errors.
Print Assumptions C11_list_ops.
Print Assumptions C11_take_drop.
Print Assumptions C11_eq_sym.
Print Assumptions C11_eq_trans.
Print Assumptions C11_union_spec.
Print Assumptions C11_union_keeps_keys_distinct.
Print Assumptions C11_set_ops_spec.
