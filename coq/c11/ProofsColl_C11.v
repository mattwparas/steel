(* C11 proofs, collections: the association-list model refines finite maps / finite sets (as
   functions), sequence operations refine [list] with exact error conditions. *)
From Coq Require Import List Arith Bool PeanoNat ZArith Lia.
From SV Require Import c11.Coll_C11 lib.ListFacts.
Import ListNotations.
Local Open Scope Z_scope.

Lemma nats_eqb_eq l r : nats_eqb l r = true <-> l = r.
Proof. exact (eqb_list_eq _ Nat.eqb_eq l r). Qed.
Lemma zs_eqb_eq l r : zs_eqb l r = true <-> l = r.
Proof. exact (eqb_list_eq _ Z.eqb_eq l r). Qed.
Lemma key_eqb_eq a b : key_eqb a b = true <-> a = b.
Proof. destruct a, b; simpl; rewrite ?Z.eqb_eq, ?nats_eqb_eq, ?zs_eqb_eq; split; congruence. Qed.
Lemma key_eqb_spec a b : reflect (a = b) (key_eqb a b).
Proof. apply iff_reflect. symmetry. apply key_eqb_eq. Qed.
Lemma key_eqb_refl a : key_eqb a a = true.
Proof. apply key_eqb_eq. reflexivity. Qed.
Lemma key_eqb_neq a b : a <> b -> key_eqb a b = false.
Proof. intros H. destruct (key_eqb_spec a b); [contradiction|reflexivity]. Qed.

Lemma nodup_map_filter {A B} (f : A -> B) (p : A -> bool) l : NoDup (map f l) -> NoDup (map f (filter p l)).
Proof.
  induction l as [|x l IH]; simpl; intros H; [constructor|]. inversion H; subst.
  destruct (p x); simpl; [|apply IH; assumption]. constructor; [|apply IH; assumption].
  intros Hin. apply H2. apply in_map_iff in Hin as [y [E Hy]]. apply filter_In in Hy as [Hy _].
  rewrite <- E. apply in_map. exact Hy.
Qed.

Lemma mremove_filter k m : mremove k m = filter (fun kv => negb (key_eqb k (fst kv))) m.
Proof. induction m as [|[k' v] r IH]; simpl; [reflexivity|]. rewrite IH. destruct (key_eqb k k'); reflexivity. Qed.

Lemma mlookup_filter (p : key -> bool) k m :
  mlookup k (filter (fun kv => p (fst kv)) m) = if p k then mlookup k m else None.
Proof.
  induction m as [|[k' v] r IH]; simpl; [destruct (p k); reflexivity|].
  destruct (key_eqb_spec k k') as [<-|Hn].
  - destruct (p k); simpl; [rewrite key_eqb_refl; reflexivity|exact IH].
  - destruct (p k'); simpl; [rewrite (key_eqb_neq k k' Hn)|]; exact IH.
Qed.

Lemma lookup_remove k k' m : mlookup k' (mremove k m) = if key_eqb k' k then None else mlookup k' m.
Proof.
  rewrite mremove_filter, (mlookup_filter (fun x => negb (key_eqb k x))).
  destruct (key_eqb_spec k k'), (key_eqb_spec k' k); simpl; congruence.
Qed.
Lemma lookup_insert k k' v m : mlookup k' (minsert k v m) = if key_eqb k' k then Some v else mlookup k' m.
Proof. unfold minsert. simpl. rewrite lookup_remove. destruct (key_eqb k' k); reflexivity. Qed.

Lemma lookup_in_keys k m : mlookup k m <> None <-> In k (map fst m).
Proof.
  induction m as [|[k' v] r IH]; simpl; [split; [congruence|intros []]|].
  destruct (key_eqb_spec k k') as [<-|Hn].
  - split; [left; reflexivity|congruence].
  - rewrite IH. split; [right; assumption|]. intros [H|H]; [congruence|exact H].
Qed.

Lemma remove_keys_incl k m x : In x (map fst (mremove k m)) -> In x (map fst m) /\ x <> k.
Proof.
  intros H. apply lookup_in_keys in H. rewrite lookup_remove in H.
  destruct (key_eqb_spec x k) as [_|Hn]; [congruence|]. split; [apply lookup_in_keys, H|exact Hn].
Qed.
Lemma remove_nodup k m : NoDup (map fst m) -> NoDup (map fst (mremove k m)).
Proof. rewrite mremove_filter. apply nodup_map_filter. Qed.
Lemma insert_nodup k v m : NoDup (map fst m) -> NoDup (map fst (minsert k v m)).
Proof.
  intros H. unfold minsert. simpl. constructor; [|apply remove_nodup; exact H].
  intros Hin. apply remove_keys_incl in Hin as [_ Hn]. congruence.
Qed.

Lemma remove_absent k m : mlookup k m = None -> mremove k m = m.
Proof.
  induction m as [|[k' v] r IH]; simpl; [reflexivity|]. destruct (key_eqb k k'); [discriminate|].
  intros H. rewrite IH by exact H. reflexivity.
Qed.
Lemma remove_length_present k m : NoDup (map fst m) -> mlookup k m <> None ->
  S (length (mremove k m)) = length m.
Proof.
  induction m as [|[k' v] r IH]; simpl; intros Hnd H; [congruence|]. inversion Hnd; subst.
  destruct (key_eqb_spec k k') as [<-|_].
  - rewrite remove_absent; [reflexivity|].
    destruct (mlookup k r) eqn:L; [|reflexivity]. exfalso. apply H2. apply lookup_in_keys. congruence.
  - simpl. rewrite IH; auto.
Qed.
(* one map operation is the same operation on the finite map as a function; sequences: C11_map_refines *)
Inductive mop := MIns (k : key) (v : Z) | MRem (k : key).
Definition mapply (m : list (key * Z)) (o : mop) : list (key * Z) :=
  match o with MIns k v => minsert k v m | MRem k => mremove k m end.
Definition fapply (f : key -> option Z) (o : mop) : key -> option Z :=
  match o with
  | MIns k v => fun x => if key_eqb x k then Some v else f x
  | MRem k => fun x => if key_eqb x k then None else f x
  end.
Lemma mapply_lookup m o y : mlookup y (mapply m o) = fapply (fun y => mlookup y m) o y.
Proof. destruct o as [k v|k]; [apply lookup_insert|apply lookup_remove]. Qed.
Lemma fold_fapply_ext : forall l (f h : key -> option Z), (forall y, f y = h y) ->
  forall y, fold_left fapply l f y = fold_left fapply l h y.
Proof.
  induction l as [|o l IHl]; intros f h Hfh y; simpl; [apply Hfh|].
  apply IHl. intros z. destruct o; cbn [fapply]; rewrite Hfh; reflexivity.
Qed.
Lemma map_nodup_lemma : forall ops m, NoDup (map fst m) -> NoDup (map fst (fold_left mapply ops m)).
Proof.
  intros ops. apply (fold_left_inv _ _ (fun m => NoDup (map fst m))). intros m [k v|k] H; [apply insert_nodup|apply remove_nodup]; exact H.
Qed.

Lemma smem_in k s : smem k s = true <-> In k s.
Proof. exact (existsb_eqb_In _ key_eqb_eq k s). Qed.
Lemma sinsert_spec k s x : In x (sinsert k s) <-> x = k \/ In x s.
Proof.
  unfold sinsert. destruct (smem k s) eqn:E.
  - apply smem_in in E. split; [right; assumption|]. intros [->|H]; assumption.
  - simpl. split; intros [H|H]; auto.
Qed.
Lemma sinsert_nodup k s : NoDup s -> NoDup (sinsert k s).
Proof.
  intros H. unfold sinsert. destruct (smem k s) eqn:E; [exact H|]. constructor; [|exact H].
  intros Hin. apply smem_in in Hin. congruence.
Qed.
Lemma set_refines_lemma : forall ks s x,
  In x (fold_left (fun s k => sinsert k s) ks s) <-> In x ks \/ In x s.
Proof.
  induction ks as [|k ks IH]; intros s x; simpl; [tauto|]. rewrite IH, sinsert_spec. intuition (subst; auto).
Qed.

Lemma ref_at_in {A} (l : list A) z : 0 <= z < zlen l -> ref_at l (IZ z) = Some (nth_error l (Z.to_nat z)).
Proof.
  intros H. unfold ref_at. destruct (Z.ltb_spec z 0); [lia|]. destruct (Z.leb_spec (zlen l) z); [lia|]. reflexivity.
Qed.
Lemma ref_at_inbounds {A} (l : list A) z : 0 <= z < zlen l -> exists x, ref_at l (IZ z) = Some (Some x).
Proof.
  intros H. rewrite (ref_at_in l z H). destruct (nth_error l (Z.to_nat z)) eqn:E; [eexists; reflexivity|].
  apply nth_error_None in E. unfold zlen in H. lia.
Qed.
Lemma ref_at_outofbounds {A} (l : list A) z : ~ (0 <= z < zlen l) -> ref_at l (IZ z) = Some None.
Proof.
  intros H. unfold ref_at. destruct (Z.ltb_spec z 0); [reflexivity|]. destruct (Z.leb_spec (zlen l) z); [reflexivity|lia].
Qed.

Lemma ref_at_u_nonneg {A} (l : list A) z : 0 <= z -> ref_at_u l (IZ z) = ref_at l (IZ z).
Proof. intros H. unfold ref_at_u. assert (z <? 0 = false) as -> by lia. reflexivity. Qed.

Lemma set_nth_length {A} (l : list A) n x : length (set_nth l n x) = length l.
Proof. revert n. induction l as [|y l IH]; intros [|n]; simpl; try reflexivity. rewrite IH. reflexivity. Qed.
Lemma set_nth_same {A} (l : list A) n x : (n < length l)%nat -> nth_error (set_nth l n x) n = Some x.
Proof. revert n. induction l as [|y l IH]; intros [|n] H; simpl in *; try lia; [reflexivity|]. apply IH. lia. Qed.
Lemma set_nth_other {A} (l : list A) n m x : n <> m -> nth_error (set_nth l n x) m = nth_error l m.
Proof.
  revert n m. induction l as [|y l IH]; intros [|n] [|m] H; simpl; try reflexivity; try congruence.
  apply IH. congruence.
Qed.

Lemma mlookup_app k a b :
  mlookup k (a ++ b) = match mlookup k a with Some v => Some v | None => mlookup k b end.
Proof. induction a as [|[k' v] a IH]; simpl; [reflexivity|]. destruct (key_eqb k k'); [reflexivity|exact IH]. Qed.

Lemma munion_nodup l r : NoDup (map fst l) -> NoDup (map fst r) -> NoDup (map fst (munion l r)).
Proof.
  intros Hl Hr. unfold munion. rewrite map_app. apply NoDup_app_intro; [exact Hl|apply nodup_map_filter; exact Hr|].
  intros k Hk Hin. apply in_map_iff in Hin as [[k' v] [E Hf]]. simpl in E. subst k'.
  apply filter_In in Hf as [_ Hf]. simpl in Hf. apply lookup_in_keys in Hk.
  destruct (mlookup k l); [discriminate|congruence].
Qed.
Lemma map_of_nodup kvs : NoDup (map fst (map_of kvs)).
Proof. apply (fold_left_inv _ _ (fun m => NoDup (map fst m))); [intros m kv; apply insert_nodup|constructor]. Qed.
Lemma set_of_nodup ks : NoDup (set_of ks).
Proof. apply (fold_left_inv _ _ (@NoDup key)); [intros s k; apply sinsert_nodup|constructor]. Qed.

Lemma sunion_spec l r x : In x (sunion l r) <-> In x l \/ In x r.
Proof. unfold sunion. rewrite set_refines_lemma. tauto. Qed.
Lemma sunion_nodup l r : NoDup l -> NoDup (sunion l r).
Proof. apply (fold_left_inv _ _ (@NoDup key)). intros s k. apply sinsert_nodup. Qed.
Lemma sinter_spec l r x : In x (sinter l r) <-> In x l /\ In x r.
Proof. unfold sinter. rewrite filter_In, smem_in. tauto. Qed.
Lemma sinter_nodup l r : NoDup l -> NoDup (sinter l r).
Proof. apply NoDup_filter. Qed.
Lemma smem_false k s : smem k s = false <-> ~ In k s.
Proof. exact (existsb_eqb_notIn _ key_eqb_eq k s). Qed.
Lemma ssymdiff_spec l r x : In x (ssymdiff l r) <-> (In x l /\ ~ In x r) \/ (In x r /\ ~ In x l).
Proof.
  unfold ssymdiff. rewrite in_app_iff, !filter_In, !negb_true_iff, !smem_false. tauto.
Qed.
Lemma ssymdiff_nodup l r : NoDup l -> NoDup r -> NoDup (ssymdiff l r).
Proof.
  intros Hl Hr. unfold ssymdiff. apply NoDup_app_intro; try (apply NoDup_filter; assumption).
  intros x Hx Hy. apply filter_In in Hx as [Hx _]. apply filter_In in Hy as [_ Hy].
  apply negb_true_iff in Hy. apply smem_false in Hy. contradiction.
Qed.
Lemma ssubset_spec l r : ssubset l r = true <-> incl l r.
Proof.
  unfold ssubset, incl. rewrite forallb_forall. split; intros H x Hx; [apply smem_in|apply smem_in]; apply H; exact Hx.
Qed.

(* the representation invariant of maps / sets (pairwise distinct keys), kept by every step *)
Definition coll_ok (c : coll) : Prop :=
  match c with CMap m => NoDup (map fst m) | CSet s => NoDup s | _ => True end.
Lemma step_ok c o c' : coll_ok c -> step c o = RColl c' -> coll_ok c'.
Proof.
  intros H E.
  enough (K : match step c o with RColl c' => coll_ok c' | _ => True end) by (rewrite E in K; exact K).
  (* what is left after computing [step] are the tests inside it, and the operations on maps and sets *)
  clear E. destruct c; cbn [coll_ok] in H; destruct o; cbn [step coll_ok map]; trivial;
    repeat match goal with |- context [match ?x with _ => _ end] =>
             lazymatch type of x with res => fail | _ => destruct x; trivial end end;
    auto using insert_nodup, remove_nodup, munion_nodup, map_of_nodup, NoDup_nil,
               sinsert_nodup, sunion_nodup, sinter_nodup, ssymdiff_nodup, set_of_nodup.
Qed.
