(* C11 proofs: the graph relation [T] is tree equality of the unfoldings; the decidable well-formedness [wfb] gives
   the hypotheses of ProofsD; what follows for [eq_alg]; and on graphs without hash maps / hash sets equal values are
   equal to the same values ([T_cong]), which gives symmetry and transitivity. *)
From Coq Require Import List Arith Bool PeanoNat ZArith Lia.
From SV Require Import c11.Model_C11 c11.ProofsD_C11.
Import ListNotations.

Lemma forallb_map {A B} (f : B -> bool) (h : A -> B) l : forallb f (map h l) = forallb (fun x => f (h x)) l.
Proof. induction l; simpl; [reflexivity|]. rewrite IHl. reflexivity. Qed.
Lemma existsb_map {A B} (f : B -> bool) (h : A -> B) l : existsb f (map h l) = existsb (fun x => f (h x)) l.
Proof. induction l; simpl; [reflexivity|]. rewrite IHl. reflexivity. Qed.

Lemma list_eqb_map {A B} (f : B -> B -> bool) (U V : A -> B) l r :
  list_eqb f (map U l) (map V r) =
  (length l =? length r) && forallb (fun p => f (U (fst p)) (V (snd p))) (combine l r).
Proof.
  revert r. induction l as [|x l IH]; intros [|y r]; simpl; try reflexivity.
  rewrite IH. destruct (f (U x) (V y)); simpl; [reflexivity|]. rewrite andb_false_r. reflexivity.
Qed.

Section Tree.
  Variable g : graph.
  Hypothesis Hr : ranked g.

  (* each side may carry its own fuel, so the canonical fuels [S a], [S b] are an instance *)
  Lemma teq_tree : forall n m a b, a < n -> b < m ->
    teq n g a b = tree_eqb (unfold_n n g a) (unfold_n m g b).
  Proof.
    induction n as [|n IH]; intros [|m] a b Ha Hb; try lia.
    simpl. pose proof (kid_lt g Hr a) as Hk. pose proof (kid_lt g Hr b) as Hk'.
    destruct (skel_of (get g a)) as [x|t u cs|kvs|ks]; destruct (skel_of (get g b)) as [y|t' u' cs'|kvs'|ks'];
      simpl; try reflexivity.
    - rewrite list_eqb_map, <- andb_assoc. do 2 f_equal.
      apply forallb_ext_in. intros p Hp. apply in_combine_both in Hp as [Hp Hp'].
      apply Hk in Hp. apply Hk' in Hp'. apply IH; lia.
    - rewrite !map_length, forallb_map. f_equal. apply forallb_ext_in. intros kv Hkv.
      rewrite existsb_map. apply existsb_ext_in. intros kv' Hkv'. simpl.
      destruct (in_map_kids _ _ Hkv) as [H1 H2]. destruct (in_map_kids _ _ Hkv') as [H1' H2'].
      apply Hk in H1, H2. apply Hk' in H1', H2'. rewrite !(IH m) by lia. reflexivity.
    - rewrite !map_length, forallb_map. f_equal. apply forallb_ext_in. intros k Hkk.
      rewrite existsb_map. apply existsb_ext_in. intros k' Hkk'.
      apply Hk in Hkk. apply Hk' in Hkk'. apply IH; lia.
  Qed.

  Lemma T_tree a b : T g a b = tree_eqb (unfold g a) (unfold g b).
  Proof. apply teq_tree; lia. Qed.
End Tree.

Lemma get_beyond g a : length g <= a -> get g a = NAtom AVoid.
Proof. intros H. unfold get. apply nth_overflow. exact H. Qed.

(* the checks run over the ids / nodes of [g]; ids past the end denote the default node *)
Lemma forall_ids (g : graph) (p : id -> bool) :
  forallb p (seq 0 (length g)) = true -> (forall a, length g <= a -> p a = true) -> forall a, p a = true.
Proof.
  intros H Hb a. destruct (Nat.lt_ge_cases a (length g)) as [Hl|Hl]; [|apply Hb, Hl].
  rewrite forallb_forall in H. apply H, in_seq. lia.
Qed.

Lemma forall_nodes (g : graph) (p : node -> bool) :
  forallb p g = true -> p (NAtom AVoid) = true -> forall a, p (get g a) = true.
Proof.
  intros H H0 a. unfold get. destruct (nth_in_or_default a g (NAtom AVoid)) as [Hi| ->]; [|exact H0].
  rewrite forallb_forall in H. apply H, Hi.
Qed.

Lemma rankedb_sound g : rankedb g = true -> ranked g.
Proof.
  intros H a c Hc. apply Nat.ltb_lt. revert c Hc. apply forallb_forall. revert a. apply (forall_ids g _ H).
  intros a Hl. rewrite (get_beyond g a Hl). reflexivity.
Qed.

Lemma nan_freeb_sound g : nan_freeb g = true -> nan_free g.
Proof.
  intros H a x Ha. pose proof (forall_nodes g _ H eq_refl a) as Hp. rewrite Ha in Hp.
  apply negb_true_iff, Hp.
Qed.

Lemma keys_hash_stableb_sound g : keys_hash_stableb g = true -> keys_hash_stable g.
Proof.
  intros H. unfold keys_hash_stable. apply (forall_ids g _ H). intros a Hl.
  unfold keys_hash_stable_node. rewrite (get_beyond g a Hl). reflexivity.
Qed.

Lemma keys_unambb_sound g : keys_unambb g = true -> keys_unamb g.
Proof.
  intros H a. apply (forall_ids g).
  - revert a. apply (forall_ids g _ H). intros a Hl. apply forallb_forall. intros b _.
    unfold unamb_pair. rewrite (get_beyond g a Hl). reflexivity.
  - intros b Hl. unfold unamb_pair. rewrite (get_beyond g b Hl). apply forallb_forall. intros k _. reflexivity.
Qed.

Lemma wfb_sound g : wfb g = true -> ranked g /\ nan_free g /\ keys_hash_stable g /\ keys_unamb g.
Proof.
  unfold wfb. intros H. apply andb_true_iff in H as [H H4]. apply andb_true_iff in H as [H H3].
  apply andb_true_iff in H as [H1 H2].
  auto using rankedb_sound, nan_freeb_sound, keys_hash_stableb_sound, keys_unambb_sound.
Qed.

Lemma wfb_ranked g : wfb g = true -> ranked g.
Proof. intros H. apply (wfb_sound g H). Qed.

Lemma eq_alg_wf g a b : wfb g = true -> eq_alg g a b = Some (T g a b).
Proof. intros H. destruct (wfb_sound g H) as [Hr [Hn [Hs Hu]]]. apply eq_alg_T; assumption. Qed.

Definition ord_onlyb (g : graph) : bool :=
  forallb (fun n => match n with NMap _ | NSet _ => false | _ => true end) g.

Lemma ord_only_skel g a : ord_onlyb g = true ->
  match skel_of (get g a) with SMap _ | SSet _ => False | _ => True end.
Proof.
  intros H. pose proof (forall_nodes g _ H eq_refl a) as Hp.
  destruct (get g a); simpl; auto; discriminate.
Qed.

Lemma forallb_combine_cong {A} (f h k : A * A -> bool) : forall l m r,
  (forall x y z, In x l -> f (x, y) = true -> h (x, z) = k (y, z)) -> length l = length m ->
  forallb f (combine l m) = true -> forallb h (combine l r) = forallb k (combine m r).
Proof.
  induction l as [|x l IH]; intros [|y m] [|z r] Hc L H; simpl in *; try discriminate; try reflexivity.
  apply andb_true_iff in H as [H1 H2]. rewrite (Hc x y z) by auto. f_equal. apply IH; auto.
Qed.

Section S.
  Variable g : graph.
  Hypothesis Hr : ranked g.
  Hypothesis Hnan : nan_free g.
  Hypothesis Ho : ord_onlyb g = true.

  (* with reflexivity this gives symmetry; read from left to right it is transitivity *)
  Lemma T_cong a : forall b c, T g a b = true -> T g a c = T g b c.
  Proof.
    induction a as [a IH] using lt_wf_ind. intros b c. rewrite !(T_eq g Hr). unfold teq_step.
    pose proof (ord_only_skel g a Ho) as Ha. pose proof (ord_only_skel g b Ho) as Hb.
    pose proof (kid_lt g Hr a) as Hk.
    destruct (skel_of (get g a)) as [x|t u cs|kvs|ks]; try contradiction;
      destruct (skel_of (get g b)) as [y|t' u' cs'|kvs'|ks']; try contradiction; try discriminate;
      destruct (skel_of (get g c)) as [z|t'' u'' cs''|kvs''|ks'']; try reflexivity.
    - apply atom_eqb_cong.
    - rewrite !andb_true_iff, !Nat.eqb_eq. intros [[[-> ->] L] F]. rewrite L. f_equal.
      apply (forallb_combine_cong (fun p => T g (fst p) (snd p))); [|exact L|exact F].
      intros x y z Hx. apply IH, Hk, Hx.
  Qed.

  Lemma T_sym a b : T g a b = true -> T g b a = true.
  Proof. intros H. rewrite <- (T_cong a b a H). apply T_refl; assumption. Qed.
End S.
