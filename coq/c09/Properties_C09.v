(* C09 — the property theorems; Pins_C09.v repeats each statement.  The VM is lib/Bytecode.v
   ([limit] = STACK_LIMIT, any value). *)
From Coq Require Import String.
From Coq Require Import ZArith NArith List Bool Lia Arith.
From SV Require Import lib.Core lib.Bytecode c01.Proofs_C01 c09.Model_C09 c09.Proofs_C09 gen.Gen_C09.
Import ListNotations.
Open Scope list_scope.

(* Executing a TAILCALL / tail CALLGLOBAL whose callee is a closure (fixed arity or rest arguments) leaves
   the frame stack length unchanged, keeps the frame base, and leaves exactly [arity] operands above it. *)
Theorem C09_tail_call_space : forall limit s s' arity rest body caps,
  tail_call_target s = Some (MClo arity rest body caps) ->
  vm_step limit s = SNext s' ->
  length (frames s') = length (frames s) /\
  length (stack s') = cur_sp (frames s) + arity /\
  cur_sp (frames s') = cur_sp (frames s) /\
  ip s' = 0 /\ code s' = body.
Proof. exact tail_call_space. Qed.

(* Loops whose back edge is a tail call (self, or mutual among any number of closures): along ANY execution
   [tr] from a state s0 inside the loop's frame that does not return from that frame, every tail call
   executed at the loop's frame depth lands at the callee's head with the same frame-stack length and with
   operand-stack length = (frame base at s0) + arity(callee) — at every iteration, for every iteration count
   (the trace is arbitrary: induction over it, no bound). *)
Theorem C09_loop_constant_space : forall limit s0 tr, exec_trace limit s0 tr -> 1 <= length (frames s0) ->
  (forall s, In s tr -> length (frames s0) <= length (frames s)) ->
  forall i s s' arity rest body caps,
    nth_error (s0 :: tr) i = Some s -> nth_error (s0 :: tr) (S i) = Some s' ->
    length (frames s) = length (frames s0) ->
    tail_call_target s = Some (MClo arity rest body caps) ->
    length (frames s') = length (frames s0) /\
    length (stack s') = cur_sp (frames s0) + arity /\
    cur_sp (frames s') = cur_sp (frames s0) /\
    ip s' = 0 /\ code s' = body.
Proof. exact loop_constant_space. Qed.

(* After the tail-call shuffle slot k of the frame holds the k-th operand written at the call site: all
   arities, whatever lies between the frame base and the operands (old arguments, let-bound temporaries at
   any depth). *)
Theorem C09_args_shuffled_right : forall limit C pc below junk args arity body caps f0 fs0 MG,
  nth_error C pc = Some (TAILCALL arity) ->
  length below = f_sp f0 -> length args = arity ->
  exists s', vm_step limit (mkVM C pc ((below ++ junk ++ args) ++ [MClo arity false body caps]) (f0 :: fs0) MG) = SNext s' /\
    stack s' = below ++ args /\
    (forall k, k < arity -> nth_error (stack s') (cur_sp (frames s') + k) = nth_error args k) /\
    length (frames s') = length (f0 :: fs0).
Proof. exact args_shuffled_right. Qed.

Theorem C09_args_shuffled_right_global : forall limit C pc g below junk args arity body caps f0 fs0 MG n',
  nth_error C pc = Some (CALLGLOBALTAIL g) ->
  nth_error C (S pc) = Some (TAILCALL arity) \/ nth_error C (S pc) = Some (FUNC arity) ->
  n' = arity ->
  Core.lookup g MG = Some (MClo arity false body caps) ->
  length below = f_sp f0 -> length args = arity ->
  exists s', vm_step limit (mkVM C pc (below ++ junk ++ args) (f0 :: fs0) MG) = SNext s' /\
    stack s' = below ++ args /\
    (forall k, k < arity -> nth_error (stack s') (cur_sp (frames s') + k) = nth_error args k) /\
    length (frames s') = length (f0 :: fs0).
Proof.
  intros limit C pc g below junk args arity body caps f0 fs0 MG n' Hi Hn _ Hg Hb Ha.
  unfold Bytecode.vm_step. cbn [code ip stack frames globals]. rewrite Hi.
  destruct Hn as [Hn|Hn]; rewrite Hn, Hg; apply do_tail_call_shuffle; auto.
Qed.

(* A closure call that would make the frame stack reach the limit yields the overflow ERROR (never Stuck) ... *)
Theorem C09_deep_recursion_step : forall limit s st arity rest body caps n rip st',
  adjust_arity arity rest n st = inl (Some st') -> arity <= length st' ->
  limit <= S (length (frames s)) ->
  do_call limit s st (MClo arity rest body caps) n rip = SErr EOverflow.
Proof. exact call_overflow. Qed.

(* ... and the whole program (define (deep n) (+ 1 (deep n))) (deep 0) — unbounded non-tail recursion — ends
   with that error for EVERY limit: it is never stuck and never runs out of fuel. *)
Theorem C09_deep_recursion_is_error : forall limit,
  exists k, vm_program limit true false k [deep_def] deep_main = RErr EOverflow.
Proof.
  intros limit.
  assert (Hdefs : forall k, 4 <= k -> vm_defs limit true false k prim_globals [deep_def] = inr deep_globals).
  { intros k Hk. unfold vm_defs, deep_def.
    rewrite (vm_run_mono limit 4 _ (RDone MVoid (mkVM (finish false (compile_define true "deep"%string (snd deep_def))) 4 [] [] deep_globals))).
    - reflexivity.
    - reflexivity.
    - discriminate.
    - exact Hk. }
  set (top := [PUSHCONST (KInt 0); PUSH "deep"%string; FUNC 1; POPPURE]).
  destruct (fails_run limit (init_vm top deep_globals) EOverflow) as [k Hk].
  { eapply fails_prefix; [| exact (deep_call_fails limit _ top 2 [] (MInt 0) [] eq_refl eq_refl)].
    eapply step_star; [reflexivity | apply star_one; reflexivity]. }
  exists (4 + k). unfold vm_program. rewrite Hdefs by lia. apply Hk. lia.
Qed.

(* The model's tail-position classifier (the [tail] flag [compile] propagates, [flag_at]) marks the subterm
   at a position as tail iff the position is a tail position (defined inductively on the source: TailPos);
   the code of the whole expression contains the code of that subterm compiled with exactly that flag, and
   an application compiled with flag b ends in TAILCALL iff b = true. *)
Theorem C09_tail_pos_sound : forall p e e', subterm e p = Some e' ->
  (flag_at true e p = Some true <-> TailPos e p) /\ (exists b, flag_at true e p = Some b).
Proof. exact tail_pos_sound. Qed.

Theorem C09_tail_flag_is_compiled : forall tco p e e' tail b, subterm e p = Some e' -> flag_at tail e p = Some b ->
  forall ce d, exists ce' d' pre post, compile tco ce d tail e = pre ++ compile tco ce' d' b e' ++ post.
Proof.
  induction p as [|st p IH]; intros e e' tail b Hs Hf ce d.
  - inversion Hs; inversion Hf; subst. exists ce, d. apply within_refl.
  - rewrite subterm_cons in Hs. rewrite flag_at_cons in Hf. destruct (child st e) as [[e1 k]|] eqn:Hc; [|discriminate].
    destruct (compile_child tco st e e1 k Hc ce d tail) as (ce1 & d1 & H1).
    destruct (IH e1 e' _ b Hs Hf ce1 d1) as (ce' & d' & H).
    exists ce', d'. exact (within_trans _ _ _ H H1).
Qed.

Theorem C09_tail_flag_instr : forall tco ce d b f args,
  exists pre, compile tco ce d b (EApp f args) = pre ++ [if b then TAILCALL (length args) else FUNC (length args)].
Proof.
  intros. rewrite compile_app_eq.
  exists (compile_list tco ce d args ++ compile tco ce (d + length args) false f).
  rewrite <- app_assoc. reflexivity.
Qed.

(* generated facts (Gen_C09.v, from vm.rs / opcode.rs) *)
Definition modelled_tail_ops : list string := ["TAILCALL"; "CALLGLOBALTAIL"]%string.
Definition measured_tail_ops : list string :=
  ["TCOJMP"; "SELFTAILCALLNOARITY"; "TAILCALLNOARITY"; "CALLGLOBALTAILNOARITY"; "CALLPRIMITIVETAIL";
   "UNBOXTAIL"; "BINOPADDTAIL"]%string.
Definition subset (a b : list string) : bool := forallb (fun o => existsb (String.eqb o) b) a.

(* the depth guard of the source is the guard of the model: enabled, `>= STACK_LIMIT`, performed by the
   closure-call path after the push; the limit is positive *)
Theorem C09_gen_depth_guard :
  check_stack_overflow_enabled = true /\ overflow_cmp_is_ge = true /\ closure_call_checks_overflow = true /\
  (0 < stack_limit)%N.
Proof. repeat split. Qed.

(* new_handle_tail_call_closure drains stack[last.sp .. len - arity], replaces the frame's function and
   pushes no frame *)
Theorem C09_gen_tail_call_shape : tail_call_drains_and_reuses = true.
Proof. reflexivity. Qed.

(* every tail-call opcode of opcode.rs is either modelled (theorems above) or listed as measured-only;
   the modelled ones are handled by a frame-reusing arm of VmCore::vm; every frame-reusing arm belongs to
   a tail-call opcode *)
Theorem C09_gen_tail_opcodes :
  subset tail_opcodes (modelled_tail_ops ++ measured_tail_ops) = true /\
  subset modelled_tail_ops frame_reuse_arms = true /\
  subset frame_reuse_arms tail_opcodes = true /\
  subset tail_opcodes opcodes = true.
Proof. vm_compute. repeat split. Qed.

(* the engine's configured limit: instance of C09_deep_recursion_is_error *)
Theorem C09_engine_limit_is_error :
  exists k, vm_program (N.to_nat stack_limit) true false k [deep_def] deep_main = RErr EOverflow.
Proof. exact (C09_deep_recursion_is_error (N.to_nat stack_limit)). Qed.

(* non-vacuity: the model VM runs a tail loop of 300 iterations at one frame and 2 operands; with tail
   calls disabled the same loop overflows a limit of 50 frames *)
Example C09_example :
  loop_heads_render 50 100000
    [("lp"%string, ELam ["i"; "acc"]%string None (EIf (EApp (EVar "=") [EVar "i"; EConst (KInt 0)]) (EVar "acc")
        (EApp (EVar "lp") [EApp (EVar "-") [EVar "i"; EConst (KInt 1)]; EApp (EVar "+") [EVar "acc"; EConst (KInt 2)]]))%string)]
    (EApp (EVar "lp"%string) [EConst (KInt 300); EConst (KInt 0)]) = "OK I600 | 1,2"%string /\
  render_run (vm_program 50 false false 100000
    [("lp"%string, ELam ["i"; "acc"]%string None (EIf (EApp (EVar "=") [EVar "i"; EConst (KInt 0)]) (EVar "acc")
        (EApp (EVar "lp") [EApp (EVar "-") [EVar "i"; EConst (KInt 1)]; EApp (EVar "+") [EVar "acc"; EConst (KInt 2)]]))%string)]
    (EApp (EVar "lp"%string) [EConst (KInt 300); EConst (KInt 0)])) = "ERR Generic"%string.
Proof. vm_compute. split; reflexivity. Qed.
