(* C09 — tail calls run in constant space: theorems about the VM of lib/Bytecode.v
   (vm.rs: new_handle_tail_call_closure, the CALLGLOBALTAIL arm, check_stack_overflow). *)
From Coq Require Import String.
From Coq Require Import ZArith List Bool Lia Arith.
From SV Require Import lib.Core lib.Bytecode c01.Proofs_C01 c09.Model_C09.
Import ListNotations.
Open Scope list_scope.

Section C09.
  Variable limit : nat.
  Notation vm_step := (vm_step limit).

  Lemma do_tail_call_clo_space : forall s st arity rest body caps n rip pr s',
    do_tail_call s st (MClo arity rest body caps) n rip pr = SNext s' ->
    length (frames s') = length (frames s) /\
    length (stack s') = cur_sp (frames s) + arity /\
    cur_sp (frames s') = cur_sp (frames s) /\
    ip s' = 0 /\ code s' = body.
  Proof.
    intros s st arity rest body caps n rip pr s' H. unfold do_tail_call in H.
    destruct (adjust_arity arity rest n st) as [[st'|]|k]; try discriminate.
    destruct (frames s) as [|f0 fs0] eqn:Hf; try discriminate.
    destruct (Nat.leb arity (length st') && Nat.leb (f_sp f0) (length st' - arity)) eqn:Hc; try discriminate.
    apply andb_true_iff in Hc. destruct Hc as [H1 H2]. apply Nat.leb_le in H1. apply Nat.leb_le in H2.
    inversion H; subst s'. simpl. repeat split; auto.
    rewrite app_length, firstn_length, skipn_length. lia.
  Qed.

  Lemma tail_call_space : forall s s' arity rest body caps,
    tail_call_target s = Some (MClo arity rest body caps) ->
    vm_step s = SNext s' ->
    length (frames s') = length (frames s) /\
    length (stack s') = cur_sp (frames s) + arity /\
    cur_sp (frames s') = cur_sp (frames s) /\
    ip s' = 0 /\ code s' = body.
  Proof.
    intros s s' arity rest body caps Ht Hs. unfold tail_call_target in Ht.
    destruct (nth_error (code s) (ip s)) as [i|] eqn:Ei; [|discriminate Ht].
    destruct i; try discriminate Ht; unfold Bytecode.vm_step in Hs; rewrite Ei in Hs.
    - destruct (unsnoc (stack s)) as [[st f]|]; [|discriminate Ht]. injection Ht as ->.
      eapply do_tail_call_clo_space, Hs.
    - (* CALLGLOBALTAIL reads the arity off the instruction that follows *)
      destruct (nth_error (code s) (S (ip s))) as [[]|]; try discriminate Hs;
        rewrite Ht in Hs; eapply do_tail_call_clo_space, Hs.
  Qed.

  Lemma do_tail_call_shuffle : forall s below junk args arity body caps rip pr f0 fs0,
    frames s = f0 :: fs0 -> length below = f_sp f0 -> length args = arity ->
    exists s', do_tail_call s (below ++ junk ++ args) (MClo arity false body caps) arity rip pr = SNext s' /\
      stack s' = below ++ args /\
      (forall k, k < arity -> nth_error (stack s') (cur_sp (frames s') + k) = nth_error args k) /\
      length (frames s') = length (f0 :: fs0).
  Proof.
    intros s below junk args arity body caps rip pr f0 fs0 Hf Hb Ha. eexists. split.
    - unfold do_tail_call, adjust_arity. rewrite Nat.eqb_refl, Hf.
      replace (Nat.leb arity (length (below ++ junk ++ args))) with true
        by (symmetry; apply Nat.leb_le; rewrite !app_length; lia).
      replace (Nat.leb (f_sp f0) (length (below ++ junk ++ args) - arity)) with true
        by (symmetry; apply Nat.leb_le; rewrite !app_length; lia).
      simpl. rewrite <- Hb, firstn_app_exact.
      replace (below ++ junk ++ args) with ((below ++ junk) ++ args) by (rewrite <- app_assoc; auto).
      rewrite <- Ha. rewrite skipn_len_app. reflexivity.
    - simpl. split; auto. split; auto. intros k Hk. apply nth_error_app_plus.
  Qed.

  Lemma args_shuffled_right : forall C pc below junk args arity body caps f0 fs0 MG,
    nth_error C pc = Some (TAILCALL arity) ->
    length below = f_sp f0 -> length args = arity ->
    exists s', vm_step (mkVM C pc ((below ++ junk ++ args) ++ [MClo arity false body caps]) (f0 :: fs0) MG) = SNext s' /\
      stack s' = below ++ args /\
      (forall k, k < arity -> nth_error (stack s') (cur_sp (frames s') + k) = nth_error args k) /\
      length (frames s') = length (f0 :: fs0).
  Proof.
    intros C pc below junk args arity body caps f0 fs0 MG Hi Hb Ha.
    unfold Bytecode.vm_step. cbn [code ip stack]. rewrite Hi, unsnoc_app. apply do_tail_call_shuffle; auto.
  Qed.

  (* how one step changes the frame stack *)
  Inductive frames_change : list frame -> list frame -> Prop :=
  | fc_same : forall fs, frames_change fs fs
  | fc_push : forall fs fr, frames_change fs (fr :: fs)
  | fc_pop : forall f fs, frames_change (f :: fs) fs
  | fc_reuse : forall f0 fs0 fn, frames_change (f0 :: fs0) (mkFrame (f_sp f0) fn (f_ret_ip f0) (f_ret_code f0) :: fs0).

  Lemma do_return_frames : forall s st v s', do_return s st v = SNext s' -> frames_change (frames s) (frames s').
  Proof.
    unfold do_return. intros. destruct (frames s); try discriminate.
    destruct (Nat.leb (f_sp f) (length st)); try discriminate. inversion H; subst. simpl. constructor.
  Qed.

  Lemma call_prim_frames : forall s st p n rip s', call_prim s st p n rip = SNext s' -> frames s' = frames s.
  Proof.
    unfold call_prim. intros. destruct (Nat.leb n (length st)); try discriminate.
    destruct (prim_sem p _); try discriminate. inversion H; subst; auto.
  Qed.

  Lemma do_call_frames : forall s st f n rip s', do_call limit s st f n rip = SNext s' -> frames_change (frames s) (frames s').
  Proof.
    unfold do_call. intros. destruct f; try discriminate.
    - apply call_prim_frames in H. rewrite H. constructor.
    - destruct (adjust_arity arity rest n st) as [[st'|]|]; try discriminate.
      destruct (Nat.leb arity (length st')); try discriminate.
      destruct (Nat.leb limit (S (length (frames s)))); try discriminate.
      inversion H; subst. simpl. constructor.
  Qed.

  Lemma do_tail_call_frames : forall s st f n rip pr s', do_tail_call s st f n rip pr = SNext s' ->
    frames_change (frames s) (frames s').
  Proof.
    unfold do_tail_call. intros. destruct f; try discriminate.
    - destruct pr.
      + destruct (Nat.leb n (length st)); try discriminate.
        destruct (prim_sem p _); try discriminate. eapply do_return_frames; eauto.
      + apply call_prim_frames in H. rewrite H. constructor.
    - destruct (adjust_arity arity rest n st) as [[st'|]|]; try discriminate.
      destruct (frames s) as [|f0 fs0]; try discriminate.
      destruct (Nat.leb arity (length st') && Nat.leb (f_sp f0) (length st' - arity)); try discriminate.
      inversion H; subst. simpl. constructor.
  Qed.

  Lemma step_frames : forall s s', vm_step s = SNext s' -> frames_change (frames s) (frames s').
  Proof.
    intros s s' H. unfold Bytecode.vm_step in H.
    destruct (nth_error (code s) (ip s)) as [i|]; try discriminate.
    (* an instruction keeps [frames s] or ends in do_call / do_tail_call / do_return; the sweep destructs what stands before *)
    destruct i;
      try (unfold next_with in H);
      repeat match type of H with
             | context [match ?x with _ => _ end] =>
                 match x with
                 | do_call _ _ _ _ _ _ => fail 1
                 | do_tail_call _ _ _ _ _ _ => fail 1
                 | do_return _ _ _ => fail 1
                 | _ => destruct x; try discriminate
                 end
             end;
      try (inversion H; subst; simpl; constructor; fail);
      try (eapply do_call_frames; eauto; fail);
      try (eapply do_tail_call_frames; eauto; fail);
      try (eapply do_return_frames; eauto; fail).
  Qed.

  (* the stack pointers of the outermost L frames *)
  Definition base_sp (L : nat) (fs : list frame) : list nat := map f_sp (skipn (length fs - L) fs).

  Lemma frames_change_base : forall L fs fs', frames_change fs fs' ->
    L <= length fs -> L <= length fs' -> base_sp L fs' = base_sp L fs.
  Proof.
    intros L fs fs' H H1 H2. unfold base_sp. destruct H; auto.
    - simpl length. replace (S (length fs) - L) with (S (length fs - L)) by lia. auto.
    - simpl length in *. replace (S (length fs) - L) with (S (length fs - L)) by lia. auto.
    - simpl length in *. destruct (S (length fs0) - L) eqn:E; simpl; auto.
  Qed.

  Fixpoint exec_trace (s : vmstate) (tr : list vmstate) : Prop :=
    match tr with
    | [] => True
    | s' :: r => vm_step s = SNext s' /\ exec_trace s' r
    end.

  Lemma trace_base : forall L tr s0, exec_trace s0 tr -> L <= length (frames s0) ->
    (forall s, In s tr -> L <= length (frames s)) ->
    forall s, In s (s0 :: tr) -> base_sp L (frames s) = base_sp L (frames s0).
  Proof.
    intros L tr. induction tr as [|s1 tr IH]; intros s0 Ht HL Hall s Hin.
    - destruct Hin as [<-|[]]. auto.
    - destruct Hin as [<-|Hin]; auto. destruct Ht as [Hs Ht].
      assert (H1 : L <= length (frames s1)) by (apply Hall; simpl; auto).
      rewrite (IH s1 Ht H1 (fun x Hx => Hall x (or_intror Hx)) s Hin).
      apply frames_change_base; auto. apply step_frames; auto.
  Qed.

  Lemma base_sp_full : forall fs, hd 0 (base_sp (length fs) fs) = cur_sp fs.
  Proof. intros. unfold base_sp. rewrite Nat.sub_diag. destruct fs; reflexivity. Qed.

  Lemma trace_consecutive : forall tr s0 i s s', exec_trace s0 tr ->
    nth_error (s0 :: tr) i = Some s -> nth_error (s0 :: tr) (S i) = Some s' -> vm_step s = SNext s'.
  Proof.
    induction tr as [|s1 tr IH]; intros s0 i s s' Ht H1 H2.
    - destruct i as [|[|i]]; simpl in *; discriminate.
    - destruct Ht as [Hs Ht]. destruct i; cbn [nth_error] in *.
      + inversion H1; inversion H2; subst; auto.
      + eapply IH; eauto.
  Qed.

  Lemma loop_constant_space : forall s0 tr, exec_trace s0 tr -> 1 <= length (frames s0) ->
    (forall s, In s tr -> length (frames s0) <= length (frames s)) ->
    forall i s s' arity rest body caps,
      nth_error (s0 :: tr) i = Some s -> nth_error (s0 :: tr) (S i) = Some s' ->
      length (frames s) = length (frames s0) ->
      tail_call_target s = Some (MClo arity rest body caps) ->
      length (frames s') = length (frames s0) /\
      length (stack s') = cur_sp (frames s0) + arity /\
      cur_sp (frames s') = cur_sp (frames s0) /\
      ip s' = 0 /\ code s' = body.
  Proof.
    intros s0 tr Ht HL Hall i s s' arity rest body caps H1 H2 Hlen Htc.
    pose proof (trace_consecutive tr s0 i s s' Ht H1 H2) as Hstep.
    destruct (tail_call_space s s' arity rest body caps Htc Hstep) as (A & B & Cc & D & E).
    assert (Hin : In s (s0 :: tr)) by (eapply nth_error_In; eauto).
    pose proof (trace_base (length (frames s0)) tr s0 Ht (le_n _) Hall s Hin) as Hb.
    assert (Hsp : cur_sp (frames s) = cur_sp (frames s0)).
    { rewrite <- (base_sp_full (frames s)), <- (base_sp_full (frames s0)).
      rewrite Hlen, Hb. auto. }
    rewrite A, B, Cc, Hsp, Hlen. auto.
  Qed.

  Lemma call_overflow : forall s st arity rest body caps n rip st',
    adjust_arity arity rest n st = inl (Some st') -> arity <= length st' ->
    limit <= S (length (frames s)) ->
    do_call limit s st (MClo arity rest body caps) n rip = SErr EOverflow.
  Proof.
    intros. unfold do_call. rewrite H.
    replace (Nat.leb arity (length st')) with true by (symmetry; apply Nat.leb_le; auto).
    replace (Nat.leb limit (S (length (frames s)))) with true by (symmetry; apply Nat.leb_le; auto). auto.
  Qed.
End C09.

Lemma vm_run_next : forall limit k s s', vm_step limit s = SNext s' -> vm_run limit (S k) s = vm_run limit k s'.
Proof. intros. simpl. rewrite H. auto. Qed.

Lemma vm_run_err : forall limit k s e, vm_step limit s = SErr e -> vm_run limit (S k) s = RErr e.
Proof. intros. simpl. rewrite H. auto. Qed.

Lemma nth_local0 : forall (S0 : list mval) arg x, nth_error ((S0 ++ [arg]) ++ [x]) (length S0 + 0) = Some arg.
Proof. intros. rewrite <- app_assoc. rewrite nth_error_app_plus. reflexivity. Qed.

(* a call of deep, from the top level or from deep itself: at the limit it overflows; below the limit it pushes a
   frame, and PUSHCONST 1; READLOCAL 0; PUSH deep lead to the recursive call with one frame more *)
Lemma deep_call_fails : forall limit m C pc st arg fs,
  nth_error C pc = Some (FUNC 1) -> limit - length fs = m ->
  fails limit (mkVM C pc ((st ++ [arg]) ++ [deep_clo]) fs deep_globals) EOverflow.
Proof.
  intros limit m. induction m as [|m IH]; intros C pc st arg fs Hi Hm;
    (destruct (Nat.leb_spec limit (S (length fs))) as [Hl | Hl];
     [apply fails_now; unfold vm_step; cbn [code ip stack frames globals]; rewrite Hi, unsnoc_app;
      apply call_overflow with (st' := st ++ [arg]); [reflexivity | rewrite app_length; simpl; lia | exact Hl] |]).
  - lia.
  - set (fr := mkFrame (length st) deep_clo (S pc) C).
    apply (fails_prefix limit _ (mkVM deep_code 3 ((((st ++ [arg]) ++ [MInt 1]) ++ [arg]) ++ [deep_clo]) (fr :: fs) deep_globals));
      [| apply IH; [reflexivity | simpl; lia]].
    eapply step_star; [exact (call_step_func limit deep_globals C pc st [arg] [arg] 1 1 false deep_code [] fs Hi eq_refl eq_refl Hl) |].
    eapply step_star; [reflexivity |]. eapply step_star.
    + unfold vm_step. cbn [code ip stack frames globals deep_code nth_error cur_sp f_sp]. rewrite nth_local0. reflexivity.
    + apply star_one. reflexivity.
Qed.

(* one step of a position: the child reached and whether it inherits the tail flag.  subterm, flag_at, TailPos
   and compile all descend through an expression by this step *)
Definition child (st : pstep) (e : expr) : option (expr * bool) :=
  match st, e with
  | PIfC, EIf c _ _ => Some (c, false)
  | PIfT, EIf _ t _ => Some (t, true)
  | PIfE, EIf _ _ e' => Some (e', true)
  | PLetB i, ELet bs _ => match nth_error bs i with Some (_, a) => Some (a, false) | None => None end
  | PLetBody, ELet _ b => Some (b, true)
  | PSeq1, ESeq e1 _ => Some (e1, false)
  | PSeq2, ESeq _ e2 => Some (e2, true)
  | PAppF, EApp f _ => Some (f, false)
  | PAppArg i, EApp _ args => match nth_error args i with Some a => Some (a, false) | None => None end
  | _, _ => None
  end.

Lemma subterm_cons : forall st p e,
  subterm e (st :: p) = match child st e with Some (e1, _) => subterm e1 p | None => None end.
Proof.
  intros st p e. destruct st, e; try reflexivity; cbn.
  - destruct (nth_error bs i) as [[? ?]|]; reflexivity.
  - destruct (nth_error args i); reflexivity.
Qed.

Lemma flag_at_cons : forall tail st p e,
  flag_at tail e (st :: p) = match child st e with Some (e1, k) => flag_at (k && tail) e1 p | None => None end.
Proof.
  intros tail st p e. destruct st, e; try reflexivity; cbn.
  - destruct (nth_error bs i) as [[? ?]|]; reflexivity.
  - destruct (nth_error args i); reflexivity.
Qed.

Lemma TailPos_cons : forall st p e,
  TailPos e (st :: p) <-> exists e1, child st e = Some (e1, true) /\ TailPos e1 p.
Proof.
  intros st p e. split.
  - intros H. inversion H; subst; cbn; eauto.
  - intros [e1 [Hc H]]. destruct st, e; try discriminate Hc; cbn in Hc;
      try (destruct (nth_error _ _) as [[? ?]|]; discriminate Hc); try (destruct (nth_error _ _); discriminate Hc);
      injection Hc as <-; constructor; exact H.
Qed.

Lemma flag_false : forall p e b, flag_at false e p = Some b -> b = false.
Proof.
  induction p as [|st p IH]; intros e b H; [inversion H; auto|].
  rewrite flag_at_cons in H. destruct (child st e) as [[e1 k]|]; [|discriminate].
  rewrite andb_false_r in H. eauto.
Qed.

Lemma flag_defined : forall p e e' tail, subterm e p = Some e' -> exists b, flag_at tail e p = Some b.
Proof.
  induction p as [|st p IH]; intros e e' tail H; [cbn; eauto|].
  rewrite subterm_cons in H. rewrite flag_at_cons. destruct (child st e) as [[e1 k]|]; [eauto | discriminate].
Qed.

Lemma tail_pos_sound : forall p e e', subterm e p = Some e' ->
  (flag_at true e p = Some true <-> TailPos e p) /\ (exists b, flag_at true e p = Some b).
Proof.
  intros p e e' Hs. split; [|eapply flag_defined; eauto].
  revert e e' Hs. induction p as [|st p IH]; intros e e' Hs; [split; intros; [constructor|reflexivity]|].
  rewrite subterm_cons in Hs. rewrite flag_at_cons, TailPos_cons.
  destruct (child st e) as [[e1 k]|]; [|discriminate]. rewrite andb_true_r. split.
  - intros H. destruct k; [exists e1; split; [reflexivity | eapply IH; eauto] | apply flag_false in H; discriminate].
  - intros [e2 [E H]]. injection E as <- ->. eapply IH; eauto.
Qed.

Definition within (x l : list instr) : Prop := exists pre post, l = pre ++ x ++ post.

Lemma within_refl : forall x, within x x.
Proof. intros x. exists [], []. rewrite app_nil_r. reflexivity. Qed.

Lemma within_app_l : forall x a b, within x a -> within x (a ++ b).
Proof. intros x a b (pre & post & ->). exists pre, (post ++ b). rewrite <- !app_assoc. reflexivity. Qed.

Lemma within_app_r : forall x a b, within x b -> within x (a ++ b).
Proof. intros x a b (pre & post & ->). exists (a ++ pre), post. rewrite <- app_assoc. reflexivity. Qed.

Lemma within_cons : forall x i l, within x l -> within x (i :: l).
Proof. intros x i l H. exact (within_app_r x [i] l H). Qed.

Lemma within_trans : forall x y z, within x y -> within y z -> within x z.
Proof. intros x y z H (pre & post & ->). apply within_app_r, within_app_l, H. Qed.

Lemma compile_list_nth : forall tco ce es d i a, nth_error es i = Some a ->
  within (compile tco ce (d + i) false a) (compile_list tco ce d es).
Proof.
  induction es as [|x es IH]; intros d i a H; destruct i; simpl in *; try discriminate.
  - injection H as ->. rewrite Nat.add_0_r. apply within_app_l, within_refl.
  - replace (d + S i) with (S d + i) by lia. apply within_app_r, IH, H.
Qed.

(* the classifier is the flag compile uses: the code of an expression contains the code of each child,
   compiled with the flag [flag_at] gives it *)
Lemma compile_child : forall tco st e x k, child st e = Some (x, k) ->
  forall ce d tail, exists ce' d', within (compile tco ce' d' (k && tail) x) (compile tco ce d tail e).
Proof.
  intros tco st e x k Hc ce d tail. destruct st, e; try discriminate Hc; cbn [child] in Hc.
  - (* PIfC *) injection Hc as <- <-. exists ce, d. cbn [compile]. apply within_app_l, within_refl.
  - (* PIfT *) injection Hc as <- <-. exists ce, d. cbn [compile].
    apply within_app_r, within_app_r, within_app_l, within_refl.
  - (* PIfE *) injection Hc as <- <-. exists ce, d. cbn [compile]. do 4 apply within_app_r. apply within_refl.
  - (* PLetB *) destruct (nth_error bs i) as [[y a]|] eqn:Hn; [|discriminate Hc]. injection Hc as <- <-.
    exists ce, (d + i). rewrite compile_let_eq. apply within_cons, within_app_l, compile_list_nth.
    rewrite nth_error_map, Hn. reflexivity.
  - (* PLetBody *) injection Hc as <- <-. exists (bind_slots (map fst bs) d ce), (d + length bs).
    rewrite compile_let_eq. apply within_cons, within_app_r, within_app_l, within_refl.
  - (* PSeq1 *) injection Hc as <- <-. exists ce, d. cbn [compile]. apply within_app_l, within_refl.
  - (* PSeq2 *) injection Hc as <- <-. exists ce, d. cbn [compile]. apply within_app_r, within_app_r, within_refl.
  - (* PAppF *) injection Hc as <- <-. exists ce, (d + length args).
    rewrite compile_app_eq. apply within_app_r, within_app_l, within_refl.
  - (* PAppArg *) destruct (nth_error args i) as [a|] eqn:Hn; [|discriminate Hc]. injection Hc as <- <-.
    exists ce, (d + i). rewrite compile_app_eq. apply within_app_l, compile_list_nth, Hn.
Qed.
