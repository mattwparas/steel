From Coq Require Import String.
From Coq Require Import List Bool Lia Arith.
From SV Require Import lib.Core lib.Bytecode.
From SV Require Export lib.ListFacts.
Import ListNotations.
Open Scope list_scope.

Lemma unsnoc_app : forall A (l : list A) x, unsnoc (l ++ [x]) = Some (l, x).
Proof. induction l; intros; simpl; auto. rewrite IHl. auto. Qed.

Lemma nth_error_mid : forall A (pre : list A) x post, nth_error (pre ++ x :: post) (length pre) = Some x.
Proof. induction pre; simpl; auto. Qed.

Lemma skipn_app_plus : forall A (a b : list A) k, skipn (length a + k) (a ++ b) = skipn k b.
Proof. induction a; simpl; intros; auto. Qed.

Lemma nth_error_app_plus : forall A (a b : list A) i, nth_error (a ++ b) (length a + i) = nth_error b i.
Proof. induction a; simpl; intros; auto. Qed.

Lemma skipn_len_app : forall A (a b : list A), skipn (length (a ++ b) - length b) (a ++ b) = b.
Proof. intros. rewrite app_length. replace (length a + length b - length b) with (length a) by lia. apply skipn_app_exact. Qed.

Lemma firstn_len_app : forall A (a b : list A), firstn (length (a ++ b) - length b) (a ++ b) = a.
Proof. intros. rewrite app_length. replace (length a + length b - length b) with (length a) by lia. apply firstn_app_exact. Qed.

Lemma lookup_in_fst : forall A x (l : list (ident * A)), In x (map fst l) -> exists a, Core.lookup x l = Some a.
Proof.
  induction l as [|[y a] l]; simpl; intros H; [tauto|].
  destruct (String.eqb x y) eqn:E; eauto.
  destruct H as [H|H]; [subst; rewrite String.eqb_refl in E; discriminate|auto].
Qed.

Lemma lookup_some_in : forall A x (l : list (ident * A)) a, Core.lookup x l = Some a -> In x (map fst l).
Proof.
  induction l as [|[y b] l]; simpl; intros a H; [discriminate|].
  destruct (String.eqb x y) eqn:E; [apply String.eqb_eq in E|]; eauto.
Qed.

Lemma memb_true_in : forall x l, memb x l = true -> In x l.
Proof.
  induction l; simpl; intros; [discriminate|]. apply orb_true_iff in H. destruct H as [H|H].
  - apply String.eqb_eq in H. auto.
  - auto.
Qed.

Lemma lookup_bind_notin : forall A xs (vs : list A) r x, memb x xs = false ->
  Core.lookup x (bind xs vs r) = Core.lookup x r.
Proof.
  induction xs; simpl; intros; auto. apply orb_false_iff in H. destruct H as [H1 H2].
  destruct vs; auto. rewrite IHxs; auto. simpl. rewrite H1. auto.
Qed.

Lemma lookup_bind_nth : forall A xs (vs : list A) r k x v, NoDup xs ->
  nth_error xs k = Some x -> nth_error vs k = Some v -> Core.lookup x (bind xs vs r) = Some v.
Proof.
  induction xs as [|p xs IH]; intros vs r k x v Hnd Hp Hv.
  - destruct k; discriminate.
  - destruct vs as [|w vs]; [destruct k; discriminate|]. inversion Hnd; subst. simpl.
    destruct k; simpl in *.
    + inversion Hp; inversion Hv; subst. rewrite lookup_bind_notin.
      * simpl. rewrite String.eqb_refl. auto.
      * destruct (memb x xs) eqn:E; auto. apply memb_true_in in E. contradiction.
    + eapply IH; eauto.
Qed.

Lemma lookup_bind_slots_none : forall xs d ce x, Core.lookup x (bind_slots xs d ce) = None ->
  memb x xs = false /\ Core.lookup x ce = None.
Proof.
  induction xs; simpl; intros; auto. apply IHxs in H. destruct H as [H1 H2]. simpl in H2.
  destruct (String.eqb x a); [discriminate|]. auto.
Qed.

Lemma lookup_caps_cenv : forall fvs s x l,
  Core.lookup x (combine fvs (map Cap (seq s (length fvs)))) = Some l ->
  exists j, l = Cap (s + j) /\ nth_error fvs j = Some x.
Proof.
  induction fvs; simpl; intros; [discriminate|].
  destruct (String.eqb x a) eqn:E.
  - inversion H; subst. apply String.eqb_eq in E; subst. exists 0. split; [f_equal; lia|auto].
  - apply IHfvs in H. destruct H as (j & -> & Hj). exists (S j). split; [f_equal; lia|auto].
Qed.

Lemma lookup_caps_cenv_none : forall fvs s x,
  Core.lookup x (combine fvs (map Cap (seq s (length fvs)))) = None -> ~ In x fvs.
Proof.
  induction fvs; simpl; intros; auto.
  destruct (String.eqb x a) eqn:E; [discriminate|]. apply String.eqb_neq in E.
  intros [->|Hin]; [congruence|]. eapply IHfvs; eauto.
Qed.

(* [call_args] / [bcall_args] / [lcall_args] of the source languages and [adjust_arity] of the two VMs are these two
   functions at their constructor of list values: convertible instances, which [adjust_ok] / [adjust_err] meet by
   unification *)
Definition call_args_with {A} (mklist : list A -> A) (ps : list ident) (rest : option ident) (vs : list A)
  : option (list ident * list A) :=
  match rest with
  | None => if Nat.eqb (length ps) (length vs) then Some (ps, vs) else None
  | Some r => if Nat.leb (length ps) (length vs)
              then Some (ps ++ [r], firstn (length ps) vs ++ [mklist (skipn (length ps) vs)])
              else None
  end.

Definition adjust_with {M} (mklist : list M -> M) (arity : nat) (rest : bool) (n : nat) (st : list M)
  : option (list M) + errk :=
  if rest then
    if Nat.ltb n (arity - 1) then inr EArity
    else let k := 1 + n - arity in
         if Nat.leb k (length st)
         then inl (Some (firstn (length st - k) st ++ [mklist (skipn (length st - k) st)]))
         else inl None
  else if Nat.eqb arity n then inl (Some st) else inr EArity.

Module Rel.
Section Rel.
  Context {V M : Type}.
  Variable vrel : V -> M -> Prop.

  Definition fetch (l : loc) (slots caps : list M) : option M :=
    match l with Slot i => nth_error slots i | Cap j => nth_error caps j end.

  Definition R1 (r : list (ident * V)) (ce : cenv) (slots caps : list M) : Prop :=
    forall x l, Core.lookup x ce = Some l ->
      exists v mv, Core.lookup x r = Some v /\ fetch l slots caps = Some mv /\ vrel v mv.

  Definition Grel (G : list (ident * V)) (MG : list (ident * M)) : Prop :=
    forall g, match Core.lookup g G, Core.lookup g MG with
              | Some v, Some mv => vrel v mv
              | None, None => True
              | _, _ => False
              end.

  Lemma R1_empty : forall r, R1 r [] [] [].
  Proof. intros r x l H. discriminate. Qed.

  Lemma R1_more_slots : forall r ce slots caps extra, R1 r ce slots caps -> R1 r ce (slots ++ extra) caps.
  Proof.
    intros r ce slots caps extra H x l Hl. destruct (H x l Hl) as (v & mv & A & B & C).
    exists v, mv. split; auto. split; auto. destruct l; simpl in *; auto.
    rewrite nth_error_app1; auto. apply nth_error_Some. congruence.
  Qed.

  Lemma R1_bind_one : forall r ce slots caps x v mv, R1 r ce slots caps -> vrel v mv ->
    R1 ((x, v) :: r) ((x, Slot (length slots)) :: ce) (slots ++ [mv]) caps.
  Proof.
    intros r ce slots caps x v mv H Hv y l Hl. simpl in *.
    destruct (String.eqb y x) eqn:E.
    - inversion Hl; subst. exists v, mv. split; auto. split; auto. simpl.
      replace (length slots) with (length slots + 0) by lia. rewrite nth_error_app_plus. auto.
    - apply (R1_more_slots _ _ _ _ [mv]) in H. apply H; auto.
  Qed.

  Lemma R1_bind : forall xs vs mvs r ce slots caps, R1 r ce slots caps -> Forall2 vrel vs mvs ->
    length xs = length vs ->
    R1 (bind xs vs r) (bind_slots xs (length slots) ce) (slots ++ mvs) caps.
  Proof.
    induction xs; intros vs mvs r ce slots caps H HF HL; simpl.
    - destruct vs; apply R1_more_slots; auto.
    - destruct vs as [|v vs]; [simpl in HL; discriminate|]. inversion HF; subst.
      replace (slots ++ y :: l') with ((slots ++ [y]) ++ l') by (rewrite <- app_assoc; auto).
      replace (S (length slots)) with (length (slots ++ [y])) by (rewrite app_length; simpl; lia).
      apply IHxs; auto. apply R1_bind_one; auto.
  Qed.

  Lemma entry_R1 : forall ps fvs r' caps' vs mvs,
    (forall j x, nth_error fvs j = Some x ->
       exists v mv, Core.lookup x r' = Some v /\ nth_error caps' j = Some mv /\ vrel v mv) ->
    Forall2 vrel vs mvs -> length ps = length vs ->
    R1 (bind ps vs r') (body_cenv ps fvs) mvs caps'.
  Proof.
    intros. unfold body_cenv.
    change mvs with ([] ++ mvs). change 0 with (length (@nil M)).
    apply R1_bind; auto.
    intros x l Hl. unfold caps_cenv in Hl. apply lookup_caps_cenv in Hl. destruct Hl as (j & -> & Hj).
    destruct (H j x Hj) as (v & mv & A & B & Cc). exists v, mv. simpl. auto.
  Qed.

  Lemma entry_R2 : forall (p : ident -> bool) ps fvs (r' : list (ident * V)) (vs : list V),
    (forall x, p x = true -> memb x ps = false -> ~ In x fvs -> Core.lookup x r' = None) ->
    forall x, p x = true -> Core.lookup x (body_cenv ps fvs) = None -> Core.lookup x (bind ps vs r') = None.
  Proof.
    intros p ps fvs r' vs H y Hy Hnone. unfold body_cenv in Hnone.
    apply lookup_bind_slots_none in Hnone. destruct Hnone as [Hm Hn].
    rewrite lookup_bind_notin; auto. apply H; auto.
    unfold caps_cenv in Hn. eapply lookup_caps_cenv_none; eauto.
  Qed.

  (* a free variable of a lambda body that is neither a parameter nor captured is no local of the enclosing
     code (every local that occurs free is captured), so the environment does not bind it *)
  Lemma uncaptured_unbound : forall (pb : ident -> bool) ps (r : list (ident * V)) (ce : cenv),
    (forall x, negb (memb x ps) && pb x = true -> Core.lookup x ce = None -> Core.lookup x r = None) ->
    forall y, pb y = true -> memb y ps = false ->
    ~ In y (filter (fun x => pb x && negb (memb x ps)) (rev (map fst ce))) -> Core.lookup y r = None.
  Proof.
    intros pb ps r ce H y Hy Hps Hn. apply H; [rewrite Hps, Hy; auto|].
    destruct (Core.lookup y ce) eqn:E; auto. exfalso. apply Hn.
    apply filter_In. split; [|rewrite Hy, Hps; auto]. rewrite <- in_rev. eapply lookup_some_in; eauto.
  Qed.

  (* the free variables of a let: those of the bound expressions, and those of the body that the let does
     not bind; an environment that binds no free variable the code treats as global keeps doing so *)
  Lemma unbound_let : forall (p pl pb : ident -> bool) xs (r : list (ident * V)) (ce : cenv),
    (forall x, p x = pl x || (negb (memb x xs) && pb x)) ->
    (forall x, p x = true -> Core.lookup x ce = None -> Core.lookup x r = None) ->
    (forall x, pl x = true -> Core.lookup x ce = None -> Core.lookup x r = None) /\
    forall vs d x, pb x = true -> Core.lookup x (bind_slots xs d ce) = None -> Core.lookup x (bind xs vs r) = None.
  Proof.
    intros p pl pb xs r ce Hp H. split.
    - intros y Hy. apply H. rewrite Hp, Hy. auto.
    - intros vs d y Hy Hnone. apply lookup_bind_slots_none in Hnone. destruct Hnone as [Hm Hn].
      rewrite lookup_bind_notin; auto. apply H; auto. rewrite Hp, Hm, Hy. simpl. apply orb_true_r.
  Qed.

  Lemma Grel_cons : forall G MG x v mv, Grel G MG -> vrel v mv -> Grel ((x, v) :: G) ((x, mv) :: MG).
  Proof. intros G MG x v mv H Hv g. simpl. destruct (String.eqb g x); auto. apply H. Qed.

  Lemma Grel_some : forall G MG g v, Grel G MG -> Core.lookup g G = Some v ->
    exists mv, Core.lookup g MG = Some mv /\ vrel v mv.
  Proof. intros G MG g v H Hg. specialize (H g). rewrite Hg in H. destruct (Core.lookup g MG); [eauto|tauto]. Qed.

  Lemma Grel_none : forall G MG g, Grel G MG -> Core.lookup g G = None -> Core.lookup g MG = None.
  Proof. intros G MG g H Hg. specialize (H g). rewrite Hg in H. destruct (Core.lookup g MG); [tauto|auto]. Qed.

  Variables (mkv : list V -> V) (mkm : list M -> M).
  Hypothesis vrel_list : forall vs mvs, Forall2 vrel vs mvs -> vrel (mkv vs) (mkm mvs).

  Lemma adjust_rest : forall a n st0 mvs, n = length mvs -> 1 <= a -> a - 1 <= n ->
    adjust_with mkm a true n (st0 ++ mvs) = inl (Some (st0 ++ firstn (a - 1) mvs ++ [mkm (skipn (a - 1) mvs)])).
  Proof.
    intros a n st0 mvs -> Ha Hn. cbv beta zeta delta [adjust_with].
    destruct (Nat.ltb (length mvs) (a - 1)) eqn:E1; [apply Nat.ltb_lt in E1; lia|].
    destruct (Nat.leb (1 + length mvs - a) (length (st0 ++ mvs))) eqn:E2.
    2:{ apply Nat.leb_gt in E2. rewrite app_length in E2. lia. }
    replace (length (st0 ++ mvs) - (1 + length mvs - a)) with (length st0 + (a - 1))
      by (rewrite app_length; lia).
    rewrite firstn_app_2, skipn_app_plus, <- app_assoc. reflexivity.
  Qed.

  Lemma adjust_ok : forall ps rest vs xs ws mvs st0,
    call_args_with mkv ps rest vs = Some (xs, ws) -> Forall2 vrel vs mvs ->
    exists mws, adjust_with mkm (length (params ps rest)) (if rest then true else false) (length mvs) (st0 ++ mvs) =
                inl (Some (st0 ++ mws)) /\
      Forall2 vrel ws mws /\ xs = params ps rest /\ length xs = length ws /\
      (rest <> None -> mws = firstn (length ps) mvs ++ [mkm (skipn (length ps) mvs)]).
  Proof.
    intros ps rest vs xs ws mvs st0 Hc HF. pose proof (Forall2_length _ _ _ _ _ HF) as Hl.
    unfold call_args_with in Hc. destruct rest as [r|]; cbn [params].
    - destruct (Nat.leb (length ps) (length vs)) eqn:E; [|discriminate]. apply Nat.leb_le in E.
      inversion Hc; subst xs ws. clear Hc.
      exists (firstn (length ps) mvs ++ [mkm (skipn (length ps) mvs)]).
      rewrite adjust_rest; try (rewrite app_length; simpl; lia); auto.
      rewrite app_length. cbn [length]. replace (length ps + 1 - 1) with (length ps) by lia.
      repeat split; auto.
      + apply Forall2_app. apply Forall2_firstn; auto. constructor; [|constructor].
        apply vrel_list. apply Forall2_skipn; auto.
      + rewrite !app_length. rewrite firstn_length. cbn [length]. lia.
    - destruct (Nat.eqb (length ps) (length vs)) eqn:E; [|discriminate]. apply Nat.eqb_eq in E.
      inversion Hc; subst xs ws. exists mvs. unfold adjust_with.
      replace (Nat.eqb (length ps) (length mvs)) with true by (symmetry; apply Nat.eqb_eq; lia).
      repeat split; auto. congruence.
  Qed.

  Lemma adjust_err : forall ps rest vs n st,
    call_args_with mkv ps rest vs = None -> length vs = n ->
    adjust_with mkm (length (params ps rest)) (if rest then true else false) n st = inr EArity.
  Proof.
    intros ps rest vs n st Hc <-. unfold call_args_with in Hc. destruct rest as [r|]; cbn [params].
    - destruct (Nat.leb (length ps) (length vs)) eqn:E; [discriminate|]. apply Nat.leb_gt in E.
      cbv beta zeta delta [adjust_with]. rewrite app_length. cbn [length].
      destruct (Nat.ltb (length vs) (length ps + 1 - 1)) eqn:E1; auto. apply Nat.ltb_ge in E1. lia.
    - destruct (Nat.eqb (length ps) (length vs)) eqn:E; [discriminate|]. unfold adjust_with. rewrite E. auto.
  Qed.
End Rel.
End Rel.
