(* C01 — facts about the reference semantics (coq/lib/Lang.v) that the statement of C01 singles out.
   (The simulation theorems for the model compiler/VM are in Properties_C01.v.) *)
From Coq Require Import ZArith List Bool String Ascii Lia.
From SV Require Import lib.Lang.
Import ListNotations.

Lemma sget_sput_same l v s : sget l (sput l v s) = Some v.
Proof. unfold sput. cbn [sget]. now rewrite Nat.eqb_refl. Qed.

Lemma sget_sput_other l m v s : l <> m -> sget l (sput m v s) = sget l s.
Proof. intros H. unfold sput. cbn [sget]. apply Nat.eqb_neq in H. now rewrite H. Qed.

Lemma step_var st x ρ l v :
  ctl st = CEval (Var x) ρ -> lookup x ρ = Some l -> sget l (store st) = Some v ->
  step st = inl (set_ctl st (CRet v)).
Proof.
  intros Hc Hl Hs. unfold step. rewrite Hc. unfold var_loc. rewrite Hl, Hs. reflexivity.
Qed.

Lemma step_set st v l k :
  ctl st = CRet v -> kont st = FSet l :: k ->
  exists st', step st = inl st' /\ sget l (store st') = Some v /\
              (forall m, m <> l -> sget m (store st') = sget m (store st)) /\
              out st' = out st /\ kont st' = k.
Proof.
  intros Hc Hk. unfold step. rewrite Hc, Hk.
  destruct (sget l (store (set_ck st (CRet v) k))) eqn:E; eexists; (split; [reflexivity|]);
    cbn; rewrite Nat.eqb_refl; repeat split; auto;
    intros m Hm; apply Nat.eqb_neq in Hm; rewrite Hm; reflexivity.
Qed.

(* assignment followed by a read of the same variable yields the assigned value *)
Theorem var_latest st v l k x ρ :
  ctl st = CRet v -> kont st = FSet l :: k -> lookup x ρ = Some l ->
  exists st', step st = inl st' /\
    forall st'', ctl st'' = CEval (Var x) ρ -> store st'' = store st' ->
      step st'' = inl (set_ctl st'' (CRet v)).
Proof.
  intros Hc Hk Hl. destruct (step_set st v l k Hc Hk) as [st' [Hs [Hg _]]].
  exists st'. split; auto. intros st'' Hc'' Hst. eapply step_var; eauto. now rewrite Hst.
Qed.

(* code that is never executed never raises / has no effect *)
Theorem dead_branch_silent st v t e ρ k :
  ctl st = CRet v -> kont st = FIf t e ρ :: k ->
  step st = inl (set_ctl (set_ck st (CRet v) k) (CEval (if truthy v then t else e) ρ)).
Proof. intros Hc Hk. unfold step. rewrite Hc, Hk. reflexivity. Qed.

Theorem uncalled_lambda_silent st ps rest body ρ :
  ctl st = CEval (Lam ps rest body) ρ ->
  exists c, step st = inl (set_ctl st (CRet c)) /\
            (forall st', step st = inl st' -> store st' = store st /\ out st' = out st /\ kont st' = kont st).
Proof.
  intros Hc. unfold step. rewrite Hc. eexists. split; [reflexivity|].
  intros st' H. inversion H; subst. cbn. auto.
Qed.

Lemma alloc_many_spec : forall ps args st ρ ρ' st',
  List.length ps = List.length args -> NoDup ps ->
  alloc_many st ps args ρ = (ρ', st') ->
  Forall2 (fun p a => exists l, lookup p ρ' = Some l /\ sget l (store st') = Some a) ps args /\
  (forall y, ~ In y ps -> lookup y ρ' = lookup y ρ) /\
  (forall m, m < next st -> sget m (store st') = sget m (store st)) /\
  next st <= next st' /\ out st' = out st /\ kont st' = kont st.
Proof.
  induction ps as [|p ps IH]; intros args st ρ ρ' st' Hlen Hnd H; destruct args as [|a args];
    try discriminate; cbn [alloc_many] in H.
  - inversion H; subst. repeat split; auto; constructor.
  - inversion Hnd as [|? ? Hnin Hnd']; subst.
    unfold alloc in H. cbn in H.
    set (st1 := mkState (ctl st) (kont st) (sput (next st) a (store st)) (S (next st)) (genv st) (out st) (winds st)) in *.
    destruct (IH args st1 ((p, next st) :: ρ) ρ' st') as [HF [Hl [Hs [Hn [Ho Hk]]]]]; auto.
    repeat split.
    + constructor; auto.
      exists (next st). split.
      * rewrite Hl by auto. cbn [lookup]. now rewrite String.eqb_refl.
      * rewrite Hs by (cbn; lia). cbn. now rewrite Nat.eqb_refl.
    + intros y Hy. rewrite Hl by (intros X; apply Hy; now right).
      cbn [lookup]. destruct (String.eqb y p) eqn:E; auto.
      apply String.eqb_eq in E. subst. exfalso. apply Hy. now left.
    + intros m Hm. rewrite Hs by (cbn; lia). cbn.
      assert (m <> next st) by lia. apply Nat.eqb_neq in H0. now rewrite H0.
    + cbn in Hn. lia.
    + rewrite Ho. reflexivity.
    + rewrite Hk. reflexivity.
Qed.

(* a call of a fixed-arity closure receives exactly the arguments written at the call site *)
Theorem call_args_exact st ps body ρ args :
  List.length ps = List.length args -> NoDup ps ->
  exists ρ' st',
    alloc_many st ps args ρ = (ρ', st') /\
    apply_proc st (VClo ps None body ρ) args = enter_body st' body ρ' /\
    Forall2 (fun p a => exists l, lookup p ρ' = Some l /\ sget l (store st') = Some a) ps args.
Proof.
  intros Hlen Hnd. destruct (alloc_many st ps args ρ) as [ρ' st'] eqn:E.
  exists ρ', st'. split; auto. split.
  - unfold apply_proc. rewrite <- Hlen, Nat.eqb_refl. rewrite E. reflexivity.
  - eapply alloc_many_spec; eauto.
Qed.

Theorem call_arity_checked st ps body ρ args :
  List.length ps <> List.length args ->
  exists e, apply_proc st (VClo ps None body ρ) args = raise st e.
Proof.
  intros H. unfold apply_proc. apply not_eq_sym in H. apply Nat.eqb_neq in H. rewrite H. eauto.
Qed.

(* the oracle's answer does not depend on the fuel once it terminates *)
Theorem run_fuel_monotone : forall n st o, run n st = o -> o <> OutOfFuel -> forall m, run (n + m) st = o.
Proof.
  induction n as [|n IH]; intros st o H Ho m; cbn [run] in *.
  - congruence.
  - cbn [plus run]. destruct (step st) as [st'|o'] eqn:E; auto.
Qed.
