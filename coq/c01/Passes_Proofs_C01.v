(* C01 (passes) — [flatten], [plain_let] and [prune_if] as rule sets of the generic simulation (Passes_Compat_C01.v): each rule is sound at
   the root and the pass, with the side conditions the code checks (all guards on), only applies its rule; and the
   witness programs for the variants with a guard off.  The theorems are stated in Properties_C01p.v. *)
From Coq Require Import ZArith List Bool String Lia.
From SV Require Import c01.Passes_Model_C01 c01.Passes_Basics_C01 c01.Passes_Compat_C01.
Import ListNotations.
Open Scope string_scope.

Lemma fvs_eapp a b : fvs (eapp a b) = (fvs a ++ fvs b)%list.
Proof. induction a as [|e a IH]; cbn [eapp fvs]; [reflexivity|]. rewrite IH, app_assoc. reflexivity. Qed.

Lemma elen_eapp a b : elen (eapp a b) = elen a + elen b.
Proof. induction a as [|e a IH]; cbn [eapp elen]; [reflexivity|]. rewrite IH. reflexivity. Qed.

Lemma eapp_firstn_skipn k l : eapp (efirstn k l) (eskipn k l) = l.
Proof. revert l; induction k as [|k IH]; intros [|e l]; cbn [efirstn eskipn eapp]; try reflexivity. rewrite IH. reflexivity. Qed.

Lemma fvs_split k l : fvs l = (fvs (efirstn k l) ++ fvs (eskipn k l))%list.
Proof. rewrite <- fvs_eapp, eapp_firstn_skipn. reflexivity. Qed.

Lemma elen_efirstn k l : k <= elen l -> elen (efirstn k l) = k.
Proof. revert l; induction k as [|k IH]; intros [|e l] H; cbn [efirstn elen] in *; try lia. rewrite IH; lia. Qed.

Lemma efirstn_all k l : elen l <= k -> efirstn k l = l.
Proof. revert l; induction k as [|k IH]; intros [|e l] H; cbn [efirstn elen] in *; try reflexivity; try lia. rewrite IH; [reflexivity|lia]. Qed.

Lemma evals_eapp m a b s ρ :
  evals m s ρ (eapp a b) =
  match evals m s ρ a with
  | None => None
  | Some (inl x, s1) => Some (inl x, s1)
  | Some (inr vs, s1) =>
      match evals m s1 ρ b with
      | None => None
      | Some (inl x, s2) => Some (inl x, s2)
      | Some (inr ws, s2) => Some (inr (vs ++ ws)%list, s2)
      end
  end.
Proof.
  revert s. induction a as [|e a IH]; intros s; cbn [eapp].
  - rewrite evals_Nil. destruct (evals m s ρ b) as [[[x|ws] s2]|]; reflexivity.
  - rewrite !evals_Cons. destruct (eval m s ρ e) as [[[v|] s1]|]; try reflexivity.
    rewrite IH. destruct (evals m s1 ρ a) as [[[x|vs] s2]|]; try reflexivity.
    destruct (evals m s2 ρ b) as [[[x|ws] s3]|]; reflexivity.
Qed.

Lemma evals_one m s ρ e : evals m s ρ (ECons e ENil) =
  match eval m s ρ e with
  | None => None
  | Some (Val v, s1) => Some (inr [v], s1)
  | Some (Err, s1) => Some (inl Err, s1)
  end.
Proof. rewrite evals_Cons. destruct (eval m s ρ e) as [[[v|] s1]|]; try reflexivity. Qed.

Lemma evals_length m l : forall s ρ vs s1, evals m s ρ l = Some (inr vs, s1) -> List.length vs = elen l.
Proof.
  induction l as [|e l IH]; intros s ρ vs s1 E.
  - rewrite evals_Nil in E. inversion E; reflexivity.
  - rewrite evals_Cons in E. destruct (eval m s ρ e) as [[[v|] s2]|]; try discriminate.
    destruct (evals m s2 ρ l) as [[[x|ws] s3]|] eqn:El; try discriminate. inversion E; subst.
    cbn [List.length elen]. f_equal. eapply IH; eassumption.
Qed.

Lemma evals_inl_err m l : forall s ρ x s1, evals m s ρ l = Some (inl x, s1) -> x = Err.
Proof.
  induction l as [|e l IH]; intros s ρ x s1 E.
  - rewrite evals_Nil in E. discriminate.
  - rewrite evals_Cons in E. destruct (eval m s ρ e) as [[[v|] s2]|]; try discriminate.
    + destruct (evals m s2 ρ l) as [[[y|ws] s3]|] eqn:El; try discriminate. inversion E; subst. eapply IH; eassumption.
    + inversion E; reflexivity.
Qed.

Lemma mentions_any_false ids l : mentions_any ids l = false -> forall x, In x (fvs l) -> ~ In x ids.
Proof.
  unfold mentions_any. intros H x Hx Hi.
  assert (existsb (fun y => mem y ids) (fvs l) = true); [|congruence].
  apply existsb_exists. exists x. split; [exact Hx|]. apply mem_In. exact Hi.
Qed.

Definition Rnone : exp -> exp -> Prop := fun _ _ => False.

(* what FlattenAnonymousFunctionCalls::visit_list (compiler/passes/analysis.rs; [flatten] with every guard on) does at
   one call site *)
Inductive Rflat : exp -> exp -> Prop :=
| RF ps_a ps_b body xs ys :
    mentions_any ps_a ys = false ->
    List.length ps_a = elen xs ->
    Rflat (Call (Lam ps_a false (Call (Lam ps_b false body) ys)) xs)
          (Call (Lam (ps_a ++ ps_b) false body) (eapp xs ys)).

Lemma Rflat_fv e e1 : Rflat e e1 -> incl (fv e1) (fv e).
Proof.
  intros H; destruct H as [ps_a ps_b body xs ys Hm Hl]. cbn [fv]. rewrite fvs_eapp.
  intros x Hx. apply in_app_or in Hx. destruct Hx as [Hx|Hx].
  - apply in_app_or in Hx. destruct Hx as [Hx|Hx]; apply in_or_app; [left; exact Hx|right].
    apply in_filter_notin; [apply in_or_app; left; exact Hx|]. eapply mentions_any_false; eassumption.
  - apply in_filter_inv in Hx. destruct Hx as [Hx Hn]. apply in_or_app. right.
    apply in_filter_notin.
    + apply in_or_app. right. apply in_filter_notin; [exact Hx|]. intros Hi. apply Hn. apply in_or_app; right; exact Hi.
    + intros Hi. apply Hn. apply in_or_app; left; exact Hi.
Qed.

Lemma Rflat_sound e e1 : Rflat e e1 ->
  forall n s ρ r, eval n s ρ e = Some r -> eval n s ρ e1 = Some r.
Proof.
  intros H; destruct H as [ps_a ps_b body xs ys Hm Hl]. intros n s ρ r E.
  destruct n as [|[|m]]; [rewrite eval_O in E; discriminate|rewrite eval_Call_1 in E; discriminate|].
  rewrite eval_beta in *. rewrite evals_eapp. cbn [bind_params] in *.
  destruct (evals m s ρ xs) as [[[x|vs] s1]|] eqn:Exs; try discriminate; [exact E|].
  pose proof (evals_length _ _ _ _ _ _ Exs) as Lvs.
  destruct (bind_fixed ps_a vs ρ) as [ρa|] eqn:Ba.
  2:{ destruct (bind_fixed_total ps_a vs ρ) as (? & B); congruence. }
  destruct m as [|k]; [rewrite eval_Call_1 in E; discriminate|].
  rewrite eval_beta in E. cbn [bind_params] in E.
  (* the operands of the inner call mention no outer parameter: they see the outer environment *)
  rewrite (evals_env_ext k ys s1 ρa ρ) in E
    by (intros y Hy; eapply lookup_bind_fixed_notin; [exact Ba|eapply mentions_any_false; eassumption]).
  destruct (evals k s1 ρ ys) as [[[x|ws] s2]|] eqn:Eys; try discriminate;
    rewrite (evals_mono k (S k) _ _ _ _ ltac:(lia) Eys); [exact E|].
  rewrite bind_fixed_app, Ba by congruence.
  destruct (bind_fixed ps_b ws ρa); [|exact E]. eapply eval_mono; [|exact E]. lia.
Qed.

Lemma static_aritys_eapp a b : static_aritys (eapp a b) = static_aritys a && static_aritys b.
Proof. induction a as [|x a IH]; cbn [eapp static_aritys]; [reflexivity|]. rewrite IH, andb_assoc. reflexivity. Qed.

Lemma flatten_root_spec e e1 :
  flatten_root all_on e = Some e1 -> static_arity e = true -> Rflat e e1 /\ static_arity e1 = true.
Proof.
  destruct e as [| | | | | |f xs| | | | |]; try discriminate.
  destruct f as [| | | | |ps_a rest_a b| | | | | |]; try discriminate.
  destruct b as [| | | | | |g ys| | | | |]; try discriminate.
  destruct g as [| | | | |ps_b rest_b body| | | | | |]; try discriminate.
  cbn [flatten_root all_on flatten_checks_operand_ids flatten_checks_outer_rest flatten_checks_inner_rest andb].
  destruct (mentions_any ps_a ys) eqn:Hm; [discriminate|].
  destruct rest_a; [discriminate|]. destruct rest_b; [discriminate|]. cbn [orb].
  intros E; inversion E; subst; clear E. cbn [static_arity negb orb andb].
  intros S. repeat (apply andb_prop in S; destruct S as [S ?]).
  andb_split.
  repeat match goal with H : Nat.eqb _ _ = true |- _ => apply Nat.eqb_eq in H end.
  split; [constructor; assumption|].
  rewrite app_length, elen_eapp, static_aritys_eapp.
  repeat (apply andb_true_intro; split); try assumption.
  apply Nat.eqb_eq. congruence.
Qed.

Lemma flatten_crel_both : forall k,
  (forall e, static_arity e = true -> crel Rflat Rnone e (flatten_f all_on k e)) /\
  (forall l, static_aritys l = true -> crels Rflat Rnone l (flattens_f all_on k l)).
Proof.
  induction k as [|k [IHe IHl]]; (split; [intros e S|intros l S]); cbn [flatten_f flattens_f];
    try apply crel_refl; try apply crels_refl.
  - destruct (flatten_root all_on e) as [e1|] eqn:Er.
    + destruct (flatten_root_spec _ _ Er S) as [HR S1]. eapply C_step; [exact HR|]. apply IHe; exact S1.
    + destruct e; cbn [static_arity] in S;
        andb_split;
        constructor; auto.
  - destruct l; cbn [static_aritys] in S; [constructor|].
    apply andb_prop in S. destruct S. constructor; auto.
Qed.

(* what replace_anonymous_function_calls_with_plain_lets (analysis.rs; [plain_let] with every guard on) does at one
   call site: an applied lambda becomes a %plain-let, surplus operands of a rest parameter go into one #%const-list *)
Inductive Rplet : exp -> exp -> Prop :=
| RP_fixed ps body args :
    List.length ps = elen args ->
    Rplet (Call (Lam ps false body) args) (Let ps args body)
| RP_rest ps body args :
    ps <> [] -> Nat.pred (List.length ps) <= elen args ->
    Rplet (Call (Lam ps true body) args)
          (Let ps (eapp (efirstn (Nat.pred (List.length ps)) args)
                        (ECons (Prim PConstList (eskipn (Nat.pred (List.length ps)) args)) ENil)) body).

Lemma Rplet_fv e e1 : Rplet e e1 -> incl (fv e1) (fv e) /\ incl (fv e) (fv e1).
Proof.
  intros H; destruct H as [ps body args Hl|ps body args Hne Hl]; cbn [fv].
  - split; apply incl_refl.
  - rewrite fvs_eapp. cbn [fvs fv]. rewrite app_nil_r, (fvs_split (Nat.pred (List.length ps)) args).
    split; apply incl_refl.
Qed.

Lemma Rplet_sound e e1 : Rplet e e1 ->
  forall n s ρ r, eval n s ρ e = Some r -> eval n s ρ e1 = Some r.
Proof.
  intros H; destruct H as [ps body args Hl|ps body args Hne Hl]; intros n s ρ r E;
    (destruct n as [|[|m]]; [rewrite eval_O in E; discriminate|rewrite eval_Call_1 in E; discriminate|]);
    rewrite eval_beta in E; rewrite eval_Let.
  - (* no rest parameter: the let binds what the call binds *)
    destruct (evals m s ρ args) as [[rs s1]|] eqn:Ea; [|discriminate].
    rewrite (evals_mono m (S m) _ _ _ _ ltac:(lia) Ea). exact E.
  - (* rest parameter, enough operands: (#%const-list surplus..) evaluates to what [pack] makes of the surplus *)
    set (k := Nat.pred (List.length ps)) in *.
    rewrite <- (eapp_firstn_skipn k args) in E. rewrite evals_eapp in *.
    set (A := efirstn k args) in *. set (B := eskipn k args) in *.
    destruct (evals m s ρ A) as [[[x|vs] s1]|] eqn:EA; try discriminate;
      rewrite (evals_mono m (S m) _ _ _ _ ltac:(lia) EA); [exact E|].
    rewrite evals_one, eval_Prim.
    destruct (evals m s1 ρ B) as [[[x|ws] s2]|] eqn:EB; try discriminate;
      [rewrite (evals_inl_err _ _ _ _ _ _ EB) in *; exact E|].
    cbn [apply_prim].
    pose proof (evals_length _ _ _ _ _ _ EA) as LA. unfold A in LA. rewrite (elen_efirstn _ _ Hl) in LA.
    rewrite bind_params_pack in E. unfold pack in E. fold k in E. rewrite app_length in E.
    replace (Nat.ltb (List.length vs + List.length ws) k) with false in E by (symmetry; apply Nat.ltb_ge; lia).
    rewrite <- LA, firstn_app_exact, skipn_app_exact in E. exact E.
Qed.

(* what the root rewrite reads of a call: the operator's own parameter list against the operand count.  The traversal
   keeps both ([plain_let_arity], [plain_let_elen]), so the rule applies to the visited node on the strength of the
   arity of the source node *)
Definition arity_cond (f : exp) (n : nat) : bool :=
  match f with
  | Lam ps true _ => negb (Nat.eqb (List.length ps) 0)
  | Lam ps false _ => Nat.eqb (List.length ps) n
  | _ => true
  end.

Lemma static_arity_root f a : static_arity (Call f a) = true -> arity_cond f (elen a) = true.
Proof.
  destruct f as [| | | | |ps [|] b| | | | | |]; try reflexivity; cbn [static_arity arity_cond negb orb andb]; intros S;
    andb_split; assumption.
Qed.

Lemma plain_let_elen g : forall l, elen (plain_lets g l) = elen l.
Proof. induction l; cbn [plain_lets elen]; congruence. Qed.

Lemma plain_let_arity g f n : arity_cond (plain_let g f) n = arity_cond f n.
Proof.
  destruct f; try reflexivity. cbn [plain_let]. unfold plain_let_root.
  destruct (plain_let g f); try reflexivity.
  destruct rest; [|reflexivity].
  destruct (plain_let_skips_short_calls g && _)%bool; reflexivity.
Qed.

Lemma plain_let_root_spec f a : arity_cond f (elen a) = true ->
  Call f a = plain_let_root all_on (Call f a) \/ Rplet (Call f a) (plain_let_root all_on (Call f a)).
Proof.
  destruct f as [| | | | |ps [|] body| | | | | |]; try (left; reflexivity);
    cbn [arity_cond plain_let_root all_on plain_let_skips_short_calls plain_let_builds_const_list andb]; intros H.
  - destruct (Nat.ltb (elen a) (Nat.pred (List.length ps))) eqn:Hlt; [left; reflexivity|right].
    apply Nat.ltb_ge in Hlt. apply negb_true_iff, Nat.eqb_neq in H.
    rewrite elen_eapp, (elen_efirstn _ _ Hlt). cbn [elen].
    replace (Nat.pred (List.length ps) + 1) with (List.length ps) by lia.
    rewrite Nat.min_id, firstn_all, efirstn_all by (rewrite elen_eapp, (elen_efirstn _ _ Hlt); cbn [elen]; lia).
    constructor; [intros ->; apply H; reflexivity|exact Hlt].
  - right. apply Nat.eqb_eq in H. rewrite <- H, Nat.min_id, firstn_all, efirstn_all by lia. constructor. exact H.
Qed.

Lemma plain_let_crel_both :
  (forall e, static_arity e = true -> crel Rnone Rplet e (plain_let all_on e)) /\
  (forall l, static_aritys l = true -> crels Rnone Rplet l (plain_lets all_on l)).
Proof.
  apply exp_exps_ind; intros; cbn [plain_let plain_lets]; try (constructor; fail);
    try match goal with H : static_arity (Call _ _) = true |- _ => pose proof (static_arity_root _ _ H) as Hr end;
    match goal with H : static_arity _ = true |- _ => cbn [static_arity] in H | H : static_aritys _ = true |- _ => cbn [static_aritys] in H end;
    andb_split;
    try (constructor; auto; fail).
  (* Call *)
  assert (C0 : crel Rnone Rplet (Call f args) (Call (plain_let all_on f) (plain_lets all_on args)))
    by (constructor; auto).
  rewrite <- (plain_let_arity all_on), <- (plain_let_elen all_on) in Hr.
  destruct (plain_let_root_spec _ _ Hr) as [Heq|HR]; [rewrite <- Heq; exact C0|eapply C_post; eassumption].
Qed.

(* what PruneConstantIfBranches (compiler/passes/opt.rs; [prune_if] with every guard on) does at one `if` *)
Inductive Rprune : exp -> exp -> Prop :=
| RPr c t e : expr_is_truthy all_on c = true -> Rprune (If c t e) t.

Lemma Rprune_fv e e1 : Rprune e e1 -> incl (fv e1) (fv e).
Proof. intros H; destruct H. cbn [fv]. intros x Hx. apply in_or_app. right. apply in_or_app. left. exact Hx. Qed.

Lemma Rprune_sound e e1 : Rprune e e1 ->
  forall n s ρ r, eval n s ρ e = Some r -> eval n s ρ e1 = Some r.
Proof.
  intros H; destruct H as [c t e Hc]. intros n s ρ r E.
  destruct n as [|n1]; [rewrite eval_O in E; discriminate|]. rewrite eval_If in E.
  destruct n1 as [|n2]; [rewrite eval_O in E; discriminate|].
  assert (Ec : exists v, eval (S n2) s ρ c = Some (Val v, s) /\ truthy v = true).
  { destruct c; try discriminate; cbn [expr_is_truthy all_on prune_if_quote_false_is_false negb] in Hc.
    - eexists; split; [apply eval_Num|reflexivity].
    - subst b. eexists; split; [apply eval_Bool|reflexivity].
    - rewrite eval_Quote. eexists; split; [reflexivity|].
      destruct d as [z|[|]| |a d]; try reflexivity; discriminate. }
  destruct Ec as (v & Ec & Tv). rewrite Ec, Tv in E.
  eapply eval_mono; [|exact E]. lia.
Qed.

Lemma prune_if_crel_both :
  (forall e, crel Rprune Rnone e (prune_if all_on e)) /\ (forall l, crels Rprune Rnone l (prune_ifs all_on l)).
Proof.
  apply exp_exps_ind; intros; cbn [prune_if prune_ifs]; try (constructor; auto; fail).
  destruct (expr_is_truthy all_on c) eqn:Hc.
  - eapply C_step; [constructor; exact Hc|assumption].
  - constructor; assumption.
Qed.

Lemma Rnone_fv_both_ways e e1 : Rnone e e1 -> incl (fv e1) (fv e) /\ incl (fv e) (fv e1).
Proof. intros []. Qed.
Lemma Rnone_fv e e1 : Rnone e e1 -> incl (fv e1) (fv e).
Proof. intros []. Qed.
Lemma Rnone_sound e e1 : Rnone e e1 -> forall n s ρ r, eval n s ρ e = Some r -> eval n s ρ e1 = Some r.
Proof. intros []. Qed.

(* configurations with one guard of flatten / plain_let / prune_if off, and the programs on which the refutation
   theorems of Properties_C01p.v (those named "unsound") run them *)
Definition run (e : exp) : string := render_res (eval 30 (ENone, []) ENone e).
Definition off_outer_rest := {| flatten_checks_outer_rest := false; flatten_checks_inner_rest := true; flatten_checks_operand_ids := true;
     plain_let_skips_short_calls := true; plain_let_builds_const_list := true; prune_if_quote_false_is_false := true;
     consteval_checks_rest_is_used := true; consteval_checks_surplus_operands := true; consteval_emits_value := true;
     consteval_checks_set_idents := true; consteval_static_arity := true;
     consteval_operands_outer_scope := true |}.
Definition off_inner_rest := {| flatten_checks_outer_rest := true; flatten_checks_inner_rest := false; flatten_checks_operand_ids := true;
     plain_let_skips_short_calls := true; plain_let_builds_const_list := true; prune_if_quote_false_is_false := true;
     consteval_checks_rest_is_used := true; consteval_checks_surplus_operands := true; consteval_emits_value := true;
     consteval_checks_set_idents := true; consteval_static_arity := true;
     consteval_operands_outer_scope := true |}.
Definition off_operand_ids := {| flatten_checks_outer_rest := true; flatten_checks_inner_rest := true; flatten_checks_operand_ids := false;
     plain_let_skips_short_calls := true; plain_let_builds_const_list := true; prune_if_quote_false_is_false := true;
     consteval_checks_rest_is_used := true; consteval_checks_surplus_operands := true; consteval_emits_value := true;
     consteval_checks_set_idents := true; consteval_static_arity := true;
     consteval_operands_outer_scope := true |}.
Definition off_short_calls := {| flatten_checks_outer_rest := true; flatten_checks_inner_rest := true; flatten_checks_operand_ids := true;
     plain_let_skips_short_calls := false; plain_let_builds_const_list := true; prune_if_quote_false_is_false := true;
     consteval_checks_rest_is_used := true; consteval_checks_surplus_operands := true; consteval_emits_value := true;
     consteval_checks_set_idents := true; consteval_static_arity := true;
     consteval_operands_outer_scope := true |}.
Definition off_const_list := {| flatten_checks_outer_rest := true; flatten_checks_inner_rest := true; flatten_checks_operand_ids := true;
     plain_let_skips_short_calls := true; plain_let_builds_const_list := false; prune_if_quote_false_is_false := true;
     consteval_checks_rest_is_used := true; consteval_checks_surplus_operands := true; consteval_emits_value := true;
     consteval_checks_set_idents := true; consteval_static_arity := true;
     consteval_operands_outer_scope := true |}.
Definition off_quote_false := {| flatten_checks_outer_rest := true; flatten_checks_inner_rest := true; flatten_checks_operand_ids := true;
     plain_let_skips_short_calls := true; plain_let_builds_const_list := true; prune_if_quote_false_is_false := false;
     consteval_checks_rest_is_used := true; consteval_checks_surplus_operands := true; consteval_emits_value := true;
     consteval_checks_set_idents := true; consteval_static_arity := true;
     consteval_operands_outer_scope := true |}.

Definition one (e : exp) : exps := ECons e ENil.
Definition two (a b : exp) : exps := ECons a (ECons b ENil).

(* F40: ((lambda (p . r) ((lambda (c) c) 5)) 1) *)
Definition w_f40 : exp := Call (Lam ["p"; "r"] true (Call (Lam ["c"] false (Loc "c")) (one (Num 5)))) (one (Num 1)).
(* ((lambda (a) ((lambda (b . c) c) 1 2)) 0) *)
Definition w_inner_rest : exp :=
  Call (Lam ["a"] false (Call (Lam ["b"; "c"] true (Loc "c")) (two (Num 1) (Num 2)))) (one (Num 0)).
(* ((lambda (a) ((lambda (b) b) a)) 1) *)
Definition w_ids : exp := Call (Lam ["a"] false (Call (Lam ["b"] false (Loc "b")) (one (Loc "a")))) (one (Num 1)).
(* ((lambda (a b . r) a) 1) *)
Definition w_short : exp := Call (Lam ["a"; "b"; "r"] true (Loc "a")) (one (Num 1)).
(* ((lambda (a . r) r) 1 2 3) *)
Definition w_clist : exp := Call (Lam ["a"; "r"] true (Loc "r")) (ECons (Num 1) (two (Num 2) (Num 3))).
(* ((lambda (a) a) 1 (display 2)): operand count differs, no rest parameter *)
Definition w_arity : exp := Call (Lam ["a"] false (Loc "a")) (two (Num 1) (Prim PDisplay (one (Num 2)))).
(* F25: (if '#f 1 2) *)
Definition w_f25 : exp := If (Quote (DBool false)) (Num 1) (Num 2).

(* non-vacuity: programs on which the passes do rewrite *)
Definition nv_flat : exp :=   (* ((lambda (a) ((lambda (b) (+ a b)) (begin (display 2) 20))) (begin (display 1) 10)) *)
  Call (Lam ["a"] false (Call (Lam ["b"] false (Prim PAdd (two (Loc "a") (Loc "b"))))
                              (one (Begin (two (Prim PDisplay (one (Num 2))) (Num 20))))))
       (one (Begin (two (Prim PDisplay (one (Num 1))) (Num 10)))).
Definition nv_rest : exp :=   (* ((lambda (a . r) r) 1 (begin (display 7) 2) 3) *)
  Call (Lam ["a"; "r"] true (Loc "r")) (ECons (Num 1) (two (Begin (two (Prim PDisplay (one (Num 7))) (Num 2))) (Num 3))).

(* ConstantEvaluator (steel_vm/const_evaluation.rs): three configurations with one guard of [ceval] off - the code
   before /repo 835cf846 (off_rest_used), 39894f52 (off_surplus), 83527381 (off_emits_value) - and their programs for
   the three C01p_ceval_unsound theorems of Properties_C01p.v; the fourth, operands judged inside (before /repo e50bef37), is in
   Passes_CEvalFn_C01.v *)
Definition off_rest_used := {| flatten_checks_outer_rest := true; flatten_checks_inner_rest := true; flatten_checks_operand_ids := true;
     plain_let_skips_short_calls := true; plain_let_builds_const_list := true; prune_if_quote_false_is_false := true;
     consteval_checks_rest_is_used := false; consteval_checks_surplus_operands := true; consteval_emits_value := true;
     consteval_checks_set_idents := true; consteval_static_arity := true;
     consteval_operands_outer_scope := true |}.
Definition off_surplus := {| flatten_checks_outer_rest := true; flatten_checks_inner_rest := true; flatten_checks_operand_ids := true;
     plain_let_skips_short_calls := true; plain_let_builds_const_list := true; prune_if_quote_false_is_false := true;
     consteval_checks_rest_is_used := true; consteval_checks_surplus_operands := false; consteval_emits_value := true;
     consteval_checks_set_idents := true; consteval_static_arity := true;
     consteval_operands_outer_scope := true |}.
Definition off_emits_value := {| flatten_checks_outer_rest := true; flatten_checks_inner_rest := true; flatten_checks_operand_ids := true;
     plain_let_skips_short_calls := true; plain_let_builds_const_list := true; prune_if_quote_false_is_false := true;
     consteval_checks_rest_is_used := true; consteval_checks_surplus_operands := true; consteval_emits_value := false;
     consteval_checks_set_idents := true; consteval_static_arity := true;
     consteval_operands_outer_scope := true |}.

(* F37: ((lambda (a . r) r) 1) *)
Definition w_f37 : exp := Call (Lam ["a"; "r"] true (Loc "r")) (one (Num 1)).
(* F27: ((lambda (a b) a) '(1 2) (display 1)) *)
Definition w_f27 : exp :=
  Call (Lam ["a"; "b"] false (Loc "a")) (two (Quote (DCons (DNum 1) (DCons (DNum 2) DNil))) (Prim PDisplay (one (Num 1)))).
(* /repo 39894f52: ((lambda (a . r) 1) 1 2 (display 7)) *)
Definition w_f41 : exp := Call (Lam ["a"; "r"] true (Num 1)) (ECons (Num 1) (two (Num 2) (Prim PDisplay (one (Num 7))))).

