(* C01 (passes) — what is claimed about the always-on AST rewriting passes (model: Passes_Model_C01.v).
   Each theorem is about the pass with ALL the side conditions the source checks ([all_on]);
   [C01p_guards_match_source] ties that configuration to the Rust source (coq/gen/Gen_C01p.v is regenerated
   from the source on every run). *)
From Coq Require Import ZArith List Bool String.
From SV Require Import c01.Passes_Model_C01 c01.Passes_Basics_C01 c01.Passes_Compat_C01 c01.Passes_Proofs_C01 gen.Gen_C01p.
From SV Require Import c01.Passes_CEval_C01 c01.Passes_CEvalFn_C01.
Import ListNotations.
Open Scope string_scope.

Theorem C01p_guards_match_source : Gen_C01p.src_guards = all_on.
Proof. exact (eq_refl all_on). Qed.

Theorem C01p_flatten_preserves : forall e, static_arity e = true ->
  forall n s s' ρ ρ' r s1,
    srel Rflat Rnone s s' -> envrel Rflat Rnone (fv (flatten all_on e)) ρ ρ' ->
    eval n s ρ e = Some (r, s1) ->
    exists r' s1', eval n s' ρ' (flatten all_on e) = Some (r', s1') /\
                   rrel Rflat Rnone r r' /\ srel Rflat Rnone s1 s1'.
Proof.
  intros e S. apply (crel_preserves Rflat Rnone Rflat_fv Rflat_sound Rnone_fv_both_ways Rnone_sound).
  apply flatten_crel_both. exact S.
Qed.

Theorem C01p_flatten_observable : forall e n r, static_arity e = true ->
  eval n (ENone, []) ENone e = Some r ->
  exists r', eval n (ENone, []) ENone (flatten all_on e) = Some r' /\ render_res (Some r) = render_res (Some r').
Proof.
  intros e n r S. apply (crel_observable Rflat Rnone Rflat_fv Rflat_sound Rnone_fv_both_ways Rnone_sound).
  apply flatten_crel_both. exact S.
Qed.

Theorem C01p_flatten_unsound_with_rest :
  exists e, static_arity e = true /\ run e = "OK 5 OUT " /\ run (flatten off_outer_rest e) = "OK () OUT " /\
            flatten all_on e = e.
Proof. exists w_f40. vm_compute. repeat split; reflexivity. Qed.

Theorem C01p_flatten_unsound_with_inner_rest :
  exists e, static_arity e = true /\ run e = "OK (2 . ()) OUT " /\ run (flatten off_inner_rest e) = "OK 2 OUT " /\
            flatten all_on e = e.
Proof. exists w_inner_rest. vm_compute. repeat split; reflexivity. Qed.

Theorem C01p_flatten_unsound_without_operand_check :
  exists e, static_arity e = true /\ run e = "OK 1 OUT " /\ run (flatten off_operand_ids e) = "ERR OUT " /\
            flatten all_on e = e.
Proof. exists w_ids. vm_compute. repeat split; reflexivity. Qed.

Theorem C01p_plain_let_preserves : forall e, static_arity e = true ->
  forall n s s' ρ ρ' r s1,
    srel Rnone Rplet s s' -> envrel Rnone Rplet (fv (plain_let all_on e)) ρ ρ' ->
    eval n s ρ e = Some (r, s1) ->
    exists r' s1', eval n s' ρ' (plain_let all_on e) = Some (r', s1') /\
                   rrel Rnone Rplet r r' /\ srel Rnone Rplet s1 s1'.
Proof.
  intros e S. apply (crel_preserves Rnone Rplet Rnone_fv Rnone_sound Rplet_fv Rplet_sound).
  apply plain_let_crel_both. exact S.
Qed.

Theorem C01p_plain_let_observable : forall e n r, static_arity e = true ->
  eval n (ENone, []) ENone e = Some r ->
  exists r', eval n (ENone, []) ENone (plain_let all_on e) = Some r' /\ render_res (Some r) = render_res (Some r').
Proof.
  intros e n r S. apply (crel_observable Rnone Rplet Rnone_fv Rnone_sound Rplet_fv Rplet_sound).
  apply plain_let_crel_both. exact S.
Qed.

Theorem C01p_plain_let_unsound_on_short_calls :
  exists e, run e = "ERR OUT " /\ run (plain_let off_short_calls e) = "OK 1 OUT " /\ plain_let all_on e = e.
Proof. exists w_short. vm_compute. repeat split; reflexivity. Qed.

Theorem C01p_plain_let_unsound_without_const_list :
  exists e, static_arity e = true /\ run e = "OK (2 . (3 . ())) OUT " /\ run (plain_let off_const_list e) = "OK 2 OUT ".
Proof. exists w_clist. vm_compute. repeat split; reflexivity. Qed.

(* the static arity check of the constant evaluator (which runs first) is what makes the zip of
   replace_anonymous_function_calls_with_plain_lets harmless *)
Theorem C01p_plain_let_unsound_without_static_arity :
  exists e, static_arity e = false /\ run e = "ERR OUT 2" /\ run (plain_let all_on e) = "OK 1 OUT ".
Proof. exists w_arity. vm_compute. repeat split; reflexivity. Qed.

Theorem C01p_prune_if_preserves : forall e n s s' ρ ρ' r s1,
    srel Rprune Rnone s s' -> envrel Rprune Rnone (fv (prune_if all_on e)) ρ ρ' ->
    eval n s ρ e = Some (r, s1) ->
    exists r' s1', eval n s' ρ' (prune_if all_on e) = Some (r', s1') /\
                   rrel Rprune Rnone r r' /\ srel Rprune Rnone s1 s1'.
Proof.
  intros e. apply (crel_preserves Rprune Rnone Rprune_fv Rprune_sound Rnone_fv_both_ways Rnone_sound).
  apply prune_if_crel_both.
Qed.

Theorem C01p_prune_if_observable : forall e n r,
  eval n (ENone, []) ENone e = Some r ->
  exists r', eval n (ENone, []) ENone (prune_if all_on e) = Some r' /\ render_res (Some r) = render_res (Some r').
Proof.
  intros e n r. apply (crel_observable Rprune Rnone Rprune_fv Rprune_sound Rnone_fv_both_ways Rnone_sound).
  apply prune_if_crel_both.
Qed.

Theorem C01p_prune_if_unsound_if_quote_false_truthy :
  exists e, run e = "OK 2 OUT " /\ run (prune_if off_quote_false e) = "OK 1 OUT " /\ run (prune_if all_on e) = "OK 2 OUT ".
Proof. exists w_f25. vm_compute. repeat split; reflexivity. Qed.

Theorem C01p_passes_nonvacuous :
  static_arity nv_flat = true /\ run nv_flat = "OK 30 OUT 1 2" /\
  flatten all_on nv_flat <> nv_flat /\ run (flatten all_on nv_flat) = "OK 30 OUT 1 2" /\
  run (plain_let all_on (flatten all_on nv_flat)) = "OK 30 OUT 1 2" /\
  static_arity nv_rest = true /\ run nv_rest = "OK (2 . (3 . ())) OUT 7" /\
  plain_let all_on nv_rest <> nv_rest /\ run (plain_let all_on nv_rest) = "OK (2 . (3 . ())) OUT 7".
Proof. vm_compute. repeat split; try reflexivity; discriminate. Qed.

(* the constant evaluator with one of three checks off - the code before /repo 835cf846, 83527381 and 39894f52 in this
   order - changes the outcome of one program each; with all checks on it does not (its soundness theorems are at the
   end of this file) *)
Theorem C01p_ceval_unsound_without_rest_guard :
  exists e, run e = "OK () OUT " /\ run (ceval off_rest_used e) = "ERR OUT " /\ run (ceval all_on e) = "OK () OUT ".
Proof. exists w_f37. vm_compute. repeat split; reflexivity. Qed.

Theorem C01p_ceval_unsound_if_body_returned :
  exists e, run e = "OK (1 . (2 . ())) OUT 1" /\ run (ceval off_emits_value e) = "ERR OUT 1" /\
            run (ceval all_on e) = "OK (1 . (2 . ())) OUT 1".
Proof. exists w_f27. vm_compute. repeat split; reflexivity. Qed.

Theorem C01p_ceval_unsound_without_surplus_check :
  exists e, run e = "OK 1 OUT 7" /\ run (ceval off_surplus e) = "OK 1 OUT " /\ run (ceval all_on e) = "OK 1 OUT 7".
Proof. exists w_f41. vm_compute. repeat split; reflexivity. Qed.

(* The constant evaluator is meaning preserving
   (Passes_CEval_C01.v: relation CE.ce + simulation; Passes_CEvalFn_C01.v: every visit of cvisit is an instance).

   Invariant relating the ConstantEnv to the run-time environment: [CE.cok c ρ X] — every variable of X that c binds
   to a constant d holds [val_of_datum d] in ρ.  One visit under ANY constant environment satisfying it: *)
Theorem C01p_consteval_visit_preserves : forall c e e' u ch,
  cwf e = true -> cvisit all_on c e = (e', u, ch) -> has_marker e' = false ->
  forall n s s' ρ ρ' r s1,
    CE.srel s s' -> CE.envrel (fv e') ρ ρ' -> CE.cok c ρ (fv e) ->
    eval n s ρ e = Some (r, s1) ->
    exists r' s1', eval n s' ρ' e' = Some (r', s1') /\ CE.rrel r r' /\ CE.srel s1 s1'.
Proof. intros c e e' u ch W V Hnm. apply CE.ce_preserves, (cvisit_spec c e e' u ch W V), Hnm. Qed.

(* the whole pass (three runs of up to eleven visits each, from the empty constant environment).
   Hypotheses, both decidable:
   [cwf e]      every %plain-let has as many binders as right-hand sides and every rest lambda has its rest parameter
                (the surface syntax cannot say otherwise and no modelled pass produces otherwise; parameters or
                binders of the same name, shadowing, free variables, ill-typed and failing programs are all INCLUDED);
   [ceval_ok e] no visit is stopped by the compile-time ArityMismatch (the compilation succeeds).
   Results are related by a chain of [CE.vrel]: equal first-order values, closures whose bodies are related by CE.ce. *)
Theorem C01p_consteval_preserves : forall e, cwf e = true -> ceval_ok e = true ->
  forall n s s' ρ ρ' r s1,
    CE.srel s s' -> CE.envrel (fv (ceval all_on e)) ρ ρ' ->
    eval n s ρ e = Some (r, s1) ->
    exists r' s1', eval n s' ρ' (ceval all_on e) = Some (r', s1') /\ ostar (r, s1) (r', s1').
Proof. intros e W H. apply steps_preserves, (ceval_steps e W H). Qed.

Theorem C01p_consteval_observable : forall e n r, cwf e = true -> ceval_ok e = true ->
  eval n (ENone, []) ENone e = Some r ->
  exists r', eval n (ENone, []) ENone (ceval all_on e) = Some r' /\ render_res (Some r) = render_res (Some r').
Proof. intros e n r W H. apply steps_observable, (ceval_steps e W H). Qed.

(* defect e50bef37: operands judged in the scope of the applied lambda *)
Theorem C01p_ceval_unsound_if_operands_judged_inside :
  run w_scope = "OK 7 OUT 1" /\ run (ceval off_operand_scope w_scope) = "ERR OUT 1" /\ run (ceval all_on w_scope) = "OK 7 OUT 1" /\
  cwf w_scope = true /\ ceval_ok w_scope = true.
Proof. vm_compute. repeat split; reflexivity. Qed.

Theorem C01p_consteval_nonvacuous :
  cwf nv_ce1 = true /\ ceval_ok nv_ce1 = true /\ ceval all_on nv_ce1 <> nv_ce1 /\
  run nv_ce1 = "OK (4 . (5 . ())) OUT 2 3" /\ run (ceval all_on nv_ce1) = "OK (4 . (5 . ())) OUT 2 3" /\
  cwf nv_ce2 = true /\ ceval_ok nv_ce2 = true /\ ceval all_on nv_ce2 <> nv_ce2 /\
  run (ceval all_on nv_ce2) = "OK (1 . (2 . ())) OUT 1" /\
  cwf nv_ce3 = true /\ ceval_ok nv_ce3 = true /\ ceval all_on nv_ce3 = Prim PDisplay (one (Num 42)) /\
  run nv_ce3 = "OK #<void> OUT 42".
Proof. vm_compute. repeat split; try reflexivity; discriminate. Qed.
