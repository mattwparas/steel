(* C01 (passes) — the constant evaluator as a relation: [ce c e e'] (e' is e rewritten under the constant environment
   c), the invariant [cok] (a variable that c binds to a constant holds its value at run time), the simulation
   [ce_sim].  13 rules of [ce] are congruences (Section Rel of Passes_Compat_C01.v); 8 are a congruence followed by a
   rewrite of the visited node, a fact about ONE run ([rw_sound]) that [sim_post] attaches; CE_Prop is direct. *)
From Coq Require Import ZArith List Bool String Lia.
From SV Require Import c01.Passes_Model_C01 c01.Passes_Basics_C01 c01.Passes_Compat_C01 c01.Passes_Proofs_C01.
Import ListNotations.
Open Scope string_scope.

Module CE.

Definition atom_of (d : datum) : option exp :=
  match d with DNum z => Some (Num z) | DBool b => Some (Bool_ b) | _ => None end.

Definition cnon (ps : list string) : cenv := map (fun p => (p, CNon)) ps.

Definition isncb (c : cenv) (e0 : exp) : bool :=
  match fst (to_const c e0) with None => true | Some _ => false end.

(* the constant bindings an applied lambda gives its parameters (cvisit, Call case) *)
Definition cbinds (c : cenv) (ps : list string) (r : bool) (al : list exp) : cenv :=
  let k := Nat.pred (List.length ps) in
  if r then
    (zipb c (firstn k ps) (firstn k al) ++
     match rev ps with
     | [] => []
     | rp :: _ => [(rp, match all_some (map (fun e0 => fst (to_const c e0)) (skipn k al)) with
                        | Some ds => CConst (datum_list ds)
                        | None => CNon
                        end)]
     end)%list
  else zipb c ps al.

(* no compile-time ArityMismatch (guard [consteval_static_arity]) and a rest lambda has its rest parameter *)
Definition arity_okb (ps : list string) (r : bool) (n : nat) : bool :=
  if r then negb (Nat.ltb n (Nat.pred (List.length ps))) && negb (Nat.eqb (List.length ps) 0)
  else Nat.eqb (List.length ps) n.

Definition begin_of (nc : list exp) (last : exp) : exp :=
  match nc with [] => last | _ => Begin (of_list (nc ++ [last])%list) end.

(* which bindings may be dropped: the right-hand side is a constant and the variable is not free in the visited body
   (or a later binder of the same %plain-let has its name: the later one wins) *)
Fixpoint keep_ok (c : cenv) (fb : list string) (keep : list bool) (xs : list string) (es : list exp) : Prop :=
  match keep, xs, es with
  | [], [], [] => True
  | k :: keep', x :: xs', e :: es' =>
      (k = false -> isncb c e = false /\ (~ In x fb \/ In x xs')) /\ keep_ok c fb keep' xs' es'
  | _, _, _ => False
  end.

Inductive ce : cenv -> exp -> exp -> Prop :=
| CE_Num c z : ce c (Num z) (Num z)
| CE_Bool c b : ce c (Bool_ b) (Bool_ b)
| CE_Quote c d : ce c (Quote d) (Quote d)
| CE_Glob c g : ce c (Glob g) (Glob g)
| CE_Loc c x : ce c (Loc x) (Loc x)
| CE_Prop c x d e' : cget c x = Some d -> atom_of d = Some e' -> ce c (Loc x) e'
| CE_Lam c ps r b b' : ce (cnon ps ++ c)%list b b' -> ce c (Lam ps r b) (Lam ps r b')
| CE_Call c f f' a a' : ce c f f' -> ces c a a' -> ce c (Call f a) (Call f' a')
| CE_Thunk c f b' : ce c f (Lam [] false b') -> is_constant c b' = true -> ce c (Call f ENil) b'
| CE_CallLam c ps r body b' a a' :
    ces c a a' -> arity_okb ps r (elen a') = true ->
    ce (rev (cbinds c ps r (elist a')) ++ c)%list body b' ->
    ce c (Call (Lam ps r body) a) (Call (Lam ps r b') a')
| CE_Drop c ps r body b' a a' :
    ces c a a' -> arity_okb ps r (elen a') = true ->
    ce (rev (cbinds c ps r (elist a')) ++ c)%list body b' ->
    forallb (fun e0 => negb (isncb c e0)) (elist a') = true ->
    (forall x, In x ps -> ~ In x (fv b')) ->
    ce c (Call (Lam ps r body) a) b'
| CE_Emit c ps r body b' a a' v :
    ces c a a' -> arity_okb ps r (elen a') = true ->
    ce (rev (cbinds c ps r (elist a')) ++ c)%list body b' ->
    fst (to_const (rev (cbinds c ps r (elist a')) ++ c)%list b') = Some v ->
    ce c (Call (Lam ps r body) a) (begin_of (filter (isncb c) (elist a')) (Quote v))
| CE_If c t t' a a' b b' : ce c t t' -> ce c a a' -> ce c b b' -> ce c (If t a b) (If t' a' b')
| CE_IfT c t t' a a' b : ce c t t' -> is_constant c t' = true -> truthy_constant c t' = true -> ce c a a' -> ce c (If t a b) a'
| CE_IfF c t t' a b b' : ce c t t' -> is_constant c t' = true -> truthy_constant c t' = false -> ce c b b' -> ce c (If t a b) b'
| CE_Begin c es es' : ces c es es' -> ce c (Begin es) (Begin es')
| CE_Prim c op a a' : ces c a a' -> ce c (Prim op a) (Prim op a')
| CE_Fold c op a a' e1 : ces c a a' -> fold_prim c op (elist a') = Some e1 -> ce c (Prim op a) e1
| CE_SetG c g e e' : ce c e e' -> ce c (SetG g e) (SetG g e')
| CE_LetC c xs rhs rhs' b b' :
    ces c rhs rhs' ->
    ce (rev (zipb c xs (elist rhs')) ++ c)%list b b' ->
    ce c (Let xs rhs b) (Let xs rhs' b')
| CE_Let c xs rhs rhs' b b' keep :
    ces c rhs rhs' ->
    ce (rev (zipb c xs (elist rhs')) ++ c)%list b b' ->
    keep_ok c (fv b') keep xs (elist rhs') ->
    ce c (Let xs rhs b) (Let (select keep xs) (of_list (select keep (elist rhs'))) b')
| CE_LetDrop c xs rhs rhs' b b' keep :
    ces c rhs rhs' ->
    ce (rev (zipb c xs (elist rhs')) ++ c)%list b b' ->
    keep_ok c (fv b') keep xs (elist rhs') -> existsb (fun k => k) keep = false ->
    ce c (Let xs rhs b) b'
with ces : cenv -> exps -> exps -> Prop :=
| CES_Nil c : ces c ENil ENil
| CES_Cons c e e' r r' : ce c e e' -> ces c r r' -> ces c (ECons e r) (ECons e' r').

Scheme ce_mut := Induction for ce Sort Prop
  with ces_mut := Induction for ces Sort Prop.
Combined Scheme ce_ces_ind from ce_mut, ces_mut.

Lemma elist_of_list l : elist (of_list l) = l.
Proof. induction l; cbn [of_list elist]; congruence. Qed.
Lemma of_list_elist l : of_list (elist l) = l.
Proof. induction l; cbn [of_list elist]; congruence. Qed.
Lemma elen_length l : elen l = List.length (elist l).
Proof. induction l; cbn [elen elist List.length]; congruence. Qed.
Lemma ces_elen c l l' : ces c l l' -> elen l' = elen l.
Proof. induction 1; cbn [elen]; congruence. Qed.

Lemma fvs_elist l : fvs l = flat_map fv (elist l).
Proof. induction l; cbn [fvs flat_map elist]; congruence. Qed.

Lemma keep_ok_len c fb keep xs es : keep_ok c fb keep xs es -> List.length keep = List.length xs /\ List.length xs = List.length es.
Proof.
  revert xs es; induction keep as [|k keep IH]; intros [|x xs] [|e es] H; cbn [keep_ok] in H; try contradiction; cbn [List.length].
  - auto.
  - destruct H as [_ H]. destruct (IH _ _ H). split; congruence.
Qed.

Lemma keep_ok_dropped c fb keep xs es x :
  keep_ok c fb keep xs es -> In x xs -> ~ In x (select keep xs) -> ~ In x fb.
Proof.
  revert xs es; induction keep as [|k keep IH]; intros [|y xs] [|e es] H Hx Hn; cbn [keep_ok] in H; try contradiction.
  destruct H as [H1 H2]. destruct k; cbn [select] in Hn.
  - destruct Hx as [->|Hx]; [exfalso; apply Hn; left; reflexivity|].
    eapply IH; try eassumption. intros Hi. apply Hn. right; exact Hi.
  - destruct Hx as [->|Hx]; [|eapply IH; eassumption].
    destruct (H1 eq_refl) as [_ [Hf|Hl]]; [exact Hf|]. eapply IH; eassumption.
Qed.

Lemma filter_nil_ps (l : list string) : filter (fun y => negb (mem y [])) l = l.
Proof. induction l as [|a l IH]; [reflexivity|]. cbn [filter]. unfold mem at 1. cbn [existsb negb]. rewrite IH. reflexivity. Qed.

Lemma fv_begin_of nc q : fv q = [] -> incl (fv (begin_of nc q)) (flat_map fv nc).
Proof.
  intros Hq. destruct nc as [|e nc]; cbn [begin_of]; [rewrite Hq; apply incl_nil_l|].
  cbn [fv]. rewrite fvs_elist, elist_of_list, flat_map_app. cbn [flat_map]. rewrite Hq, !app_nil_r. apply incl_refl.
Qed.

Lemma all_some_F2 {A B} (f : A -> option B) : forall l ds,
  all_some (map f l) = Some ds -> Forall2 (fun e d => f e = Some d) l ds.
Proof.
  induction l as [|e l IH]; intros ds H; cbn [map all_some] in H; [inversion H; constructor|].
  destruct (f e) eqn:He; [|discriminate]. destruct (all_some (map f l)); [|discriminate].
  inversion H; subst. constructor; auto.
Qed.

Lemma fold_prim_spec c op al e1 : fold_prim c op al = Some e1 ->
  exists e1' e2' x y, op = PAddC /\ al = [e1'; e2'] /\ fst (to_const c e1') = Some (DNum x) /\
                      fst (to_const c e2') = Some (DNum y) /\ e1 = Num (x + y).
Proof.
  unfold fold_prim. destruct op; try discriminate.
  destruct (all_some (map (fun e0 => fst (to_const c e0)) al)) as [ds|] eqn:A; [|discriminate].
  destruct ds as [|d1 [|d2 [|d3 ds]]]; try discriminate; destruct d1 as [x| | |]; try discriminate;
    destruct d2 as [y| | |]; try discriminate.
  intros E; inversion E. apply all_some_F2 in A.
  inversion A as [|e1' ? ? ? H1 A1]; subst. inversion A1 as [|e2' ? ? ? H2 A2]; subst. inversion A2; subst.
  exists e1', e2', x, y. auto.
Qed.

Lemma atom_of_fv d e' : atom_of d = Some e' -> fv e' = [].
Proof. destruct d; cbn; intros E; inversion E; reflexivity. Qed.

Lemma select_none {A} (ks : list bool) (zs : list A) : existsb (fun k => k) ks = false -> select ks zs = [].
Proof. revert zs; induction ks as [|[|] ks IH]; intros zs Hk; cbn [existsb orb] in Hk; try discriminate; destruct zs; cbn [select]; auto. Qed.

Lemma ce_fv_both :
  (forall c e e', ce c e e' -> incl (fv e') (fv e)) /\ (forall c l l', ces c l l' -> incl (fvs l') (fvs l)).
Proof.
  apply ce_ces_ind; cbn [fv fvs]; try (intros; apply incl_refl);
    try (intros; repeat first [apply incl_app_app | apply filter_incl_mono | assumption]; fail).
  - (* CE_Prop *) intros c x d e' _ Ha. rewrite (atom_of_fv _ _ Ha). apply incl_nil_l.
  - (* CE_Thunk *) intros c f b' _ IHf _. rewrite filter_nil_ps in IHf. exact IHf.
  - (* CE_Drop *) intros c ps r body b' a a' _ _ _ _ IHb _ Hfree x Hx.
    apply in_or_app. right. apply in_filter_notin; [apply IHb; exact Hx|]. intros Hi. exact (Hfree x Hi Hx).
  - (* CE_Emit *) intros c ps r body b' a a' v _ IHa _ _ _ _. eapply incl_tran; [apply fv_begin_of; reflexivity|].
    eapply incl_tran; [apply incl_flat_map, incl_filter|]. rewrite <- fvs_elist. apply incl_appl. exact IHa.
  - (* CE_IfT *) intros c t t' a a' b _ _ _ _ _ IHa. apply incl_appr, incl_appl, IHa.
  - (* CE_IfF *) intros c t t' a b b' _ _ _ _ _ IHb. apply incl_appr, incl_appr, IHb.
  - (* CE_Fold *) intros c op a a' e1 _ _ Hf.
    destruct (fold_prim_spec _ _ _ _ Hf) as (? & ? & ? & ? & _ & _ & _ & _ & ->). apply incl_nil_l.
  - (* CE_Let *) intros c xs rhs rhs' b b' keep _ IHr _ IHb HK. apply incl_app_app.
    + rewrite fvs_elist, elist_of_list. eapply incl_tran; [apply incl_flat_map, select_incl|]. rewrite <- fvs_elist. exact IHr.
    + intros x Hx. apply in_filter_inv in Hx. destruct Hx as [Hx Hn].
      apply in_filter_notin; [apply IHb; exact Hx|]. intros Hi. exact (keep_ok_dropped _ _ _ _ _ _ HK Hi Hn Hx).
  - (* CE_LetDrop *) intros c xs rhs rhs' b b' keep _ _ _ IHb HK Hnone x Hx.
    apply in_or_app. right. apply in_filter_notin; [apply IHb; exact Hx|].
    intros Hi. refine (keep_ok_dropped _ _ _ _ _ _ HK Hi _ Hx).
    rewrite (select_none _ _ Hnone). intros [].
Qed.
Definition ce_fv := proj1 ce_fv_both.
Definition ces_fv := proj2 ce_fv_both.

Lemma keep_ok_all c fb : forall xs es, List.length xs = List.length es ->
  keep_ok c fb (map (fun _ => true) xs) xs es.
Proof.
  induction xs as [|x xs IH]; intros [|e es] L; cbn [List.length] in L; try discriminate; cbn [map keep_ok]; [exact I|].
  split; [discriminate|]. apply IH. lia.
Qed.
Lemma select_all {A} (xs : list string) (l : list A) : List.length xs = List.length l -> select (map (fun _ => true) xs) l = l.
Proof. revert l; induction xs as [|x xs IH]; intros [|a l] L; cbn [List.length] in L; try discriminate; cbn [map select]; [reflexivity|]. rewrite IH by lia. reflexivity. Qed.

Lemma ce_refl_both : (forall e c, ce c e e) /\ (forall l c, ces c l l).
Proof. apply exp_exps_ind; intros; try (constructor; auto; fail). Qed.
Definition ce_refl := proj1 ce_refl_both.
Definition ces_refl := proj2 ce_refl_both.

Definition cok (c : cenv) (ρ : venv) (X : list string) : Prop :=
  forall x d, In x X -> cget c x = Some d -> lookup x ρ = Some (val_of_datum d).

Lemma cok_incl c ρ X Y : cok c ρ X -> incl Y X -> cok c ρ Y.
Proof. intros H I x d Hx. apply H. apply I. exact Hx. Qed.
Lemma cok_nil ρ X : cok [] ρ X.
Proof. intros x d _ H. discriminate. Qed.

Lemma cget_cnon ps c x : cget (cnon ps ++ c)%list x = if mem x ps then None else cget c x.
Proof.
  unfold cget. induction ps as [|p ps IH]; [reflexivity|].
  cbn [cnon map app clookup]. unfold mem. cbn [existsb].
  destruct (String.eqb x p); [reflexivity|]. cbn [orb]. exact IH.
Qed.

Inductive vrel : val -> val -> Prop :=
| VR_Num z : vrel (VNum z) (VNum z)
| VR_Bool b : vrel (VBool b) (VBool b)
| VR_Nil : vrel VNil VNil
| VR_Void : vrel VVoid VVoid
| VR_Cons a a' d d' : vrel a a' -> vrel d d' -> vrel (VCons a d) (VCons a' d')
| VR_Clo c ps rest b b' ρ ρ' :
    ce (cnon ps ++ c)%list b b' ->
    cok c ρ (fv (Lam ps rest b)) ->
    (forall x, In x (fv (Lam ps rest b')) -> orel vrel (lookup x ρ) (lookup x ρ')) ->
    vrel (VClo ps rest b ρ) (VClo ps rest b' ρ').

Definition envrel (xs : list string) (ρ ρ' : venv) : Prop :=
  forall x, In x xs -> orel vrel (lookup x ρ) (lookup x ρ').
Definition grel (G G' : venv) : Prop := forall g, orel vrel (lookup g G) (lookup g G').
Definition srel (s s' : state) : Prop := grel (fst s) (fst s') /\ Forall2 vrel (snd s) (snd s').
Inductive rrel : res -> res -> Prop :=
| RR_val v v' : vrel v v' -> rrel (Val v) (Val v')
| RR_err : rrel Err Err.
Combined Scheme val_venv_ind from val_mut, venv_mut.
Lemma vrel_refl_both : (forall v, vrel v v) /\ (forall ρ x, orel vrel (lookup x ρ) (lookup x ρ)).
Proof.
  apply val_venv_ind; intros; try (constructor; auto; fail).
  - apply (VR_Clo []); [apply ce_refl|apply cok_nil|]. intros x _. apply H.
  - cbn [lookup]. destruct (String.eqb x0 x); [constructor; assumption|apply H0].
Qed.
Definition vrel_refl := proj1 vrel_refl_both.
Lemma envrel_refl X ρ : envrel X ρ ρ.
Proof. intros x _. apply vrel_refl_both. Qed.
Lemma srel_refl s : srel s s.
Proof.
  split; [intros g; apply vrel_refl_both|].
  induction (snd s); constructor; [apply vrel_refl|assumption].
Qed.

Lemma vrel_fo : first_order vrel.
Proof. split; try (constructor; assumption). intros v v' H. destruct H; auto. Qed.

Lemma rrel_resR r r' : resR vrel r r' -> rrel r r'.
Proof. destruct r, r'; try contradiction; constructor; assumption. Qed.

Lemma vrel_datum : forall d v, vrel v (val_of_datum d) \/ vrel (val_of_datum d) v -> v = val_of_datum d.
Proof.
  induction d; intros v [H|H]; cbn [val_of_datum] in *; inversion H; subst; try reflexivity;
    f_equal; auto.
Qed.

Lemma cok_app_l c ρ a b : cok c ρ (a ++ b) -> cok c ρ a.
Proof. intros H. eapply cok_incl; [exact H|apply incl_appl, incl_refl]. Qed.
Lemma cok_app_r c ρ a b : cok c ρ (a ++ b) -> cok c ρ b.
Proof. intros H. eapply cok_incl; [exact H|apply incl_appr, incl_refl]. Qed.

Definition simR (n : nat) (c : cenv) (e e' : exp) : Prop :=
  forall ρ ρ', envrel (fv e') ρ ρ' -> cok c ρ (fv e) -> simE vrel n ρ ρ' e e'.
Definition simP (n : nat) : Prop := forall c e e', ce c e e' -> simR n c e e'.

Definition simsP (n : nat) : Prop :=
  forall c l l', ces c l l' -> forall ρ ρ', envrel (fvs l') ρ ρ' -> cok c ρ (fvs l) -> simEs vrel n ρ ρ' l l'.

Lemma sims_from n : simP n -> simsP n.
Proof.
  intros H c l l' Hl. induction Hl as [|c e e' l l' He Hl IH]; intros ρ ρ' Hρ Hc; [apply simEs_Nil|]. cbn [fvs] in Hρ, Hc.
  apply simEs_Cons; [apply (H _ _ _ He)|apply IH];
    [eapply envR_app_l; exact Hρ|eapply cok_app_l; exact Hc|eapply envR_app_r; exact Hρ|eapply cok_app_r; exact Hc].
Qed.

Lemma const_eval c e d m s ρ :
  fst (to_const c e) = Some d -> cok c ρ (fv e) -> eval (S m) s ρ e = Some (Val (val_of_datum d), s).
Proof.
  destruct e; cbn [to_const fst]; try discriminate; intros E Hc.
  - inversion E; subst. rewrite eval_Num. reflexivity.
  - inversion E; subst. rewrite eval_Bool. reflexivity.
  - inversion E; subst. rewrite eval_Quote. reflexivity.
  - destruct (cget c x) as [d0|] eqn:G; cbn [fst] in E; [|discriminate]. inversion E; subst.
    rewrite eval_Loc, (Hc x d (or_introl eq_refl) G). reflexivity.
Qed.

Lemma truthy_datum d : truthy (val_of_datum d) = is_const_datum_truthy d.
Proof. destruct d as [z|[|]| |a r]; reflexivity. Qed.

Lemma is_constant_spec c t : is_constant c t = true ->
  exists d, fst (to_const c t) = Some d /\ truthy (val_of_datum d) = truthy_constant c t.
Proof.
  destruct t; cbn [is_constant to_const truthy_constant]; try discriminate; intros H.
  - eexists; split; [reflexivity|reflexivity].
  - eexists; split; [reflexivity|destruct b; reflexivity].
  - destruct d as [z|b| |]; try discriminate; eexists; (split; [reflexivity|]); [reflexivity|subst b; reflexivity].
  - destruct (cget c x) as [d|]; [|discriminate]. exists d. split; [reflexivity|]. apply truthy_datum.
Qed.

Definition CV (c : cenv) (e : exp) (v : val) : Prop := forall d, fst (to_const c e) = Some d -> v = val_of_datum d.

Lemma select_filter {A} (p : A -> bool) l : filter p l = select (map p l) l.
Proof. induction l as [|a l IH]; cbn [filter map select]; [reflexivity|]. destruct (p a); rewrite IH; reflexivity. Qed.

Definition sel (keep : list bool) (rs : res + list val) : res + list val :=
  match rs with inl x => inl x | inr vs => inr (select keep vs) end.

Lemma F2_map_isncb c l : Forall2 (fun (k : bool) e => k = false -> isncb c e = false) (map (isncb c) l) l.
Proof. induction l; cbn [map]; constructor; auto. Qed.

Lemma filter_isncb_nil c l : forallb (fun e0 => negb (isncb c e0)) l = true -> filter (isncb c) l = [].
Proof.
  induction l as [|e l IH]; cbn [forallb filter]; [reflexivity|]. intros H. apply andb_prop in H. destruct H as [H1 H2].
  apply negb_true_iff in H1. rewrite H1. auto.
Qed.

Lemma cget_cons y b c0 x :
  cget ((y, b) :: c0) x = if String.eqb x y then match b with CConst d => Some d | CNon => None end else cget c0 x.
Proof. unfold cget. cbn [clookup]. destruct (String.eqb x y); reflexivity. Qed.

Lemma cok_bind_fixed c : forall xs es vs c0 ρ0 ρ1 y,
  Forall2 (CV c) es vs ->
  bind_fixed xs vs ρ0 = Some ρ1 ->
  (~ In y xs -> forall d, cget c0 y = Some d -> lookup y ρ0 = Some (val_of_datum d)) ->
  forall d, cget (rev (zipb c xs es) ++ c0)%list y = Some d -> lookup y ρ1 = Some (val_of_datum d).
Proof.
  induction xs as [|x xs IH]; intros es vs c0 ρ0 ρ1 y HF B H0 d G.
  - destruct vs; cbn [bind_fixed] in B; [|discriminate]. inversion B; subst. cbn [zipb rev app] in G.
    apply H0; [intros []|exact G].
  - destruct HF as [|e v es vs Hev HF]; cbn [bind_fixed] in B; [discriminate|].
    cbn [zipb rev] in G. rewrite <- app_assoc in G. cbn [app] in G.
    eapply (IH es vs (bind_of c x e :: c0) (EBind x v ρ0) ρ1 y HF B); [|exact G].
    intros Hn dz Gz. unfold bind_of in Gz. rewrite cget_cons in Gz. cbn [lookup].
    destruct (String.eqb y x) eqn:Ezx.
    + destruct (fst (to_const c e)) as [d0|] eqn:Hd; [|discriminate]. inversion Gz; subst. f_equal. apply Hev. exact Hd.
    + apply H0; [|exact Gz]. intros [->|Hi]; [rewrite String.eqb_refl in Ezx; discriminate|exact (Hn Hi)].
Qed.

Lemma cok_zipb c X xs es vs ρ0 ρ1 :
  Forall2 (CV c) es vs -> bind_fixed xs vs ρ0 = Some ρ1 ->
  cok c ρ0 (filter (fun y => negb (mem y xs)) X) -> cok (rev (zipb c xs es) ++ c)%list ρ1 X.
Proof.
  intros HF B H0 y d Hy G. eapply cok_bind_fixed; [exact HF|exact B| |exact G].
  intros Hn d0 G0. apply H0; [apply in_filter_notin; assumption|exact G0].
Qed.

Lemma rest_list_const c es vs ds :
  Forall2 (CV c) es vs -> all_some (map (fun e0 => fst (to_const c e0)) es) = Some ds ->
  list_val vs = val_of_datum (datum_list ds).
Proof.
  intros HF A. apply all_some_F2 in A. revert vs HF.
  induction A as [|e d es ds Hd A IH]; intros vs HF; inversion HF as [|? v ? vs' Hev HF']; subst; [reflexivity|].
  cbn [list_val datum_list val_of_datum]. rewrite (Hev d Hd), (IH _ HF'). reflexivity.
Qed.

(* the constant environment of a rest lambda is that of a fixed one over packed operands (as [pack] for values): the
   rest parameter gets one operand, a constant exactly when all the surplus operands are *)
Definition rest_exp (c : cenv) (l : list exp) : exp :=
  match all_some (map (fun e0 => fst (to_const c e0)) l) with Some ds => Quote (datum_list ds) | None => Glob "" end.
Definition epack (c : cenv) (ps : list string) (r : bool) (al : list exp) : list exp :=
  if r then (firstn (Nat.pred (List.length ps)) al ++ [rest_exp c (skipn (Nat.pred (List.length ps)) al)])%list else al.

Lemma zipb_app c : forall a b e f, List.length a = List.length e ->
  zipb c (a ++ b) (e ++ f) = (zipb c a e ++ zipb c b f)%list.
Proof.
  induction a as [|x a IH]; intros b [|y e] f L; cbn [List.length] in L; try discriminate; cbn [app zipb]; [reflexivity|].
  rewrite IH by lia. reflexivity.
Qed.

Lemma cbinds_zipb c ps r al : arity_okb ps r (List.length al) = true ->
  cbinds c ps r al = zipb c ps (epack c ps r al) /\ List.length (epack c ps r al) = List.length ps.
Proof.
  unfold cbinds, epack, arity_okb. destruct r; intros H; [|split; [reflexivity|symmetry; apply Nat.eqb_eq, H]].
  apply andb_prop in H. destruct H as [H1 H2]. apply negb_true_iff in H1. apply Nat.ltb_ge in H1.
  destruct (rev ps) as [|rp lp] eqn:Er.
  { assert (ps = []) by (rewrite <- (rev_involutive ps), Er; reflexivity). subst. discriminate. }
  set (k := Nat.pred (List.length ps)) in *. split.
  - rewrite (rev_split_last _ _ _ Er) at 2. fold k. rewrite zipb_app by (rewrite !firstn_length; lia).
    cbn [zipb]. unfold bind_of, rest_exp. destruct (all_some _); reflexivity.
  - rewrite app_length, firstn_length. cbn [List.length]. subst k. destruct ps; [discriminate|]. cbn [List.length Nat.pred] in *. lia.
Qed.

Lemma epack_CV c ps r al vs ws :
  Forall2 (CV c) al vs -> pack ps r vs = Some ws -> Forall2 (CV c) (epack c ps r al) ws.
Proof.
  intros HF. unfold pack, epack. destruct r; [|intros E; inversion E; subst; exact HF].
  destruct (Nat.ltb _ _); [discriminate|]. intros E; inversion E; subst.
  apply Forall2_app; [apply Forall2_firstn; exact HF|]. constructor; [|constructor].
  intros d Hd. unfold rest_exp in Hd. destruct (all_some _) as [ds|] eqn:A; cbn [to_const fst] in Hd; [|discriminate].
  inversion Hd; subst. eapply rest_list_const; [apply Forall2_skipn; exact HF|exact A].
Qed.

Lemma cok_bind_params c X ps r al vs ρ0 ρ1 :
  arity_okb ps r (List.length al) = true -> Forall2 (CV c) al vs ->
  bind_params ps r vs ρ0 = Some ρ1 ->
  cok c ρ0 (filter (fun y => negb (mem y ps)) X) -> cok (rev (cbinds c ps r al) ++ c)%list ρ1 X.
Proof.
  intros Har HF B H0. rewrite bind_params_pack in B. destruct (pack ps r vs) as [ws|] eqn:P; [|discriminate].
  rewrite (proj1 (cbinds_zipb c ps r al Har)). exact (cok_zipb _ _ _ _ _ _ _ (epack_CV _ _ _ _ _ _ HF P) B H0).
Qed.

Lemma bind_params_ok ps r vs ρ : arity_okb ps r (List.length vs) = true -> exists ρ1, bind_params ps r vs ρ = Some ρ1.
Proof.
  unfold arity_okb. rewrite bind_params_pack. unfold pack. destruct r; intros H.
  - apply andb_prop in H. destruct H as [H1 H2]. apply negb_true_iff in H1. rewrite H1. apply Nat.ltb_ge in H1.
    apply negb_true_iff, Nat.eqb_neq in H2.
    apply bind_fixed_total. rewrite app_length, firstn_length. cbn [List.length]. lia.
  - apply bind_fixed_total. apply Nat.eqb_eq. exact H.
Qed.

Lemma cok_cnon c ps rest vs ρ0 ρ1 b :
  cok c ρ0 (fv (Lam ps rest b)) -> bind_params ps rest vs ρ0 = Some ρ1 -> cok (cnon ps ++ c)%list ρ1 (fv b).
Proof.
  intros Hc B x d Hx G. rewrite cget_cnon in G. destruct (mem x ps) eqn:M; [discriminate|]. apply mem_false in M.
  rewrite (lookup_bind_params_notin _ _ _ _ _ _ B M). apply Hc; [|exact G]. cbn [fv]. apply in_filter_notin; assumption.
Qed.

Lemma keep_ok_F2 c fb keep xs es : keep_ok c fb keep xs es ->
  Forall2 (fun (k : bool) e => k = false -> isncb c e = false) keep es.
Proof.
  revert xs es; induction keep as [|k keep IH]; intros [|x xs] [|e es] H; cbn [keep_ok] in H; try contradiction.
  - constructor.
  - destruct H as [H1 H2]. constructor; [intros Hk; apply H1; exact Hk|eapply IH; exact H2].
Qed.

Lemma of_list_snoc l q : of_list (l ++ [q]) = eapp (of_list l) (ECons q ENil).
Proof. induction l; cbn [app of_list eapp]; congruence. Qed.

Lemma last_val_snoc vs v : last_val (vs ++ [v]) = v.
Proof. induction vs as [|a vs IH]; [reflexivity|]. cbn [app last_val]. destruct (vs ++ [v])%list eqn:E; [destruct vs; discriminate|]. exact IH. Qed.

Lemma eval_begin_of m s ρ nc d :
  eval (S (S m)) s ρ (begin_of nc (Quote d)) =
  match evals (S m) s ρ (of_list nc) with
  | None => None
  | Some (inl x, s1) => Some (x, s1)
  | Some (inr _, s1) => Some (Val (val_of_datum d), s1)
  end.
Proof.
  destruct nc as [|e nc]; [cbn [begin_of of_list]; rewrite evals_Nil, eval_Quote; reflexivity|].
  cbn [begin_of]. rewrite eval_Begin, of_list_snoc, evals_eapp.
  destruct (evals (S m) s ρ (of_list (e :: nc))) as [[[x|vs] s1]|]; try reflexivity.
  rewrite evals_one, eval_Quote, last_val_snoc. reflexivity.
Qed.

Lemma clo_sim_from n : simP n -> clo_sim vrel n.
Proof.
  intros Sn ps rest b ρc b' ρc' Hv. inversion Hv as [| | | | |c ? ? ? ? ? ? Hb Hk He]; subst.
  split; [exact He|]. intros vs ρ1 ρ1' B A. apply (Sn _ _ _ Hb); [exact A|eapply cok_cnon; eassumption].
Qed.

(* the invariant passes to a related environment: what a constant relates to is itself *)
Lemma cok_rel c ρ ρ' X : cok c ρ X -> envrel X ρ ρ' -> cok c ρ' X.
Proof.
  intros Hc H x d Hx G. specialize (H x Hx). rewrite (Hc x d Hx G) in H. inversion H as [|? v' Hv]; subst.
  f_equal. apply vrel_datum. right. exact Hv.
Qed.

Lemma evals_CV c m : forall l s ρ vs s1, cok c ρ (fvs l) -> evals m s ρ l = Some (inr vs, s1) -> Forall2 (CV c) (elist l) vs.
Proof.
  induction l as [|e l IH]; intros s ρ vs s1 Hc E.
  - rewrite evals_Nil in E. inversion E; constructor.
  - rewrite evals_Cons in E. cbn [fvs] in Hc. destruct (eval m s ρ e) as [[[v|] s2]|] eqn:Ee; try discriminate.
    destruct (evals m s2 ρ l) as [[[x|ws] s3]|] eqn:El; try discriminate. inversion E; subst. cbn [elist].
    constructor; [|eapply IH; [eapply cok_app_r; exact Hc|exact El]].
    intros d Hd. destruct m as [|m]; [rewrite eval_O in Ee; discriminate|].
    rewrite (const_eval c e d m s ρ Hd (cok_app_l _ _ _ _ Hc)) in Ee. inversion Ee; reflexivity.
Qed.

(* the source operands whose visited form is a constant have its value: the related target operands do *)
Lemma operands_CV c m a a' s' ρ ρ' vs vs' s2' : ces c a a' -> cok c ρ (fvs a) -> envrel (fvs a') ρ ρ' ->
  evals m s' ρ' a' = Some (inr vs', s2') -> Forall2 vrel vs vs' -> Forall2 (CV c) (elist a') vs.
Proof.
  intros Ha Hc Hρ E HF.
  assert (H : Forall2 (CV c) (elist a') vs').
  { eapply evals_CV; [|exact E]. eapply cok_rel; [eapply cok_incl; [exact Hc|apply (ces_fv c), Ha]|exact Hρ]. }
  clear E. revert H. generalize (elist a'). induction HF as [|v v' vs vs' Hv HF IH]; intros es H; inversion H as [|e ? es0 ? He H']; subst; constructor; auto.
  intros d Hd. apply vrel_datum. left. rewrite <- (He d Hd). exact Hv.
Qed.

(* the operands that stay: the others are constants, and evaluate to themselves without effect *)
Lemma evals_select c m ρ : forall l keep s rs s1,
  Forall2 (fun (k : bool) e => k = false -> isncb c e = false) keep (elist l) -> cok c ρ (fvs l) ->
  evals m s ρ l = Some (rs, s1) -> evals m s ρ (of_list (select keep (elist l))) = Some (sel keep rs, s1).
Proof.
  induction l as [|e l IH]; intros keep s rs s1 HK Hc E; cbn [elist] in HK; inversion HK as [|k e0 keep' l0 Hk HK']; subst.
  - cbn [elist select of_list]. rewrite evals_Nil in *. inversion E; subst. reflexivity.
  - cbn [elist fvs] in *. rewrite evals_Cons in E. destruct k; cbn [select of_list].
    + rewrite evals_Cons. destruct (eval m s ρ e) as [[[v|] s2]|]; try discriminate; [|inversion E; reflexivity].
      destruct (evals m s2 ρ l) as [[rs0 s3]|] eqn:El; [|discriminate].
      rewrite (IH _ _ _ _ HK' (cok_app_r _ _ _ _ Hc) El). destruct rs0; inversion E; reflexivity.
    + specialize (Hk eq_refl). unfold isncb in Hk. destruct (fst (to_const c e)) as [d|] eqn:Hd; [|discriminate].
      destruct m as [|m]; [rewrite eval_O in E; discriminate|].
      rewrite (const_eval c e d m s ρ Hd (cok_app_l _ _ _ _ Hc)) in E.
      destruct (evals (S m) s ρ l) as [[rs0 s3]|] eqn:El; [|discriminate].
      rewrite (IH _ _ _ _ HK' (cok_app_r _ _ _ _ Hc) El). destruct rs0; inversion E; reflexivity.
Qed.

Lemma consts_run c m ρ l s rs s1 : forallb (fun e0 => negb (isncb c e0)) (elist l) = true -> cok c ρ (fvs l) ->
  evals m s ρ l = Some (rs, s1) -> exists vs, rs = inr vs /\ s1 = s.
Proof.
  intros Hall Hc E. pose proof (evals_select c m ρ l (map (isncb c) (elist l)) s rs s1 (F2_map_isncb _ _) Hc E) as Es.
  rewrite <- select_filter, (filter_isncb_nil _ _ Hall) in Es. cbn [of_list] in Es. rewrite evals_Nil in Es.
  destruct rs as [x|vs]; cbn [sel] in Es; [discriminate|]. inversion Es. exists vs. split; reflexivity.
Qed.

Lemma bind_fixed_select c fb : forall keep xs es vs ρ ρ' ρ1,
  keep_ok c fb keep xs es ->
  (forall y, In y fb -> ~ In y (select keep xs) -> lookup y ρ = lookup y ρ') ->
  bind_fixed xs vs ρ = Some ρ1 ->
  exists ρ2, bind_fixed (select keep xs) (select keep vs) ρ' = Some ρ2 /\ agree fb ρ1 ρ2.
Proof.
  induction keep as [|k keep IH]; intros xs es vs ρ ρ' ρ1 HK H0 B;
    destruct xs as [|x xs]; destruct es as [|e es]; cbn [keep_ok] in HK; try contradiction;
    destruct vs as [|v vs]; cbn [bind_fixed] in B; try discriminate.
  - inversion B; subst. exists ρ'. split; [reflexivity|]. intros y Hy. apply H0; [exact Hy|intros []].
  - destruct HK as [Hk HK']. destruct k; cbn [select] in *; cbn [bind_fixed].
    + eapply (IH xs es vs (EBind x v ρ) (EBind x v ρ') ρ1 HK'); [|exact B].
      intros y Hy Hn. cbn [lookup]. destruct (String.eqb y x) eqn:E; [reflexivity|].
      apply H0; [exact Hy|]. intros [->|Hi]; [rewrite String.eqb_refl in E; discriminate|exact (Hn Hi)].
    + eapply (IH xs es vs (EBind x v ρ) ρ' ρ1 HK'); [|exact B].
      intros y Hy Hn. cbn [lookup]. destruct (String.eqb y x) eqn:E; [|apply H0; assumption].
      apply String.eqb_eq in E. subst y. exfalso.
      destruct (Hk eq_refl) as [_ [Hf|Hl]]; [exact (Hf Hy)|].
      exact (keep_ok_dropped _ _ _ _ _ _ HK' Hl Hn Hy).
Qed.

(* The rewrites of the constant evaluator at one node of the VISITED program: each is sound in one environment that
   satisfies the invariant, with the same fuel and the identical result (as the rules of Passes_Proofs_C01.v are). *)
Definition rw_sound (n : nat) (c : cenv) (e1 e2 : exp) : Prop :=
  forall s ρ r, cok c ρ (fv e1) -> eval n s ρ e1 = Some r -> eval n s ρ e2 = Some r.

Lemma thunk_sound c b' n : rw_sound n c (Call (Lam [] false b') ENil) b'.
Proof.
  intros s ρ r _. destruct n as [|[|m]]; [rewrite eval_O; discriminate|rewrite eval_Call_1; discriminate|].
  rewrite eval_beta, evals_Nil. cbn [bind_params bind_fixed]. apply eval_mono. lia.
Qed.

Lemma if_const_sound c t a b pick n : is_constant c t = true -> truthy_constant c t = pick ->
  rw_sound n c (If t a b) (if pick then a else b).
Proof.
  intros Hk <- s ρ r Hc. apply cok_app_l in Hc. destruct (is_constant_spec _ _ Hk) as (d & Hd & Htr).
  destruct n as [|[|m]]; [rewrite eval_O; discriminate|rewrite eval_If, eval_O; discriminate|].
  rewrite eval_If, (const_eval c t d m s ρ Hd Hc), Htr. apply eval_mono. lia.
Qed.

Lemma fold_sound c op a' e1 n : fold_prim c op (elist a') = Some e1 -> rw_sound n c (Prim op a') e1.
Proof.
  intros Hf s ρ r Hc. cbn [fv] in Hc. destruct (fold_prim_spec _ _ _ _ Hf) as (e1' & e2' & x & y & -> & Hal & H1 & H2 & ->).
  destruct a' as [|a1 [|a2 [|]]]; try discriminate. inversion Hal; subst. cbn [fvs] in Hc.
  destruct n as [|[|m]]; [rewrite eval_O; discriminate|rewrite eval_Prim, evals_Cons, eval_O; discriminate|].
  rewrite eval_Prim, eval_Num, evals_Cons, (const_eval c e1' _ m s ρ H1), evals_Cons, (const_eval c e2' _ m s ρ H2), evals_Nil
    by (eapply cok_incl; [exact Hc|auto using incl_appl, incl_appr, incl_refl]).
  exact (fun E => E).
Qed.

Lemma drop_sound c ps r b' a' n :
  arity_okb ps r (elen a') = true -> forallb (fun e0 => negb (isncb c e0)) (elist a') = true ->
  (forall x, In x ps -> ~ In x (fv b')) -> rw_sound n c (Call (Lam ps r b') a') b'.
Proof.
  intros Har Hall Hfree s ρ r0 Hc. apply cok_app_l in Hc. destruct n as [|[|m]]; [rewrite eval_O; discriminate|rewrite eval_Call_1; discriminate|].
  rewrite eval_beta. destruct (evals m s ρ a') as [[rs s2]|] eqn:Ea; [|discriminate].
  destruct (consts_run _ _ _ _ _ _ _ Hall Hc Ea) as (vs & -> & ->).
  destruct (bind_params_ok ps r vs ρ) as (ρ1 & B); [rewrite (evals_length _ _ _ _ _ _ Ea); exact Har|].
  rewrite B. intros E. apply (eval_mono (S m)); [lia|]. rewrite <- E. apply eval_env_ext.
  intros y Hy. symmetry. apply (lookup_bind_params_notin _ _ _ _ _ _ B). intros Hi. exact (Hfree y Hi Hy).
Qed.

Lemma emit_sound c ps r b' a' v n :
  arity_okb ps r (elen a') = true ->
  fst (to_const (rev (cbinds c ps r (elist a')) ++ c)%list b') = Some v ->
  rw_sound n c (Call (Lam ps r b') a') (begin_of (filter (isncb c) (elist a')) (Quote v)).
Proof.
  intros Har Hv s ρ r0 Hc. cbn [fv] in Hc.
  destruct n as [|[|m]]; [rewrite eval_O; discriminate|rewrite eval_Call_1; discriminate|].
  rewrite eval_beta, eval_begin_of, select_filter.
  destruct (evals m s ρ a') as [[rs s2]|] eqn:Ea; [|discriminate].
  rewrite (evals_mono m (S m) _ _ _ _ ltac:(lia)
             (evals_select c m ρ a' _ s rs s2 (F2_map_isncb _ _) (cok_app_l _ _ _ _ Hc) Ea)).
  destruct rs as [x|vs]; cbn [sel]; [exact (fun E => E)|].
  destruct (bind_params_ok ps r vs ρ) as (ρ1 & B); [rewrite (evals_length _ _ _ _ _ _ Ea); exact Har|].
  rewrite B, (const_eval _ b' v m s2 ρ1 Hv); [exact (fun E => E)|].
  eapply cok_bind_params; [rewrite <- elen_length; exact Har| |exact B|exact (cok_app_r _ _ _ _ Hc)].
  eapply evals_CV; [|exact Ea]. eapply cok_app_l; exact Hc.
Qed.

Lemma let_select_sound c xs rhs' b' keep n : keep_ok c (fv b') keep xs (elist rhs') ->
  rw_sound n c (Let xs rhs' b') (Let (select keep xs) (of_list (select keep (elist rhs'))) b').
Proof.
  intros HK s ρ r Hc. apply cok_app_l in Hc. destruct n as [|m]; [rewrite eval_O; discriminate|]. rewrite !eval_Let.
  destruct (evals m s ρ rhs') as [[rs s2]|] eqn:Ea; [|discriminate].
  rewrite (evals_select c m ρ rhs' keep s rs s2 (keep_ok_F2 _ _ _ _ _ HK) Hc Ea).
  destruct rs as [x|vs]; cbn [sel]; [exact (fun E => E)|].
  destruct (keep_ok_len _ _ _ _ _ HK) as [_ L]. rewrite <- elen_length, <- (evals_length _ _ _ _ _ _ Ea) in L.
  destruct (bind_fixed_total xs vs ρ L) as (ρ1 & B). rewrite B.
  destruct (bind_fixed_select c (fv b') keep xs (elist rhs') vs ρ ρ ρ1 HK (fun _ _ _ => eq_refl) B) as (ρ2 & -> & A).
  intros E. rewrite <- E. symmetry. apply eval_env_ext, A.
Qed.

Lemma let_nil_sound b' n s ρ r : eval n s ρ (Let [] ENil b') = Some r -> eval n s ρ b' = Some r.
Proof.
  destruct n as [|m]; [rewrite eval_O; discriminate|]. rewrite eval_Let, evals_Nil. cbn [bind_fixed]. apply eval_mono. lia.
Qed.

Fixpoint eover (a b : venv) : venv := match a with ENone => b | EBind x v r => EBind x v (eover r b) end.
Lemma lookup_eover x a b : lookup x (eover a b) = match lookup x a with Some v => Some v | None => lookup x b end.
Proof. induction a as [|y v a IH]; cbn [eover lookup]; [reflexivity|]. destruct (String.eqb x y); [reflexivity|exact IH]. Qed.

(* ρ' on X, ρ elsewhere *)
Definition overlay (X : list string) (ρ' ρ : venv) : venv := eover (capture ρ' X) ρ.

Lemma lookup_overlay X ρ ρ' x : envrel X ρ ρ' ->
  lookup x (overlay X ρ' ρ) = if mem x X then lookup x ρ' else lookup x ρ.
Proof.
  intros H. unfold overlay. rewrite lookup_eover, lookup_capture. destruct (mem x X) eqn:M; [|reflexivity].
  apply mem_In in M. destruct (H x M); reflexivity.
Qed.

(* e2 may read fewer variables than e1, and ρ' says nothing of the others: run the congruence simulation into the overlay
   (ρ' on what e2 reads, ρ elsewhere), which satisfies [cok] as ρ does; rewrite there; move to ρ' by [eval_env_ext].
   There is one [vrel] step, so that [vrel] is not transitive is not in the way. *)
Lemma sim_post n c e e1 e2 : simR n c e e1 -> incl (fv e1) (fv e) -> rw_sound n c e1 e2 -> simR n c e e2.
Proof.
  intros H1 Hfv HR ρ ρ' Hρ Hc s s' Hs r s1 E.
  pose proof (fun x => lookup_overlay (fv e2) ρ ρ' x Hρ) as O. set (ρ2 := overlay (fv e2) ρ' ρ) in *.
  assert (A : envrel (fv e1) ρ ρ2).
  { intros x _. rewrite O. destruct (mem x (fv e2)) eqn:M; [apply Hρ, mem_In, M|apply vrel_refl_both]. }
  destruct (H1 ρ ρ2 A Hc s s' Hs r s1 E) as (r' & s1' & E' & Hr).
  exists r', s1'. split; [|exact Hr].
  rewrite <- (eval_env_ext n s' ρ2 ρ' e2) by (intros x Hx; rewrite O, (proj2 (mem_In _ _) Hx); reflexivity).
  apply HR; [|exact E']. eapply cok_rel; [eapply cok_incl; eassumption|exact A].
Qed.

(* the congruence rules: the subterms are related at smaller fuel *)
Section Cong.
  Variable n : nat.
  Hypothesis Sn : simP n.
  Hypothesis Sp : simP (Nat.pred n).

  Lemma sim_call c f f' a a' : ce c f f' -> ces c a a' -> simR (S n) c (Call f a) (Call f' a').
  Proof.
    intros Hf Ha ρ ρ' Hρ Hc. cbn [fv] in Hρ, Hc.
    apply (simE_Call vrel vrel_fo); [apply clo_sim_from, Sn|apply (sims_from _ Sp c); [exact Ha| |]|apply (Sn c); [exact Hf| |]];
      [eapply envR_app_l; exact Hρ|eapply cok_app_l; exact Hc|eapply envR_app_r; exact Hρ|eapply cok_app_r; exact Hc].
  Qed.

  Lemma sim_if c t t' a a' b b' : ce c t t' -> ce c a a' -> ce c b b' -> simR (S n) c (If t a b) (If t' a' b').
  Proof.
    intros Ht Ha Hb ρ ρ' Hρ Hc. cbn [fv] in Hρ, Hc.
    apply (simE_If vrel vrel_fo); [apply (Sn c t)|apply (Sn c a)|apply (Sn c b)]; try assumption;
      [eapply envR_app_l|eapply cok_app_l|eapply envR_app_l, envR_app_r|eapply cok_app_l, cok_app_r
      |eapply envR_app_r, envR_app_r|eapply cok_app_r, cok_app_r]; eassumption.
  Qed.

  Lemma sim_prim c op a a' : ces c a a' -> simR (S n) c (Prim op a) (Prim op a').
  Proof. intros Ha ρ ρ' Hρ Hc. apply (simE_Prim vrel vrel_fo), (sims_from n Sn c); assumption. Qed.

  Lemma sim_letc c xs rhs rhs' b b' :
    ces c rhs rhs' -> ce (rev (zipb c xs (elist rhs')) ++ c)%list b b' -> simR (S n) c (Let xs rhs b) (Let xs rhs' b').
  Proof.
    intros Hr Hb ρ ρ' Hρ Hc. cbn [fv] in Hρ, Hc.
    apply (simE_Let vrel vrel_fo);
      [apply (sims_from n Sn c); [exact Hr|eapply envR_app_l; exact Hρ|eapply cok_app_l; exact Hc]|eapply envR_app_r; exact Hρ|].
    intros s0 s2 vs vs' ρ1 ρ1' Ea HF B A.
    pose proof (operands_CV c n _ _ _ _ _ _ _ _ Hr (cok_app_l _ _ _ _ Hc) (envR_app_l _ _ _ _ _ Hρ) Ea HF) as HCV.
    apply (Sn _ _ _ Hb); [exact A|exact (cok_zipb _ _ _ _ _ _ _ HCV B (cok_app_r _ _ _ _ Hc))].
  Qed.

  (* an applied lambda: the operands run with fuel n - 1, the body with fuel n *)
  Lemma sim_calllam c ps r body b' a a' :
    ces c a a' -> arity_okb ps r (elen a') = true ->
    ce (rev (cbinds c ps r (elist a')) ++ c)%list body b' ->
    simR (S n) c (Call (Lam ps r body) a) (Call (Lam ps r b') a').
  Proof.
    intros Ha Har Hb ρ ρ' Hρ Hc. cbn [fv] in Hρ, Hc. destruct n as [|m]; [apply simE_Call_1|]. cbn [Nat.pred] in Sp.
    intros s s'. rewrite !eval_beta.
    apply operands_then.
    { apply (sims_from m Sp c); [exact Ha|eapply envR_app_l; exact Hρ|eapply cok_app_l; exact Hc]. }
    intros s0 vs vs' s2 s2' Ea HF Hs2.
    pose proof (operands_CV c m _ _ _ _ _ _ _ _ Ha (cok_app_l _ _ _ _ Hc) (envR_app_l _ _ _ _ _ Hρ) Ea HF) as HCV.
    destruct (bind_params_ok ps r vs ρ) as (ρ1 & B); [rewrite (Forall2_length _ _ _ _ _ HF), (evals_length _ _ _ _ _ _ Ea); exact Har|].
    rewrite B.
    destruct (bind_params_rel_some vrel vrel_fo ps r vs vs' ρ ρ' ρ1 (fv b') HF (envR_app_r _ _ _ _ _ Hρ) B) as (ρ1' & -> & A).
    apply (Sn _ _ _ Hb); [exact A| |exact Hs2].
    eapply cok_bind_params; try eassumption; [rewrite <- elen_length; exact Har|exact (cok_app_r _ _ _ _ Hc)].
  Qed.
End Cong.

(* CE_Prop is direct; the eight other rules that are not congruences go through [sim_post] *)
Theorem ce_sim : forall n, simP n.
Proof.
  induction n as [N IHN] using lt_wf_ind.
  intros c e e' H. destruct N as [|n]; [intros ρ ρ' _ _; apply simE_O|].
  assert (Sn : simP n) by (apply IHN; lia). assert (Sp : simP (Nat.pred n)) by (apply IHN; lia).
  destruct H as [c z|c b|c d|c g|c x|c x d e' Hg Hat|c ps r b b' Hb|c f f' a a' Hf Ha|c f b' Hf Hk
                |c ps r body b' a a' Ha Har Hb|c ps r body b' a a' Ha Har Hb Hall Hfree|c ps r body b' a a' v Ha Har Hb Hv
                |c t t' a a' b b' Ht Ha Hb|c t t' a a' b Ht Hk Htr Ha|c t t' a b b' Ht Hk Htr Hb
                |c es es' Hes|c op a a' Ha|c op a a' e1 Ha Hf|c g e e' He
                |c xs rhs rhs' b b' Hr Hb|c xs rhs rhs' b b' keep Hr Hb HK|c xs rhs rhs' b b' keep Hr Hb HK Hnone].
  - intros ρ ρ' _ _. eapply simE_const; [intros; apply eval_Num|constructor].
  - intros ρ ρ' _ _. eapply simE_const; [intros; apply eval_Bool|constructor].
  - intros ρ ρ' _ _. eapply simE_const; [intros; apply eval_Quote|apply vrel_refl].
  - intros ρ ρ' _ _. apply simE_Glob.
  - intros ρ ρ' Hρ _. apply simE_Loc, Hρ. left; reflexivity.
  - (* CE_Prop: the variable holds the atom *)
    intros ρ ρ' _ Hc s s' Hs r0 s1 E. rewrite eval_Loc, (Hc x d (or_introl eq_refl) Hg) in E. inversion E; subst.
    destruct d; cbn [atom_of] in Hat; inversion Hat; subst; [rewrite eval_Num|rewrite eval_Bool];
      do 2 eexists; (split; [reflexivity|]); (split; [constructor|exact Hs]).
  - (* CE_Lam *)
    intros ρ ρ' Hρ Hc. apply simE_Lam. apply (VR_Clo c); [exact Hb| |].
    + intros x d Hx G. rewrite lookup_capture. pose proof Hx as Mx. apply mem_In in Mx. rewrite Mx. apply Hc; assumption.
    + apply (envR_capture vrel); [apply (ce_fv c (Lam ps r b) (Lam ps r b')); constructor; exact Hb|exact Hρ].
  - apply sim_call; assumption.
  - (* CE_Thunk *)
    eapply sim_post; [apply (sim_call n Sn Sp c f _ ENil ENil Hf), CES_Nil|apply (ce_fv c), CE_Call; [exact Hf|constructor]|].
    apply thunk_sound.
  - apply sim_calllam; assumption.
  - (* CE_Drop *)
    eapply sim_post; [eapply (sim_calllam n Sn Sp); eassumption|apply (ce_fv c); eapply CE_CallLam; eassumption|].
    apply drop_sound; assumption.
  - (* CE_Emit *)
    eapply sim_post; [eapply (sim_calllam n Sn Sp); eassumption|apply (ce_fv c); eapply CE_CallLam; eassumption|].
    apply emit_sound; assumption.
  - apply sim_if; assumption.
  - (* CE_IfT *)
    eapply sim_post; [apply (sim_if n Sn c t t' a a' b b Ht Ha (ce_refl b c))|apply (ce_fv c), CE_If; [exact Ht|exact Ha|apply ce_refl]|].
    exact (if_const_sound c t' a' b true (S n) Hk Htr).
  - (* CE_IfF *)
    eapply sim_post; [apply (sim_if n Sn c t t' a a b b' Ht (ce_refl a c) Hb)|apply (ce_fv c), CE_If; [exact Ht|apply ce_refl|exact Hb]|].
    exact (if_const_sound c t' a b' false (S n) Hk Htr).
  - intros ρ ρ' Hρ Hc. apply (simE_Begin vrel vrel_fo), (sims_from n Sn c); assumption.
  - apply sim_prim; assumption.
  - (* CE_Fold *)
    eapply sim_post; [apply (sim_prim n Sn c op a a' Ha)|apply (ce_fv c), CE_Prim, Ha|].
    apply fold_sound, Hf.
  - intros ρ ρ' Hρ Hc. apply (simE_SetG vrel vrel_fo), (Sn c); assumption.
  - apply sim_letc; assumption.
  - (* CE_Let *)
    eapply sim_post; [eapply (sim_letc n Sn); eassumption|apply (ce_fv c); eapply CE_LetC; eassumption|].
    apply let_select_sound, HK.
  - (* CE_LetDrop: what is left of the let is its body *)
    eapply sim_post; [eapply (sim_letc n Sn); eassumption|apply (ce_fv c); eapply CE_LetC; eassumption|].
    intros s ρ r0 Hc E. apply (let_select_sound c _ _ _ keep _ HK _ _ _ Hc) in E.
    rewrite !select_none in E by assumption. apply let_nil_sound, E.
Qed.

Theorem ce_preserves c e e' : ce c e e' -> forall n s s' ρ ρ' r s1,
  srel s s' -> envrel (fv e') ρ ρ' -> cok c ρ (fv e) -> eval n s ρ e = Some (r, s1) ->
  exists r' s1', eval n s' ρ' e' = Some (r', s1') /\ rrel r r' /\ srel s1 s1'.
Proof.
  intros H n s s' ρ ρ' r s1 Hs Hρ Hc E. destruct (ce_sim n c e e' H ρ ρ' Hρ Hc s s' Hs r s1 E) as (r' & s1' & E' & Hr & Hs1).
  exists r', s1'. split; [exact E'|]. split; [apply rrel_resR; exact Hr|exact Hs1].
Qed.

End CE.
