(* C01 (passes) — soundness of the modelled constant evaluator, function level: every visit of [cvisit] (all guards on,
   as in the source) is an instance of the relation [CE.ce] of Passes_CEval_C01.v ([cvisit_spec]); [crun] and [ceval] are
   chains of such steps ([ceval_steps]), and a chain of steps preserves the meaning ([steps_preserves],
   [steps_observable]). *)
From Coq Require Import ZArith List Bool String Lia Relations.
From SV Require Import c01.Passes_Model_C01 c01.Passes_Basics_C01 c01.Passes_Compat_C01 c01.Passes_Proofs_C01 c01.Passes_CEval_C01.
Import ListNotations.
Open Scope string_scope.
Import CE.

Fixpoint nodupb (l : list string) : bool :=
  match l with [] => true | x :: r => negb (mem x r) && nodupb r end.

(* the constructs the theorem excludes, decidably: a %plain-let whose binder and right-hand side counts differ and a
   rest lambda without parameter.  Neither can be written in the surface syntax (a let binding is a pair, the rest
   parameter is the identifier after the dot) and no modelled pass produces them. *)
Fixpoint cwf (e : exp) : bool :=
  match e with
  | Num _ | Bool_ _ | Quote _ | Loc _ | Glob _ => true
  | Lam ps r b => (negb r || negb (Nat.eqb (List.length ps) 0)) && cwf b
  | Call f a => cwf f && cwfs a
  | If c t e' => cwf c && cwf t && cwf e'
  | Let xs r b => Nat.eqb (List.length xs) (elen r) && cwfs r && cwf b
  | Begin es => cwfs es
  | Prim _ a => cwfs a
  | SetG _ e' => cwf e'
  end
with cwfs (l : exps) : bool :=
  match l with ENil => true | ECons e r => cwf e && cwfs r end.

Lemma mem_app x a b : mem x (a ++ b) = mem x a || mem x b.
Proof. unfold mem. apply existsb_app. Qed.

Lemma nodupb_NoDup l : nodupb l = true -> NoDup l.
Proof. exact (nodup_by_NoDup _ String.eqb_eq l). Qed.

(* the scope of an applied lambda goes when no parameter was read in the body and every operand is a constant
   (const_evaluation.rs: actually_used_arguments empty, non_constant_arguments empty, rest parameter unused) *)
Definition scope_dropped (c : cenv) (ps : list string) (r : bool) (al : list exp) (u2 : list string) : bool :=
  negb (existsb (fun xe => mem (fst xe) u2) (combine ps al)) &&
  negb (existsb (fun xe => negb (mem (fst xe) u2) && isncb c (snd xe)) (combine ps al)
        || (r && existsb (isncb c) (skipn (List.length ps) al))) &&
  negb (r && match rev ps with rp :: _ => mem rp u2 | [] => false end).

Definition lam_post (c c' : cenv) (ps : list string) (r : bool) (al : list exp) (a' : exps) (b' : exp)
           (u1 u2 : list string) (c1 c2 : bool) : exp * list string * bool :=
  let uout := (u1 ++ flat_map (fun e0 => snd (to_const c e0)) al ++ notin ps u2)%list in
  if scope_dropped c ps r al u2
  then (b', uout, true)
  else match fst (to_const c' b') with
       | Some v =>
           match filter (isncb c) al with
           | [] => (Quote v, uout, true)
           | _ => (Begin (of_list (filter (isncb c) al ++ [Quote v])%list), uout, true)
           end
       | None => (Call (Lam ps r b') a', uout, c1 || c2)
       end.

Lemma cvisit_CallLam c ps r body a0 ar :
  cvisit all_on c (Call (Lam ps r body) (ECons a0 ar)) =
  if (if r then Nat.ltb (elen (ECons a0 ar)) (Nat.pred (List.length ps)) else negb (Nat.eqb (List.length ps) (elen (ECons a0 ar))))
  then (arity_marker, [], false) else
  let '(a', u1, c1) := cvisits all_on c (ECons a0 ar) in
  let c' := (rev (cbinds c ps r (elist a')) ++ c)%list in
  let '(b', u2, c2) := cvisit all_on c' body in
  lam_post c c' ps r (elist a') a' b' u1 u2 c1 c2.
Proof. reflexivity. Qed.

(* the visit of a call looks at the operator only to tell a lambda from the rest *)
Definition is_lam (f : exp) : bool := match f with Lam _ _ _ => true | _ => false end.
Lemma exp_match_same {T} (f : exp) (C : T) : match f with Lam _ _ _ => C | _ => C end = C.
Proof. destruct f; reflexivity. Qed.
Lemma exp_match_not_lam {T} (f : exp) (B : list string -> bool -> exp -> T) (C : T) :
  is_lam f = false -> match f with Lam ps r body => B ps r body | _ => C end = C.
Proof. destruct f; try discriminate; reflexivity. Qed.

Lemma cvisit_Call0 c f :
  cvisit all_on c (Call f ENil) =
  let '(f', u, ch) := cvisit all_on c f in
  match f' with
  | Lam [] false b' => if is_constant c b' then (b', (u ++ read_names c b')%list, ch) else (Call f' ENil, u, ch)
  | Lam (_ :: _) false _ => (arity_marker, u, ch)
  | _ => (Call f' ENil, u, ch)
  end.
Proof. cbn [cvisit]. apply exp_match_same. Qed.

Lemma cvisit_CallG c f a0 ar : is_lam f = false ->
  cvisit all_on c (Call f (ECons a0 ar)) =
  let '(a', u1, c1) := cvisits all_on c (ECons a0 ar) in
  let '(f', u2, c2) := cvisit all_on c f in
  (Call f' a', (u1 ++ u2)%list, c1 || c2).
Proof. intros Hf. cbn [cvisit]. apply exp_match_not_lam, Hf. Qed.

Definition let_keep (c : cenv) (u2 : list string) (xs : list string) (rl : list exp) : list bool :=
  map (fun xe => mem (fst xe) u2 || isncb c (snd xe)) (combine xs rl).

Definition let_post (c : cenv) (xs : list string) (rl : list exp) (b' : exp) (u1 u2 : list string) (c1 c2 : bool)
  : exp * list string * bool :=
  let keep := let_keep c u2 xs rl in
  let uout := (u1 ++ flat_map (fun e0 => snd (to_const c e0)) rl ++ notin xs u2)%list in
  if existsb (fun k => k) keep
  then (Let (select keep xs) (of_list (select keep rl)) b', uout, c1 || c2)
  else (b', uout, true).

Lemma cvisit_Let c xs rhs b :
  cvisit all_on c (Let xs rhs b) =
  let '(rhs', u1, c1) := cvisits all_on c rhs in
  let '(b', u2, c2) := cvisit all_on (rev (zipb c xs (elist rhs')) ++ c)%list b in
  let_post c xs (elist rhs') b' u1 u2 c1 c2.
Proof. reflexivity. Qed.

Lemma cvisit_If c t a b :
  cvisit all_on c (If t a b) =
  let '(t', u1, c1) := cvisit all_on c t in
  if is_constant c t' then
    let '(x', u2, c2) := cvisit all_on c (if truthy_constant c t' then a else b) in
    (x', (u1 ++ read_names c t' ++ u2)%list, c1 || c2)
  else
    let '(a', u2, c2) := cvisit all_on c a in
    let '(b', u3, c3) := cvisit all_on c b in
    (If t' a' b', (u1 ++ read_names c t' ++ u2 ++ u3)%list, c1 || c2 || c3).
Proof. reflexivity. Qed.

Lemma cvisit_Lam c ps r b :
  cvisit all_on c (Lam ps r b) = let '(b', u, ch) := cvisit all_on (cnon ps ++ c)%list b in (Lam ps r b', notin ps u, ch).
Proof. reflexivity. Qed.
Lemma cvisit_Loc c x :
  cvisit all_on c (Loc x) = match cget c x with
      | Some (DNum z) => (Num z, [x], false)
      | Some (DBool b) => (Bool_ b, [x], false)
      | Some _ => (Loc x, [x], false)
      | None => (Loc x, [], false)
      end.
Proof. reflexivity. Qed.
Lemma cvisit_Begin c es : cvisit all_on c (Begin es) = let '(es', u, ch) := cvisits all_on c es in (Begin es', u, ch).
Proof. reflexivity. Qed.
Lemma cvisit_Prim c op a : cvisit all_on c (Prim op a) =
  let '(a', u, ch) := cvisits all_on c a in
  match fold_prim c op (elist a') with Some e1 => (e1, u, true) | None => (Prim op a', u, ch) end.
Proof. reflexivity. Qed.
Lemma cvisit_SetG c x e : cvisit all_on c (SetG x e) = let '(e', u, ch) := cvisit all_on c e in (SetG x e', (cmark c x ++ u)%list, ch).
Proof. reflexivity. Qed.
Lemma cvisits_Cons c e r : cvisits all_on c (ECons e r) =
  let '(e', u1, c1) := cvisit all_on c e in let '(r', u2, c2) := cvisits all_on c r in (ECons e' r', (u1 ++ u2)%list, c1 || c2).
Proof. reflexivity. Qed.

(* no arity marker among these globals.  [nm e] is [has_marker e = false], defined through [nmg] so that the conversion of
   [nm (Call f a)] to [nmg (gvss a ++ gvs f)] at a use of [nm_app] stops at [nmg] and does not compare through [mem] and
   the string literal *)
Definition nmg (G : list string) : Prop := mem "#%arity-mismatch" G = false.
Definition nm (e : exp) : Prop := nmg (gvs e).
Definition nms (l : exps) : Prop := nmg (gvss l).

Lemma gvss_elist l : gvss l = flat_map gvs (elist l).
Proof. induction l; cbn [gvss flat_map elist]; congruence. Qed.

Lemma cwfs_elist l : cwfs l = forallb cwf (elist l).
Proof. induction l; cbn [cwfs forallb elist]; congruence. Qed.
Lemma select_len {A B} keep (xs : list A) (l : list B) : List.length xs = List.length l -> List.length (select keep xs) = List.length (select keep l).
Proof.
  revert xs l; induction keep as [|k keep IH]; intros xs l L; [reflexivity|].
  destruct xs as [|x xs]; destruct l as [|b l]; cbn [List.length] in L; try discriminate; [destruct k; reflexivity|].
  destruct k; cbn [select List.length]; [f_equal|]; apply IH; lia.
Qed.

Lemma ce_cwf_both :
  (forall c e e', ce c e e' -> cwf e = true -> cwf e' = true) /\
  (forall c l l', ces c l l' -> cwfs l = true -> cwfs l' = true).
Proof.
  apply ce_ces_ind; cbn [cwf cwfs]; try solve [intros; andb_split; repeat (apply andb_true_intro; split); auto].
  - (* CE_Prop *) intros c x d e' _ Ha _. destruct d; inversion Ha; reflexivity.
  - (* CE_Emit *) intros c ps r body b' a a' v _ IHa _ _ _ _ W. andb_split.
    destruct (filter (isncb c) (elist a')) eqn:F; [reflexivity|]. cbn [begin_of cwf]. rewrite <- F.
    rewrite cwfs_elist, elist_of_list, forallb_app, (forallb_incl _ _ _ (incl_filter _ _)) by (rewrite <- cwfs_elist; auto).
    reflexivity.
  - (* CE_Fold *) intros c op a a' e1 _ _ Hf _.
    destruct (fold_prim_spec _ _ _ _ Hf) as (? & ? & ? & ? & _ & _ & _ & _ & ->). reflexivity.
  - (* CE_LetC *) intros c xs rhs rhs' b b' Hr IHr _ IHb W. andb_split. rewrite (ces_elen _ _ _ Hr), IHr, IHb by assumption.
    rewrite !andb_true_r. assumption.
  - (* CE_Let *) intros c xs rhs rhs' b b' keep _ IHr _ IHb HK W. andb_split. destruct (keep_ok_len _ _ _ _ _ HK) as [_ L].
    rewrite IHb, andb_true_r, cwfs_elist, elist_of_list, (forallb_incl _ _ _ (select_incl _ _)) by (rewrite <- ?cwfs_elist; auto).
    rewrite andb_true_r. apply Nat.eqb_eq. rewrite elen_length, elist_of_list. apply select_len, L.
Qed.
Definition ce_cwf := proj1 ce_cwf_both.

Lemma const_gvs c e : isncb c e = false -> gvs e = [].
Proof. unfold isncb. destruct e; cbn [to_const fst gvs]; try discriminate; reflexivity. Qed.
Lemma to_const_gvs c e v : fst (to_const c e) = Some v -> gvs e = [].
Proof. intros H. apply (const_gvs c). unfold isncb. rewrite H. reflexivity. Qed.
Lemma is_constant_gvs c t : is_constant c t = true -> gvs t = [].
Proof. destruct t; cbn [is_constant gvs]; try discriminate; reflexivity. Qed.

Lemma gvs_select m c keep rl :
  Forall2 (fun (k : bool) e => k = false -> isncb c e = false) keep rl ->
  mem m (flat_map gvs (select keep rl)) = mem m (flat_map gvs rl).
Proof.
  induction 1 as [|k e keep rl Hk HF IH]; [reflexivity|]. destruct k; cbn [select flat_map]; rewrite !mem_app.
  - rewrite IH. reflexivity.
  - rewrite (const_gvs c e (Hk eq_refl)). cbn. exact IH.
Qed.

Definition usedl (c : cenv) (X u : list string) : Prop := forall x, In x X -> cget c x <> None -> In x u.
Definition used (c : cenv) (e' : exp) (u : list string) : Prop := usedl c (fv e') u.
Definition useds (c : cenv) (l' : exps) (u : list string) : Prop := usedl c (fvs l') u.

(* one visit: unless it hit the arity marker, the result is related to the source by [ce] and every constant variable
   it still mentions is among the names the visit reports as read *)
Definition vok (c : cenv) (e : exp) (r : exp * list string * bool) : Prop :=
  nm (fst (fst r)) -> ce c e (fst (fst r)) /\ used c (fst (fst r)) (snd (fst r)).
Definition voks (c : cenv) (l : exps) (r : exps * list string * bool) : Prop :=
  nms (fst (fst r)) -> ces c l (fst (fst r)) /\ useds c (fst (fst r)) (snd (fst r)).

Lemma used_refl c X : usedl c X X.
Proof. intros x Hx _. exact Hx. Qed.
Lemma used_app c X Y u v : usedl c X u -> usedl c Y v -> usedl c (X ++ Y) (u ++ v).
Proof. intros H1 H2 x Hx Hg. apply in_app_or in Hx. apply in_or_app. destruct Hx; [left; apply H1|right; apply H2]; assumption. Qed.
Lemma used_l c X u v : usedl c X u -> usedl c X (u ++ v).
Proof. intros H x Hx Hg. apply in_or_app. left. apply H; assumption. Qed.
Lemma used_r c X u v : usedl c X v -> usedl c X (u ++ v).
Proof. intros H x Hx Hg. apply in_or_app. right. apply H; assumption. Qed.

Lemma nm_app (a b : list string) : nmg (a ++ b) -> nmg a /\ nmg b.
Proof. unfold nmg. rewrite mem_app. apply orb_false_elim. Qed.

Lemma in_notin ps u x : In x u -> ~ In x ps -> In x (notin ps u).
Proof. intros. unfold notin. apply in_filter_notin; assumption. Qed.

Lemma zipb_cons c x xs e es : zipb c (x :: xs) (e :: es) = bind_of c x e :: zipb c xs es.
Proof. reflexivity. Qed.

Lemma cget_zipb_skip c : forall xs rl c0 x, ~ In x xs -> cget (rev (zipb c xs rl) ++ c0)%list x = cget c0 x.
Proof.
  induction xs as [|y xs IH]; intros [|e rl] c0 x Hn; try reflexivity.
  cbn [zipb rev]. rewrite <- app_assoc. cbn [app].
  rewrite IH by (intros Hi; apply Hn; right; exact Hi).
  unfold bind_of. rewrite cget_cons. destruct (String.eqb x y) eqn:E; [|reflexivity].
  apply String.eqb_eq in E. subst. exfalso. apply Hn. left; reflexivity.
Qed.

Lemma cget_zipb_nodup c : forall xs rl c0 x e0, NoDup xs -> In (x, e0) (combine xs rl) ->
  cget (rev (zipb c xs rl) ++ c0)%list x = fst (to_const c e0).
Proof.
  induction xs as [|y xs IH]; intros [|e rl] c0 x e0 ND Hin; cbn [combine] in Hin; try contradiction.
  cbn [zipb rev]. rewrite <- app_assoc. cbn [app]. inversion ND; subst.
  destruct Hin as [Heq|Hin].
  - inversion Heq; subst. rewrite cget_zipb_skip by assumption.
    unfold bind_of. rewrite cget_cons, String.eqb_refl. destruct (fst (to_const c e0)); reflexivity.
  - apply IH; assumption.
Qed.

Lemma all_some_const c l : forallb (fun e0 => negb (isncb c e0)) l = true ->
  all_some (map (fun e0 => fst (to_const c e0)) l) <> None.
Proof.
  induction l as [|e l IH]; cbn [forallb map all_some]; [discriminate|]. unfold isncb at 1.
  destruct (fst (to_const c e)); [|discriminate]. intros H. specialize (IH H). destruct (all_some _); [discriminate|exact IH].
Qed.

Lemma forallb_negb {A} (f : A -> bool) l : forallb (fun x => negb (f x)) l = negb (existsb f l).
Proof. induction l as [|x l IH]; cbn [forallb existsb]; [reflexivity|]. rewrite IH, negb_orb. reflexivity. Qed.

Lemma nms_of_consts c keep a' :
  Forall2 (fun (k : bool) e => k = false -> isncb c e = false) keep (elist a') ->
  nmg (flat_map gvs (select keep (elist a'))) -> nms a'.
Proof. intros HF H. unfold nms, nmg. rewrite gvss_elist, <- (gvs_select _ c keep _ HF). exact H. Qed.

Lemma begin_of_triple nc q (u : list string) :
  match nc with [] => (q, u, true) | _ => (Begin (of_list (nc ++ [q])), u, true) end = (begin_of nc q, u, true).
Proof. destruct nc; reflexivity. Qed.

Lemma gvs_begin_of nc q : gvs q = [] -> gvs (begin_of nc q) = flat_map gvs nc.
Proof.
  intros Hq. destruct nc as [|e nc]; cbn [begin_of]; [rewrite Hq; reflexivity|].
  cbn [gvs]. rewrite gvss_elist, elist_of_list, flat_map_app. cbn [flat_map]. rewrite Hq, !app_nil_r. reflexivity.
Qed.

(* the body visit never read the variable of a dropped binding, so it is not free in the visited body ([CE.keep_ok]) *)
Lemma keep_ok_intro c fb u2 : forall xs rl c0, List.length xs = List.length rl ->
  (forall x, In x fb -> cget (rev (zipb c xs rl) ++ c0)%list x <> None -> In x u2) ->
  keep_ok c fb (let_keep c u2 xs rl) xs rl.
Proof.
  unfold let_keep. induction xs as [|x xs IH]; intros [|e rl] c0 L H; cbn [List.length] in L; try discriminate;
    cbn [combine map keep_ok]; [exact I|].
  cbn [zipb rev] in H. rewrite <- app_assoc in H. cbn [app] in H.
  split; [|eapply (IH rl (bind_of c x e :: c0)); [lia|exact H]].
  cbn [fst snd]. intros Hf. apply orb_false_iff in Hf. destruct Hf as [Hm Hc]. split; [exact Hc|].
  destruct (in_dec string_dec x xs) as [Hi|Hi]; [right; exact Hi|left]. intros Hfb.
  assert (Hu : In x u2).
  { apply H; [exact Hfb|]. rewrite cget_zipb_skip by exact Hi.
    unfold bind_of. rewrite cget_cons, String.eqb_refl. unfold isncb in Hc. destruct (fst (to_const c e)); [discriminate|discriminate]. }
  apply mem_In in Hu. congruence.
Qed.

(* one scope, of a %plain-let or - by [CE.cbinds_zipb] - of an applied lambda over its packed operands (so Drop is
   LetDrop): the bindings [let_keep] does not flag may go, and the outer constant variables still free in the visited
   body are reported. *)
Lemma scope_spec c xs rl b' u2 : List.length xs = List.length rl -> used (rev (zipb c xs rl) ++ c)%list b' u2 ->
  keep_ok c (fv b') (let_keep c u2 xs rl) xs rl /\
  (forall x, In x (fv b') -> ~ In x xs -> cget c x <> None -> In x (notin xs u2)).
Proof.
  intros L Hu. split; [exact (keep_ok_intro c (fv b') u2 xs rl c L Hu)|].
  intros x Hx Hn Hg. apply in_notin; [|exact Hn]. apply Hu; [exact Hx|]. rewrite cget_zipb_skip by exact Hn. exact Hg.
Qed.

Lemma scope_dropped_cons c p ps r e al u2 : (r = true -> ps <> []) ->
  scope_dropped c (p :: ps) r (e :: al) u2 = negb (mem p u2) && negb (isncb c e) && scope_dropped c ps r al u2.
Proof.
  intros Hps. unfold scope_dropped. cbn [combine existsb fst snd List.length skipn rev].
  assert (Hr : r && match (rev ps ++ [p])%list with rp :: _ => mem rp u2 | [] => false end
               = r && match rev ps with rp :: _ => mem rp u2 | [] => false end).
  { destruct r; [|reflexivity]. destruct (rev ps) eqn:Er; [|reflexivity].
    exfalso. apply Hps; [reflexivity|]. rewrite <- (rev_involutive ps), Er. reflexivity. }
  rewrite Hr.
  destruct (mem p u2), (isncb c e); cbn [negb andb orb]; rewrite ?andb_false_r; reflexivity.
Qed.

Lemma epack_cons c p ps r e al : (r = true -> ps <> []) -> epack c (p :: ps) r (e :: al) = e :: epack c ps r al.
Proof. destruct r, ps; try reflexivity. intros H. destruct (H eq_refl eq_refl). Qed.

(* when the scope of an applied lambda goes, the %plain-let over its packed operands ([cbinds_zipb]) would keep no
   binding, and every operand is a constant *)
Lemma scope_dropped_let c u2 r : forall ps al, arity_okb ps r (List.length al) = true -> scope_dropped c ps r al u2 = true ->
  existsb (fun k => k) (let_keep c u2 ps (epack c ps r al)) = false /\ forallb (fun e0 => negb (isncb c e0)) al = true.
Proof.
  induction ps as [|p ps IH]; intros al Har D.
  - destruct r; [discriminate|]. destruct al; [split; reflexivity|discriminate].
  - assert (Hps : (r = true -> ps <> []) \/ (r = true /\ ps = [])) by (destruct r, ps; auto; left; discriminate).
    destruct Hps as [Hps|[-> ->]].
    + destruct al as [|e al]; [destruct r, ps; try discriminate; destruct (Hps eq_refl eq_refl)|].
      rewrite (scope_dropped_cons _ _ _ _ _ _ _ Hps) in D. apply andb_prop in D. destruct D as [D D']. apply andb_prop in D.
      destruct D as [Hu Hn]. apply negb_true_iff in Hu, Hn.
      destruct (IH al) as [E A]; [destruct r, ps; try exact Har; destruct (Hps eq_refl eq_refl)|exact D'|].
      rewrite (epack_cons _ _ _ _ _ _ Hps). unfold let_keep in *. cbn [combine map existsb forallb fst snd].
      rewrite Hu, Hn, E, A. split; reflexivity.
    + (* p is the rest parameter and takes every operand *)
      assert (Hp : mem p u2 = false /\ forallb (fun e0 => negb (isncb c e0)) al = true).
      { unfold scope_dropped in D. destruct al as [|e al]; cbn [combine existsb fst snd List.length skipn rev app andb orb negb forallb] in *.
        - apply negb_true_iff in D. split; [exact D|reflexivity].
        - rewrite forallb_negb. destruct (mem p u2), (isncb c e), (existsb (isncb c) al); try discriminate. split; reflexivity. }
      destruct Hp as [Hu Hc]. split; [|exact Hc].
      (* so the rest parameter is bound to a constant *)
      unfold let_keep, epack, isncb, rest_exp. cbn [List.length Nat.pred firstn skipn app combine map existsb fst snd]. rewrite Hu.
      destruct (all_some _) eqn:A; [reflexivity|destruct (all_some_const c al Hc A)].
Qed.

Lemma lam_post_vok c ps r body a a' b' u1 u2 c1 c2 :
  arity_okb ps r (elen a') = true ->
  voks c a (a', u1, c1) -> vok (rev (cbinds c ps r (elist a')) ++ c)%list body (b', u2, c2) ->
  vok c (Call (Lam ps r body) a) (lam_post c (rev (cbinds c ps r (elist a')) ++ c)%list ps r (elist a') a' b' u1 u2 c1 c2).
Proof.
  set (al := elist a'). intros Har Hops Hbody. unfold vok, voks in *. cbn [fst snd] in *.
  pose proof Har as Harl. rewrite elen_length in Harl. fold al in Harl.
  destruct (cbinds_zipb c ps r al Harl) as [Ez L].
  (* the scope is that of a %plain-let over the packed operands *)
  assert (Hscope : nm b' -> ce (rev (cbinds c ps r al) ++ c)%list body b' /\
            keep_ok c (fv b') (let_keep c u2 ps (epack c ps r al)) ps (epack c ps r al) /\
            (forall x, In x (fv b') -> ~ In x ps -> cget c x <> None -> In x (notin ps u2))).
  { intros Hnb. destruct (Hbody Hnb) as [Hb Hub]. split; [exact Hb|]. rewrite Ez in Hub. apply scope_spec; [symmetry; exact L|exact Hub]. }
  clear Hbody. unfold lam_post. destruct (scope_dropped c ps r al u2) eqn:D; cbn [fst snd].
  - intros Hnm. destruct (scope_dropped_let _ _ _ _ _ Harl D) as [E Hallb].
    assert (Hna : nms a').
    { apply (nms_of_consts c (map (isncb c) al)); [apply F2_map_isncb|].
      fold al. rewrite <- select_filter, (filter_isncb_nil _ _ Hallb). reflexivity. }
    destruct (Hops Hna) as [Ha _]. destruct (Hscope Hnm) as (Hb & HK & Hsc).
    assert (Hfree : forall x, In x ps -> ~ In x (fv b')).
    { intros x Hi. refine (keep_ok_dropped _ _ _ _ _ _ HK Hi _). rewrite (select_none _ _ E). intros []. }
    split; [eapply CE_Drop; eassumption|].
    apply used_r, used_r. intros x Hx Hg.
    apply Hsc; [exact Hx|intros Hi; exact (Hfree x Hi Hx)|exact Hg].
  - clear D. destruct (fst (to_const (rev (cbinds c ps r al) ++ c)%list b')) as [v|] eqn:Hv.
    + (* the value is emitted *)
      rewrite begin_of_triple. cbn [fst snd]. intros Hnm.
      assert (Hna : nms a').
      { apply (nms_of_consts c (map (isncb c) al)); [apply F2_map_isncb|].
        fold al. rewrite <- select_filter. unfold nm in Hnm. rewrite gvs_begin_of in Hnm by reflexivity. exact Hnm. }
      assert (Hnb : nm b') by (unfold nm; rewrite (to_const_gvs _ b' v Hv); reflexivity).
      destruct (Hops Hna) as [Ha Hua]. destruct (Hscope Hnb) as (Hb & _).
      split; [eapply CE_Emit; eassumption|].
      apply used_l. intros x Hx Hg. apply Hua; [|exact Hg].
      rewrite fvs_elist. fold al. eapply incl_flat_map; [apply incl_filter|]. eapply fv_begin_of; [|exact Hx]. reflexivity.
    + (* the application stays *)
      cbn [fst snd]. intros Hnm. destruct (nm_app _ _ Hnm) as [Hna Hnb].
      destruct (Hops Hna) as [Ha Hua]. destruct (Hscope Hnb) as (Hb & _ & Hsc).
      split; [eapply CE_CallLam; eassumption|].
      apply (used_app c _ _ _ _ Hua), used_r. intros x Hx Hg.
      apply in_filter_inv in Hx. destruct Hx as [Hx Hn]. apply Hsc; assumption.
Qed.

Lemma let_post_vok c xs rhs rhs' b b' u1 u2 c1 c2 :
  List.length xs = elen rhs' ->
  voks c rhs (rhs', u1, c1) -> vok (rev (zipb c xs (elist rhs')) ++ c)%list b (b', u2, c2) ->
  vok c (Let xs rhs b) (let_post c xs (elist rhs') b' u1 u2 c1 c2).
Proof.
  set (rl := elist rhs'). intros L Hops Hbody. unfold vok, voks in *. cbn [fst snd] in *. rewrite elen_length in L. fold rl in L.
  unfold let_post. set (keep := let_keep c u2 xs rl).
  (* both outcomes at once: e' is the rebuilt let, or the body alone when no binding is kept *)
  assert (G : forall e', e' = (if existsb (fun k => k) keep then Let (select keep xs) (of_list (select keep rl)) b' else b') ->
              nm e' -> ce c (Let xs rhs b) e' /\
                       used c e' (u1 ++ flat_map (fun e0 => snd (to_const c e0)) rl ++ notin xs u2)%list);
    [|destruct (existsb (fun k => k) keep); apply G; reflexivity].
  intros e' -> Hnm.
  assert (Hnb : nm b') by (destruct (existsb (fun k => k) keep); [exact (proj2 (nm_app _ _ Hnm))|exact Hnm]).
  destruct (Hbody Hnb) as [Hb Hub]. destruct (scope_spec c xs rl b' u2 L Hub) as [HK Hskip]. fold keep in HK.
  assert (Hna : nms rhs').
  { apply (nms_of_consts c keep); [exact (keep_ok_F2 _ _ _ _ _ HK)|]. fold rl.
    destruct (existsb (fun k => k) keep) eqn:Ex; [|rewrite (select_none _ _ Ex); reflexivity].
    pose proof (proj1 (nm_app _ _ Hnm)) as H1. rewrite gvss_elist, elist_of_list in H1. exact H1. }
  destruct (Hops Hna) as [Ha Hua].
  destruct (existsb (fun k => k) keep) eqn:Ex.
  - split; [eapply CE_Let; eassumption|].
    apply used_app; [|apply used_r]; intros x Hx Hg.
    + apply Hua; [|exact Hg]. rewrite fvs_elist, elist_of_list in Hx. rewrite fvs_elist. eapply incl_flat_map; [apply select_incl|exact Hx].
    + apply in_filter_inv in Hx. destruct Hx as [Hx Hn].
      apply Hskip; [exact Hx| |exact Hg]. intros Hi. exact (keep_ok_dropped _ _ _ _ _ _ HK Hi Hn Hx).
  - split; [eapply CE_LetDrop; eassumption|].
    apply used_r, used_r. intros x Hx Hg.
    apply Hskip; [exact Hx| |exact Hg]. intros Hi. refine (keep_ok_dropped _ _ _ _ _ _ HK Hi _ Hx).
    rewrite (select_none _ _ Ex). intros [].
Qed.

Lemma cvisits_elen c l : elen (fst (fst (cvisits all_on c l))) = elen l.
Proof.
  induction l as [|e l IH]; [reflexivity|]. rewrite cvisits_Cons.
  destruct (cvisit all_on c e) as [[e1 ue] ce1]. destruct (cvisits all_on c l) as [[l1 ul] cl1].
  cbn [fst elen] in *. congruence.
Qed.

Lemma nodupb_select keep xs : nodupb xs = true -> nodupb (select keep xs) = true.
Proof.
  revert xs; induction keep as [|k keep IH]; intros xs H; [reflexivity|].
  destruct xs as [|y xs]; [destruct k; reflexivity|]. cbn [nodupb] in H. apply andb_prop in H. destruct H as [H1 H2].
  destruct k; cbn [select nodupb]; [|apply IH; exact H2].
  rewrite IH by exact H2. rewrite andb_true_r. apply negb_true_iff. apply negb_true_iff in H1.
  apply mem_false. apply mem_false in H1. intros Hi. apply H1. eapply select_incl. exact Hi.
Qed.

Definition visit_ok (e : exp) : Prop := forall c, cwf e = true -> vok c e (cvisit all_on c e).
Definition visits_ok (l : exps) : Prop := forall c, cwfs l = true -> voks c l (cvisits all_on c l).
(* an applied lambda visits the body of its operator under the bindings of the operands *)
Definition visit_ok_with_body (e : exp) : Prop := visit_ok e /\ match e with Lam _ _ b => visit_ok b | _ => True end.

Lemma vok_leaf c e u : fv e = [] -> vok c e (e, u, false).
Proof. intros F _. split; [apply ce_refl|]. intros x Hx. cbn [fst] in Hx. rewrite F in Hx. destruct Hx. Qed.

Lemma visit_ok_Loc x : visit_ok (Loc x).
Proof.
  intros c _. unfold vok. rewrite cvisit_Loc.
  destruct (cget c x) as [[z|b| |a d]|] eqn:G; intros _; cbn [fst snd].
  - (* a number: propagated *) split; [eapply CE_Prop; [exact G|reflexivity]|intros y []].
  - (* a boolean: propagated *) split; [eapply CE_Prop; [exact G|reflexivity]|intros y []].
  - (* '(): stays, reported as read *) split; [constructor|apply used_refl].
  - (* a pair: as '() *) split; [constructor|apply used_refl].
  - (* not a constant *) split; [constructor|]. intros y [<-|[]] Hg. congruence.
Qed.

Lemma visited e c : visit_ok e -> cwf e = true ->
  exists e' u ch, cvisit all_on c e = (e', u, ch) /\ (nm e' -> ce c e e' /\ used c e' u).
Proof. intros H W. pose proof (H c W) as H'. destruct (cvisit all_on c e) as [[e' u] ch]. exists e', u, ch. auto. Qed.
Lemma visiteds l c : visits_ok l -> cwfs l = true ->
  exists l' u ch, cvisits all_on c l = (l', u, ch) /\ (nms l' -> ces c l l' /\ useds c l' u).
Proof. intros H W. pose proof (H c W) as H'. destruct (cvisits all_on c l) as [[l' u] ch]. exists l', u, ch. auto. Qed.

Lemma visit_ok_Lam ps r b : visit_ok b -> visit_ok (Lam ps r b).
Proof.
  intros IHb c W. rewrite cvisit_Lam. cbn [cwf] in W. andb_split.
  destruct (visited b (cnon ps ++ c)%list IHb ltac:(assumption)) as (b' & ub & cb & -> & Hb).
  intros Hnm. cbn [fst snd] in *. destruct (Hb Hnm) as [Hce Hu].
  split; [constructor; exact Hce|]. intros x Hx Hg. cbn [fv] in Hx. apply in_filter_inv in Hx. destruct Hx as [Hx Hn].
  apply in_notin; [|exact Hn]. apply Hu; [exact Hx|]. rewrite cget_cnon. apply mem_false in Hn. rewrite Hn. exact Hg.
Qed.

Lemma visit_ok_Call0 f : visit_ok f -> visit_ok (Call f ENil).
Proof.
  intros IHf c W. cbn [cwf] in W. andb_split. rewrite cvisit_Call0.
  destruct (visited f c IHf ltac:(assumption)) as (f' & uf & cf & -> & Hf). unfold vok.
  assert (Generic : nm (Call f' ENil) -> ce c (Call f ENil) (Call f' ENil) /\ used c (Call f' ENil) uf).
  { intros Hnm. destruct (Hf Hnm) as [Hce Hu]. split; [constructor; [exact Hce|constructor]|exact Hu]. }
  destruct f' as [| | | | |ps' r' b'| | | | | |]; try exact Generic.
  destruct ps' as [|p ps']; destruct r'; try exact Generic; cbn [fst snd]; [|discriminate].
  (* a thunk whose visited body is a constant *)
  destruct (is_constant c b') eqn:Hk; [|exact Generic]. cbn [fst snd].
  intros Hnm. destruct (Hf Hnm) as [Hce Hu].
  split; [eapply CE_Thunk; eassumption|]. refine (used_l c _ _ _ _). intros x Hx. apply Hu. cbn [fv]. rewrite filter_nil_ps. exact Hx.
Qed.

Lemma visit_ok_CallLam ps r body a0 ar : visit_ok body -> visits_ok (ECons a0 ar) -> visit_ok (Call (Lam ps r body) (ECons a0 ar)).
Proof.
  intros IHb IHa c W. cbn [cwf] in W. andb_split. rewrite cvisit_CallLam.
  match goal with |- context [if ?t then _ else _] => destruct t eqn:Har end; [discriminate|].
  pose proof (cvisits_elen c (ECons a0 ar)) as Hlen.
  destruct (visiteds _ c IHa ltac:(assumption)) as (a' & u1 & c1 & Ea & Ha). rewrite Ea in *. cbn [fst] in Hlen |- *.
  destruct (visited body (rev (cbinds c ps r (elist a')) ++ c)%list IHb ltac:(assumption)) as (b' & u2 & c2 & -> & Hb).
  apply lam_post_vok; [|assumption|assumption].
  unfold arity_okb. rewrite Hlen. destruct r.
  - rewrite Har. cbn [negb andb]. assumption.
  - apply negb_false_iff in Har. exact Har.
Qed.

Lemma visit_ok_CallG f a0 ar : is_lam f = false -> visit_ok f -> visits_ok (ECons a0 ar) -> visit_ok (Call f (ECons a0 ar)).
Proof.
  intros Hl IHf IHa c W. cbn [cwf] in W. andb_split. rewrite (cvisit_CallG _ _ _ _ Hl).
  destruct (visiteds _ c IHa ltac:(assumption)) as (a' & u1 & c1 & -> & Ha).
  destruct (visited f c IHf ltac:(assumption)) as (f' & u2 & c2 & -> & Hf).
  intros Hnm. cbn [fst snd] in *. destruct (nm_app _ _ Hnm) as [Hna Hnf].
  destruct (Ha Hna) as [Hca Hua]. destruct (Hf Hnf) as [Hcf Huf].
  split; [constructor; assumption|exact (used_app c _ _ _ _ Hua Huf)].
Qed.

Lemma visit_ok_If t a b : visit_ok t -> visit_ok a -> visit_ok b -> visit_ok (If t a b).
Proof.
  intros IHt IHa IHb c W. cbn [cwf] in W. andb_split. rewrite cvisit_If.
  destruct (visited t c IHt ltac:(assumption)) as (t' & u1 & c1 & -> & Ht). destruct (is_constant c t') eqn:Hk.
  - (* a constant test: one branch is visited *)
    assert (Hnt : nm t') by (unfold nm; rewrite (is_constant_gvs _ _ Hk); reflexivity).
    destruct (Ht Hnt) as [Hct _].
    assert (IHx : visit_ok (if truthy_constant c t' then a else b) /\ cwf (if truthy_constant c t' then a else b) = true)
      by (destruct (truthy_constant c t'); split; assumption).
    destruct (visited _ c (proj1 IHx) (proj2 IHx)) as (x' & u2 & c2 & -> & Hx).
    intros Hnm. cbn [fst snd] in *. destruct (Hx Hnm) as [Hcx Hux].
    split; [|exact (used_r c _ _ _ (used_r c _ _ _ Hux))].
    destruct (truthy_constant c t') eqn:Htr; [eapply CE_IfT|eapply CE_IfF]; eassumption.
  - destruct (visited a c IHa ltac:(assumption)) as (a' & u2 & c2 & -> & Ha).
    destruct (visited b c IHb ltac:(assumption)) as (b' & u3 & c3 & -> & Hb).
    intros Hnm. cbn [fst snd] in *. destruct (nm_app _ _ Hnm) as [Hnt Hnm']. destruct (nm_app _ _ Hnm') as [Hna Hnb].
    destruct (Ht Hnt) as [Hct Hut]. destruct (Ha Hna) as [Hca Hua]. destruct (Hb Hnb) as [Hcb Hub].
    split; [constructor; assumption|]. exact (used_app c _ _ _ _ Hut (used_r c _ _ _ (used_app c _ _ _ _ Hua Hub))).
Qed.

Lemma visit_ok_Let xs rhs b : visits_ok rhs -> visit_ok b -> visit_ok (Let xs rhs b).
Proof.
  intros IHr IHb c W. cbn [cwf] in W. andb_split. rewrite cvisit_Let.
  pose proof (cvisits_elen c rhs) as Hlen.
  destruct (visiteds rhs c IHr ltac:(assumption)) as (rhs' & u1 & c1 & Er & Hr). rewrite Er in *. cbn [fst] in Hlen |- *.
  destruct (visited b (rev (zipb c xs (elist rhs')) ++ c)%list IHb ltac:(assumption)) as (b' & u2 & c2 & -> & Hb).
  match goal with H : Nat.eqb _ _ = true |- _ => apply Nat.eqb_eq in H; rename H into L end. rewrite <- Hlen in L.
  apply let_post_vok; assumption.
Qed.

Lemma visit_ok_Begin es : visits_ok es -> visit_ok (Begin es).
Proof.
  intros IH c W. rewrite cvisit_Begin. destruct (visiteds es c IH W) as (es' & u1 & c1 & -> & He).
  intros Hnm. destruct (He Hnm) as [H1 H2].
  split; [constructor; exact H1|exact H2].
Qed.

Lemma visit_ok_Prim op a : visits_ok a -> visit_ok (Prim op a).
Proof.
  intros IH c W. rewrite cvisit_Prim. destruct (visiteds a c IH W) as (es' & u1 & c1 & -> & He).
  destruct (fold_prim c op (elist es')) as [e1|] eqn:Hf.
  - (* folded: the operands are constants *)
    destruct (fold_prim_spec _ _ _ _ Hf) as (e1' & e2' & x & y & -> & Hal & H1 & H2 & ->).
    intros _. cbn [fst snd].
    assert (Hna : nms es').
    { unfold nms. rewrite gvss_elist, Hal. cbn [flat_map].
      rewrite (to_const_gvs c e1' _ H1), (to_const_gvs c e2' _ H2). reflexivity. }
    destruct (He Hna) as [Ha _]. split; [eapply CE_Fold; eassumption|intros w []].
  - intros Hnm. destruct (He Hnm) as [H1 H2]. split; [constructor; exact H1|exact H2].
Qed.

Lemma visit_ok_SetG g e : visit_ok e -> visit_ok (SetG g e).
Proof.
  intros IH c W. rewrite cvisit_SetG. destruct (visited e c IH W) as (e1 & u1 & c1 & -> & He).
  intros Hnm. cbn [fst snd] in *. apply (nm_app [g]), proj2 in Hnm.
  destruct (He Hnm) as [H1 H2]. split; [constructor; exact H1|exact (used_r c _ _ _ H2)].
Qed.

Lemma visits_ok_Cons e r : visit_ok e -> visits_ok r -> visits_ok (ECons e r).
Proof.
  intros IHe IHr c W. cbn [cwfs] in W. andb_split. rewrite cvisits_Cons.
  destruct (visited e c IHe ltac:(assumption)) as (e1 & u1 & c1 & -> & He).
  destruct (visiteds r c IHr ltac:(assumption)) as (r1 & u2 & c2 & -> & Hr).
  intros Hnm. cbn [fst snd] in *. destruct (nm_app _ _ Hnm) as [Hn1 Hn2].
  destruct (He Hn1) as [H1 H2]. destruct (Hr Hn2) as [H3 H4]. split; [constructor; assumption|exact (used_app c _ _ _ _ H2 H4)].
Qed.

Lemma cvisit_both : (forall e, visit_ok_with_body e) /\ (forall l, visits_ok l).
Proof.
  apply exp_exps_ind; unfold visit_ok_with_body.
  - intros z. split; [|exact I]. intros c _. apply vok_leaf; reflexivity.
  - intros b. split; [|exact I]. intros c _. apply vok_leaf; reflexivity.
  - intros d. split; [|exact I]. intros c _. apply vok_leaf; reflexivity.
  - intros x. split; [apply visit_ok_Loc|exact I].
  - intros g. split; [|exact I]. intros c _. apply vok_leaf; reflexivity.
  - intros ps r b [IHb _]. split; [apply visit_ok_Lam|]; exact IHb.
  - intros f [IHf IHfb] [|a0 ar] IHa; (split; [|exact I]); [apply visit_ok_Call0, IHf|].
    destruct f; try (apply visit_ok_CallG; [reflexivity|exact IHf|exact IHa]). apply visit_ok_CallLam; assumption.
  - intros t [IHt _] a [IHa _] b [IHb _]. split; [apply visit_ok_If; assumption|exact I].
  - intros xs rhs IHr b [IHb _]. split; [apply visit_ok_Let; assumption|exact I].
  - intros es IH. split; [apply visit_ok_Begin, IH|exact I].
  - intros op a IH. split; [apply visit_ok_Prim, IH|exact I].
  - intros g e [IH _]. split; [apply visit_ok_SetG, IH|exact I].
  - intros c _ _. split; [constructor|intros x []].
  - intros e [IHe _] r IHr. apply visits_ok_Cons; assumption.
Qed.

Lemma cvisit_spec c e e' u ch : cwf e = true -> cvisit all_on c e = (e', u, ch) -> has_marker e' = false -> ce c e e'.
Proof. intros W V Hn. pose proof (proj1 (proj1 cvisit_both e) c W) as H. rewrite V in H. apply H, Hn. Qed.

(* the loops (ConstantEvaluatorManager::run, three times): no visit stops the compilation with an ArityMismatch
   ([arity_marker]) *)
Fixpoint cloop_ok (k : nat) (e : exp) : bool :=
  match k with
  | O => true
  | S k' => let '(e', _, ch) := cvisit all_on [] e in negb (has_marker e') && (if ch then cloop_ok k' e' else true)
  end.
Definition crun_ok (e : exp) : bool := let '(e', _, _) := cvisit all_on [] e in negb (has_marker e') && cloop_ok 10 e'.
Definition ceval_ok (e : exp) : bool :=
  crun_ok e && crun_ok (crun all_on e) && crun_ok (crun all_on (crun all_on e)).

Inductive steps : exp -> exp -> Prop :=
| st_refl e : steps e e
| st_step e e1 e2 : ce [] e e1 -> steps e1 e2 -> steps e e2.

Lemma steps_trans a b c : steps a b -> steps b c -> steps a c.
Proof. induction 1; [auto|]. intros. econstructor; eauto. Qed.

Lemma steps_cwf e e2 : steps e e2 -> cwf e = true -> cwf e2 = true.
Proof. induction 1 as [|e e1 e2 H1 _ IH]; [auto|]. intros W. exact (IH (ce_cwf _ _ _ H1 W)). Qed.

Lemma visit_step e e' u ch : cwf e = true -> cvisit all_on [] e = (e', u, ch) -> negb (has_marker e') = true ->
  ce [] e e' /\ cwf e' = true.
Proof.
  intros W V Hnm. apply negb_true_iff in Hnm. pose proof (cvisit_spec [] e e' u ch W V Hnm) as H. split; [exact H|exact (ce_cwf _ _ _ H W)].
Qed.

Lemma cloop_steps : forall k e, cwf e = true -> cloop_ok k e = true -> steps e (cloop all_on k e).
Proof.
  induction k as [|k IH]; intros e W H; cbn [cloop cloop_ok] in *; [constructor|].
  destruct (cvisit all_on [] e) as [[e' u] ch] eqn:V. apply andb_prop in H. destruct H as [Hnm Hk].
  destruct (visit_step e e' u ch W V Hnm) as [Hs W']. econstructor; [exact Hs|]. destruct ch; [exact (IH e' W' Hk)|constructor].
Qed.

Lemma crun_steps e : cwf e = true -> crun_ok e = true -> steps e (crun all_on e).
Proof.
  intros W H. unfold crun, crun_ok in *. destruct (cvisit all_on [] e) as [[e' u] ch] eqn:V.
  apply andb_prop in H. destruct H as [Hnm Hk].
  destruct (visit_step e e' u ch W V Hnm) as [Hs W']. econstructor; [exact Hs|exact (cloop_steps 10 e' W' Hk)].
Qed.

Lemma ceval_steps e : cwf e = true -> ceval_ok e = true -> steps e (ceval all_on e).
Proof.
  intros W H. unfold ceval, ceval_ok in *. apply andb_prop in H. destruct H as [H H3]. apply andb_prop in H. destruct H as [H1 H2].
  pose proof (crun_steps _ W H1) as S1. pose proof (crun_steps _ (steps_cwf _ _ S1 W) H2) as S2.
  exact (steps_trans _ _ _ S1 (steps_trans _ _ _ S2 (crun_steps _ (steps_cwf _ _ (steps_trans _ _ _ S1 S2) W) H3))).
Qed.

(* results after several visits: a chain of related results (closures differ by their rewritten bodies) *)
Definition orel1 (a b : res * state) : Prop := rrel (fst a) (fst b) /\ srel (snd a) (snd b).
Definition ostar : res * state -> res * state -> Prop := clos_refl_trans _ orel1.

Theorem steps_preserves e e2 : steps e e2 -> forall n s s' ρ ρ' r s1,
  srel s s' -> envrel (fv e2) ρ ρ' -> eval n s ρ e = Some (r, s1) ->
  exists r' s1', eval n s' ρ' e2 = Some (r', s1') /\ ostar (r, s1) (r', s1').
Proof.
  induction 1 as [e|e e1 e2 H1 H2 IH]; intros n s s' ρ ρ' r s1 Hs Hρ E.
  - destruct (ce_preserves [] e e (ce_refl e []) n s s' ρ ρ' r s1 Hs Hρ (cok_nil ρ _) E) as (r' & s1' & E' & Hr).
    exists r', s1'. split; [exact E'|apply rt_step; exact Hr].
  - destruct (ce_preserves [] e e1 H1 n s s ρ ρ r s1 (srel_refl s) (envrel_refl _ ρ) (cok_nil ρ _) E) as (r1 & s11 & E1 & Hr).
    destruct (IH n s s' ρ ρ' r1 s11 Hs Hρ E1) as (r' & s1' & E' & Ho). exists r', s1'. split; [exact E'|].
    apply rt_trans with (y := (r1, s11)); [apply rt_step; exact Hr|exact Ho].
Qed.

Lemma orel1_render a b : orel1 a b -> render_res (Some a) = render_res (Some b).
Proof.
  destruct a as [r s1], b as [r' s1']. intros [Hr Hs]. cbn [fst snd] in *. apply (render_rel vrel vrel_fo); [|exact Hs].
  destruct Hr; [assumption|exact I].
Qed.

Lemma ostar_render a b : ostar a b -> render_res (Some a) = render_res (Some b).
Proof. induction 1; [apply orel1_render; assumption|reflexivity|congruence]. Qed.

Theorem steps_observable e e2 : steps e e2 -> forall n r, eval n (ENone, []) ENone e = Some r ->
  exists r', eval n (ENone, []) ENone e2 = Some r' /\ render_res (Some r) = render_res (Some r').
Proof.
  intros H n [r s1] E.
  destruct (steps_preserves e e2 H n (ENone, []) (ENone, []) ENone ENone r s1 (srel_refl _) (envrel_refl _ _) E) as (r' & s1' & E' & Ho).
  exists (r', s1'). split; [exact E'|apply ostar_render, Ho].
Qed.

(* witness against the variant without the operand-scope guard (defect e50bef37) *)
Definition off_operand_scope := {| flatten_checks_outer_rest := true; flatten_checks_inner_rest := true; flatten_checks_operand_ids := true;
     plain_let_skips_short_calls := true; plain_let_builds_const_list := true; prune_if_quote_false_is_false := true;
     consteval_checks_rest_is_used := true; consteval_checks_surplus_operands := true; consteval_emits_value := true;
     consteval_checks_set_idents := true; consteval_static_arity := true;
     consteval_operands_outer_scope := false |}.
(* ((lambda (x) ((lambda (x y) y) 5 x)) (begin (display 1) 7)) *)
Definition w_scope : exp :=
  Call (Lam ["x"] false (Call (Lam ["x"; "y"] false (Loc "y")) (two (Num 5) (Loc "x"))))
       (one (Begin (two (Prim PDisplay (one (Num 1))) (Num 7)))).

(* non-vacuity: programs the constant evaluator rewrites, within the hypotheses of the theorem *)
Definition nv_ce1 : exp :=  (* ((lambda (a b . r) (if a (begin (display b) r) 0)) '(1) (begin (display 2) 3) 4 5) *)
  Call (Lam ["a"; "b"; "r"] true (If (Loc "a") (Begin (two (Prim PDisplay (one (Loc "b"))) (Loc "r"))) (Num 0)))
       (ECons (Quote (DCons (DNum 1) DNil)) (ECons (Begin (two (Prim PDisplay (one (Num 2))) (Num 3))) (two (Num 4) (Num 5)))).
Definition nv_ce2 : exp :=  (* ((lambda (a b) a) '(1 2) (display 1)) *)
  w_f27.
Definition nv_ce3 : exp :=  (* ((lambda (a) (display (#%prim.+ a ((lambda (b) b) 2)))) 40) *)
  Call (Lam ["a"] false (Prim PDisplay (one (Prim PAddC (two (Loc "a") (Call (Lam ["b"] false (Loc "b")) (one (Num 2))))))))
       (one (Num 40)).
