(* C01 — property theorems (proof part): the big-step evaluators of lib/Core*.v are simulated by the compilers
   + VMs of lib/Bytecode*.v.  Each theorem is an instance of a lemma of the Proofs files or a few steps from one (the
   whole-program simulation for Core, set! on a global and the CALLGLOBAL fusion are proved here); the theorems'
   statements (not the four examples') are checked again, word for word, in Pins_C01.v.  The relations (vrel, R1, R2,
   Grel, frame_caps, code_at, returns_from, outcome, tail_ok) are defined in Proofs_C01.v.

   Fragment: constants, variables, globals, lambda with fixed arity or a rest parameter and flat closures,
   application (FUNC, or TAILCALL in tail position), if, let, begin, integer/boolean primitives; assignment
   after assignment conversion (every assigned local rebound to a box, reads and writes through #%box /
   #%unbox / #%set-box! on a heap, set! on a global is SET), with the boxing pass itself
   (C01_assign_convert_correct, C01_end_to_end_set); and the SETLOCAL refinement (an assigned local that no
   lambda of its scope captures stays in its stack slot; premise [L.wf]: LSetL targets a slot of the current
   frame and let binders do not shadow visible locals, as after the engine's renaming pass).
   NOT proved: correctness of assign_convertL against the reference semantics, hence no end-to-end statement
   for the SETLOCAL variant (it has the compile/VM simulation only).
   Not covered by any theorem here: MOVEREADLOCAL (last-usage moves), whole-program equivalence of the
   CALLGLOBAL peephole (only the step-level fusion lemmas C01_callglobal_fusion / C01_callglobaltail_fusion), the other
   source-to-source passes in front of code generation (Properties_C01p.v treats some of them); these are
   tied by the differential check only. *)
From Coq Require Import String.
From Coq Require Import ZArith List Bool Lia Arith.
From SV Require Import lib.Core lib.CoreS lib.Bytecode lib.BytecodeS c01.Proofs_C01.
From SV Require c01.Proofs_C01_set c01.Proofs_C01_setl c01.Proofs_C01_conv.
From SV Require Import lib.CoreL lib.BytecodeL.
Import ListNotations.
Open Scope list_scope.

(* Compiled code pushes exactly its value: for every expression e, every fuel n, every environment r and
   every VM state related to r (locals in the frame's slots / the closure's captures, globals related),
   if ceval yields a value then the VM, started at the code of e, reaches the end of that code with the
   related value pushed and everything below unchanged; if ceval yields an error the VM raises the same
   error.  [length fs + n <= limit]: the evaluation depth stays below the frame limit. *)
Theorem C01_simulation_L0 :
  forall limit MG G, Grel false G MG ->
  forall n r e res, ceval G n r e = Some res ->
  forall ce C pc below slots caps fs,
    code_at C pc (compile false ce (length slots) false e) ->
    length below = cur_sp fs -> frame_caps fs caps ->
    R1 false r ce slots caps -> R2 e r ce -> length fs + n <= limit ->
    match res with
    | Val v => exists mv, vrel false v mv /\
        star limit (mkVM C pc (below ++ slots) fs MG)
             (mkVM C (pc + length (compile false ce (length slots) false e)) (below ++ slots ++ [mv]) fs MG)
    | Err k => exists s', star limit (mkVM C pc (below ++ slots) fs MG) s' /\ vm_step limit s' = SErr k
    end.
Proof.
  intros limit MG G HG n r e res Hev ce C pc below slots caps fs Hc Hb Hf H1 H2 Hl.
  exact (sim_all limit false MG G HG n r e res Hev ce false C pc _ below slots _ caps fs (conj Hc eq_refl) eq_refl
           Hb Hf H1 H2 Hl (tail_ok_false _ _ _ _)).
Qed.

(* With tail calls: the same statement for code compiled with TAILCALL in tail positions.  In tail
   position ([tail = true], which requires the code after e to be a return sequence: [tail_ok]) the VM
   reaches the state in which the current frame has returned the related value to its caller
   ([outcome true]); otherwise the value is pushed as in L0 ([outcome false]). *)
Theorem C01_simulation_tail :
  forall limit MG G, Grel true G MG ->
  forall n r e res, ceval G n r e = Some res ->
  forall ce tail C pc below slots caps fs,
    code_at C pc (compile true ce (length slots) tail e) ->
    length below = cur_sp fs -> frame_caps fs caps ->
    R1 true r ce slots caps -> R2 e r ce -> length fs + n <= limit ->
    tail_ok tail C (pc + length (compile true ce (length slots) tail e)) (length slots) fs ->
    match res with
    | Val v => exists mv, vrel true v mv /\
        outcome limit MG tail (mkVM C pc (below ++ slots) fs MG) C
                (pc + length (compile true ce (length slots) tail e)) below slots fs mv
    | Err k => exists s', star limit (mkVM C pc (below ++ slots) fs MG) s' /\ vm_step limit s' = SErr k
    end.
Proof.
  intros limit MG G HG n r e res Hev ce tail C pc below slots caps fs Hc.
  exact (sim_all limit true MG G HG n r e res Hev ce tail C pc _ below slots _ caps fs (conj Hc eq_refl) eq_refl).
Qed.

(* Whole programs (global definitions, then a main expression), from the initial states: the VM run
   ends with the related value / the same error.  Holds for both compilation modes. *)
Theorem C01_program_simulation :
  forall limit tco n ds main res,
  run_program n ds main = Some res -> n <= limit ->
  match res with
  | Val v => exists k mv s', vrel tco v mv /\ vm_program limit tco false k ds main = RDone mv s'
  | Err ek => exists k, vm_program limit tco false k ds main = RErr ek
  end.
Proof.
  intros limit tco n ds main res H Hn. unfold run_program in H.
  destruct (run_defs n prim_env ds) as [[G'|ek]|] eqn:Hd; try discriminate.
  - destruct (sim_defs limit tco n ds prim_env prim_globals (Grel_prims tco) Hn _ Hd) as (k1 & MG' & HG' & Hk1).
    pose proof (sim_unit limit tco G' MG' HG' n main res _ _ H Hn (fun mv => runs_to_top limit _ mv MG')) as Ht.
    destruct res as [v|ek].
    + destruct Ht as (mv & Hrel & k2 & Hrun). exists (Nat.max k1 k2), mv. eexists. split; eauto.
      unfold vm_program. rewrite Hk1 by lia. apply Hrun. lia.
    + destruct Ht as (k2 & Hrun). exists (Nat.max k1 k2).
      unfold vm_program. rewrite Hk1 by lia. apply Hrun. lia.
  - inversion H; subst res.
    destruct (sim_defs limit tco n ds prim_env prim_globals (Grel_prims tco) Hn _ Hd) as (k1 & Hk1).
    exists k1. unfold vm_program. rewrite Hk1; auto.
Qed.

(* ... and therefore prints the same canonical string *)
Theorem C01_program_render :
  forall limit tco n ds main res,
  run_program n ds main = Some res -> n <= limit ->
  exists k, render_run (vm_program limit tco false k ds main) = render_result (Some res).
Proof.
  intros limit tco n ds main res H Hn.
  pose proof (C01_program_simulation limit tco n ds main res H Hn) as Hs. destruct res as [v|ek].
  - destruct Hs as (k & mv & s' & Hrel & Hrun). exists k. rewrite Hrun. simpl.
    rewrite (vrel_canon _ _ _ Hrel). auto.
  - destruct Hs as (k & Hrun). exists k. rewrite Hrun. auto.
Qed.

(* a variable evaluates to the innermost binding *)
Theorem C01_var_latest :
  (forall G n r x v, ceval G (S n) ((x, v) :: r) (EVar x) = Some (Val v)) /\
  (forall G n r x e1 v, ceval G n r e1 = Some (Val v) ->
     ceval G (S n) r (ELet [(x, e1)] (EVar x)) = Some (Val v)).
Proof.
  split; [exact var_latest|]. intros G n r x e1 v H. simpl. rewrite H. destruct n; [discriminate|].
  simpl. rewrite String.eqb_refl. auto.
Qed.

(* the unevaluated branch of if and an uncalled lambda body contribute nothing *)
Theorem C01_dead_code_silent : forall G n r c t e1 e2 v,
  ceval G n r c = Some (Val v) ->
  (truthy v = true -> ceval G (S n) r (EIf c t e1) = ceval G (S n) r (EIf c t e2)) /\
  (truthy v = false -> ceval G (S n) r (EIf c e1 t) = ceval G (S n) r (EIf c e2 t)) /\
  (forall ps rest body, ceval G (S n) r (ELam ps rest body) = Some (Val (VClo ps rest body r))).
Proof. exact dead_code_silent. Qed.

(* the callee's parameters are bound to exactly the evaluated operands (a rest parameter to the list of
   the surplus ones) *)
Theorem C01_call_args_exact : forall G n r f args ps rest body r' vs,
  evals (ceval G n r) args = Some (inl vs) ->
  ceval G n r f = Some (Val (VClo ps rest body r')) ->
  ceval G (S n) r (EApp f args) =
    match call_args ps rest vs with
    | Some (xs, ws) => ceval G n (bind xs ws r') body
    | None => Some (Err EArity)
    end /\
  (rest = None -> length ps = length vs -> call_args ps rest vs = Some (ps, vs)) /\
  (rest = None -> length ps <> length vs -> call_args ps rest vs = None) /\
  (forall r0, rest = Some r0 -> length ps <= length vs ->
     call_args ps rest vs = Some (ps ++ [r0], firstn (length ps) vs ++ [VList (skipn (length ps) vs)])) /\
  (forall xs ws, call_args ps rest vs = Some (xs, ws) -> NoDup xs ->
     forall i x v, nth_error xs i = Some x -> nth_error ws i = Some v -> Core.lookup x (bind xs ws r') = Some v) /\
  length vs = length args.
Proof. exact call_args_exact. Qed.

(* Rest parameters: a call (FUNC) of a variadic closure related to (lambda (ps . r) body) with at least |ps|
   related operands enters the body with the frame slots = the first |ps| operands followed by the LIST of
   the remaining ones, related to the source binding of ps ++ [r]; fewer operands is the arity error on
   both sides (C01_simulation_L0 / _tail cover whole evaluations through such calls, tail calls included). *)
Theorem C01_simulation_rest : forall limit tco MG ps r body r' clo vs mvs xs ws C pcC st0 fs,
  vrel tco (VClo ps (Some r) body r') clo ->
  call_args ps (Some r) vs = Some (xs, ws) -> Forall2 (vrel tco) vs mvs ->
  nth_error C pcC = Some (FUNC (length mvs)) -> S (length fs) < limit ->
  exists mws code caps fvs,
    clo = MClo (length ps + 1) true code caps /\
    xs = ps ++ [r] /\ ws = firstn (length ps) vs ++ [VList (skipn (length ps) vs)] /\
    mws = firstn (length ps) mvs ++ [MList (skipn (length ps) mvs)] /\
    vm_step limit (mkVM C pcC ((st0 ++ mvs) ++ [clo]) fs MG) =
      SNext (mkVM code 0 (st0 ++ mws) (mkFrame (length st0) clo (S pcC) C :: fs) MG) /\
    Forall2 (vrel tco) ws mws /\
    R1 tco (bind xs ws r') (body_cenv xs fvs) mws caps.
Proof.
  intros limit tco MG ps r body r' clo vs mvs xs ws C pcC st0 fs Hrel Hc HF Hi Hl.
  inversion Hrel; subst.
  destruct (Rel.adjust_ok (vrel tco) VList MList (vr_list tco) ps (Some r) vs xs ws mvs st0 Hc HF)
    as (mws & Hadj & HFw & Hxs & Hlw & Hmws).
  specialize (Hmws ltac:(discriminate)).
  unfold call_args in Hc. destruct (Nat.leb (length ps) (length vs)) eqn:E; [|discriminate]. apply Nat.leb_le in E.
  inversion Hc; subst xs ws.
  cbn [params] in *. rewrite app_length in *. cbn [length] in *.
  exists mws. eexists. exists caps, fvs.
  split; [reflexivity|]. split; auto. split; auto. split; auto. split.
  - eapply (call_step_func limit MG); eauto.
    rewrite Hmws, app_length, firstn_length. cbn [length]. rewrite <- (Forall2_length _ _ _ _ _ HF). lia.
  - split; auto. apply Rel.entry_R1; auto. rewrite app_length. auto.
Qed.

(* The CALLGLOBAL super-instruction (program.rs: PUSH g ; FUNC n => CALLGLOBAL g ; FUNC n): one step of the
   fused form does what the two steps of the pair do — same error, or the same next state up to the
   instruction array it continues in / returns to.  For the tail pair with a closure callee the two forms
   reach the same state (the frame is reused, no return address is recorded). *)
Theorem C01_callglobal_fusion : forall limit C C' pc g n st fs MG,
  nth_error C pc = Some (PUSH g) -> nth_error C (S pc) = Some (FUNC n) ->
  nth_error C' pc = Some (CALLGLOBAL g) -> nth_error C' (S pc) = Some (FUNC n) ->
  match vm_step limit (mkVM C pc st fs MG) with
  | SErr k => vm_step limit (mkVM C' pc st fs MG) = SErr k
  | SNext s1 =>
      match vm_step limit s1, vm_step limit (mkVM C' pc st fs MG) with
      | SErr k, r => r = SErr k
      | SStuck, r => r = SStuck
      | SNext a, SNext b =>
          (code a = C /\ b = with_code C' a) \/
          (exists fr, frames a = fr :: fs /\ f_ret_code fr = C /\
                      b = mkVM (code a) (ip a) (stack a) (mkFrame (f_sp fr) (f_fn fr) (f_ret_ip fr) C' :: fs) (globals a))
      | _, _ => False
      end
  | _ => False
  end.
Proof.
  intros limit C C' pc g n st fs MG H1 H2 H3 H4.
  unfold vm_step at 1. cbn [code ip stack frames globals]. rewrite H1.
  destruct (Core.lookup g MG) as [f|] eqn:Hg.
  - unfold next_with. cbn [code ip stack frames globals].
    unfold vm_step at 1. cbn [code ip stack frames globals]. rewrite H2, unsnoc_app.
    unfold vm_step. cbn [code ip stack frames globals]. rewrite H3, H4, Hg.
    destruct f; cbn [do_call]; auto.
    + unfold call_prim. cbn [code ip stack frames globals].
      destruct (Nat.leb n (length st)); auto.
      destruct (prim_sem p _); auto; try (left; split; auto; fail).
    + destruct (adjust_arity arity rest n st) as [[st'|]|k]; auto.
      destruct (Nat.leb arity (length st')); auto.
      cbn [code ip stack frames globals].
      destruct (Nat.leb limit (S (length fs))); auto;
        try (right; eexists; split; [reflexivity|]; split; reflexivity).
  - unfold vm_step. cbn [code ip stack frames globals]. rewrite H3, H4, Hg. auto.
Qed.

Theorem C01_callglobaltail_fusion : forall limit C C' pc g n st fs MG arity rest body caps,
  nth_error C pc = Some (PUSH g) -> nth_error C (S pc) = Some (TAILCALL n) ->
  nth_error C' pc = Some (CALLGLOBALTAIL g) -> nth_error C' (S pc) = Some (TAILCALL n) ->
  Core.lookup g MG = Some (MClo arity rest body caps) ->
  exists s1, vm_step limit (mkVM C pc st fs MG) = SNext s1 /\
             vm_step limit s1 = vm_step limit (mkVM C' pc st fs MG).
Proof.
  intros limit C C' pc g n st fs MG arity rest body caps H1 H2 H3 H4 Hg.
  eexists. split.
  - unfold vm_step. cbn [code ip stack frames globals]. rewrite H1, Hg. reflexivity.
  - unfold vm_step. cbn [code ip stack frames globals]. rewrite H2, H3, H4, Hg, unsnoc_app.
    cbn [do_tail_call]. cbn [code ip stack frames globals]. reflexivity.
Qed.

(* Names: S.* is the VM with a heap (lib/BytecodeS.v); vrel / R1 / R2 / Grel / Srel / outcome / tail_ok of
   Proofs_C01_set.v are written with the prefix [Proofs_C01_set.], since the L0 relations have the same names. *)

(* Compiled code of the converted language: as C01_simulation_tail, with the box store / heap ([Proofs_C01_set.Srel]:
   pointwise related, a source box and its VM box have the same address) and the globals ([Grel]) threaded:
   the final store / heap and globals are again related. *)
Theorem C01_simulation_set :
  forall limit tco n r e st res, beval n r e st = Some res ->
  forall ce tail C pc below slots caps fs MG H,
    code_at C pc (S.compile tco ce (length slots) tail e) ->
    length below = S.cur_sp fs -> Proofs_C01_set.frame_caps fs caps ->
    Proofs_C01_set.R1 tco r ce slots caps -> Proofs_C01_set.R2 e r ce ->
    Proofs_C01_set.Srel tco (b_store st) H -> Proofs_C01_set.Grel tco (b_glob st) MG ->
    length fs + n <= limit ->
    Proofs_C01_set.tail_ok tail C (pc + length (S.compile tco ce (length slots) tail e)) (length slots) fs ->
    match res with
    | BVal v st' => exists mv MG' H', Proofs_C01_set.vrel tco v mv /\ Proofs_C01_set.Srel tco (b_store st') H' /\
        Proofs_C01_set.Grel tco (b_glob st') MG' /\
        Proofs_C01_set.outcome limit tail (S.mkVM C pc (below ++ slots) fs MG H) C
          (pc + length (S.compile tco ce (length slots) tail e)) below slots fs mv MG' H'
    | BErr k => exists s', S.star limit (S.mkVM C pc (below ++ slots) fs MG H) s' /\ S.vm_step limit s' = S.SErr k
    end.
Proof.
  intros limit tco n r e st res Hev ce tail C pc below slots caps fs MG H Hc.
  exact (Proofs_C01_set.sim_all limit tco n r e st res Hev ce tail C pc _ below slots _ caps fs MG H (conj Hc eq_refl) eq_refl).
Qed.

(* whole programs with define / set! / boxes, from the initial states, both compilation modes *)
Theorem C01_program_simulation_set :
  forall limit tco n ds main res,
  brun_program n ds main = Some res -> n <= limit ->
  match res with
  | BVal v _ => exists k mv s', Proofs_C01_set.vrel tco v mv /\ S.vm_program limit tco false k ds main = S.RDone mv s'
  | BErr ek => exists k, S.vm_program limit tco false k ds main = S.RErr ek
  end.
Proof.
  intros limit tco n ds main res H Hn. unfold brun_program in H.
  pose proof (Proofs_C01_set.s_sim_defs limit tco n ds (mkB [] bprim_globals) S.prim_globals [] (Forall2_nil _)
                (Proofs_C01_set.s_Grel_prims tco) Hn) as Hd.
  destruct (brun_defs n (mkB [] bprim_globals) ds) as [[st'|ek]|]; try discriminate.
  - destruct (Hd _ eq_refl) as (k1 & MG' & H' & HS' & HG' & Hk1).
    pose proof (Proofs_C01_set.s_sim_unit limit tco st' MG' H' HS' HG' n main res _ _ H Hn (HeapVM_C01.runs_to_top limit _)) as Ht.
    destruct res as [v st2|ek].
    + destruct Ht as (mv & MG2 & H2 & Hrel & _ & _ & k2 & Hrun). exists (Nat.max k1 k2), mv. eexists. split; eauto.
      unfold S.vm_program. rewrite Hk1 by lia. apply Hrun. lia.
    + destruct Ht as (k2 & Hrun). exists (Nat.max k1 k2).
      unfold S.vm_program. rewrite Hk1 by lia. apply Hrun. lia.
  - inversion H; subst res.
    destruct (Hd _ eq_refl) as (k1 & Hk1).
    exists k1. unfold S.vm_program. rewrite Hk1; auto.
Qed.

Theorem C01_program_render_set :
  forall limit tco n ds main res,
  brun_program n ds main = Some res -> n <= limit ->
  exists k, S.render_run (S.vm_program limit tco false k ds main) = render_bresult (Some res).
Proof.
  intros limit tco n ds main res H Hn.
  pose proof (C01_program_simulation_set limit tco n ds main res H Hn) as Hs. destruct res as [v st|ek].
  - destruct Hs as (k & mv & s' & Hrel & Hrun). exists k. rewrite Hrun. simpl.
    rewrite (Proofs_C01_set.s_vrel_canon _ _ _ Hrel). auto.
  - destruct Hs as (k & Hrun). exists k. rewrite Hrun. auto.
Qed.

(* set! on a global yields the OLD value; the variable then evaluates to the assigned value *)
Theorem C01_set_returns_old : forall n r g e st v st1 old,
  beval n r e st = Some (BVal v st1) -> Core.lookup g (b_glob st1) = Some old ->
  beval (S n) r (BSetG g e) st = Some (BVal old (mkB (b_store st1) ((g, v) :: b_glob st1))) /\
  Core.lookup g ((g, v) :: b_glob st1) = Some v.
Proof. intros n r g e st v st1 old He Hg. simpl. rewrite He, Hg. split; auto. rewrite String.eqb_refl. auto. Qed.

(* The SETLOCAL refinement: as C01_simulation_set for the language with in-place assignment of un-captured
   locals.  The source environment r' after the evaluation and the frame's slots after the run are again
   related ([R1 r' ce slots']), nothing but variable slots changed ([frame_ok]: operands already pushed and
   other temporaries are untouched), [post] = returned to the caller (tail) / value pushed above slots'. *)
Theorem C01_simulation_setlocal :
  forall limit tco n r e st res, leval n r e st = Some res ->
  forall ce tail C pc below slots caps fs MG H,
    code_at C pc (L.compile tco ce (length slots) tail e) ->
    length below = S.cur_sp fs -> Proofs_C01_setl.frame_caps fs caps ->
    Proofs_C01_setl.R1 tco r ce slots caps -> Proofs_C01_setl.R2 e r ce ->
    L.wf ce (length slots) e = true -> Proofs_C01_setl.ce_lt ce (length slots) -> Proofs_C01_setl.slots_inj ce ->
    Proofs_C01_setl.Srel tco (l_store st) H -> Proofs_C01_setl.Grel tco (l_glob st) MG ->
    length fs + n <= limit ->
    Proofs_C01_setl.tail_ok tail C (pc + length (L.compile tco ce (length slots) tail e)) (length slots) fs ->
    match res with
    | LVal v r' st' => exists mv MG' H', Proofs_C01_setl.vrel tco v mv /\ Proofs_C01_setl.Srel tco (l_store st') H' /\
        Proofs_C01_setl.Grel tco (l_glob st') MG' /\
        Proofs_C01_setl.post limit tco tail r' ce caps (S.mkVM C pc (below ++ slots) fs MG H) C
          (pc + length (L.compile tco ce (length slots) tail e)) below slots fs mv MG' H'
    | LErr k => exists s', S.star limit (S.mkVM C pc (below ++ slots) fs MG H) s' /\ S.vm_step limit s' = S.SErr k
    end.
Proof.
  intros limit tco n r e st res Hev ce tail C pc below slots caps fs MG H Hc Hb Hfc H1 H2 Hwf Hlt Hinj HS HG Hl Ht.
  pose proof (Proofs_C01_setl.sim_all limit tco n r e st res Hev ce tail C pc _ below slots _ caps fs MG H (conj Hc eq_refl) eq_refl
                Hb Hfc H1 H2 Hwf Hlt Hinj HS HG Hl Ht) as Hs.
  destruct res; [exact (proj2 Hs)|exact Hs].
Qed.

(* whole programs of the SETLOCAL variant ([L.wf_program]: every definition and the main expression are
   well formed w.r.t. the empty compile-time environment) *)
Theorem C01_program_simulation_setlocal :
  forall limit tco n ds main res,
  lrun_program n ds main = Some res -> n <= limit -> L.wf_program ds main = true ->
  match res with
  | LVal v _ _ => exists k mv s', Proofs_C01_setl.vrel tco v mv /\ L.vm_program limit tco false k ds main = S.RDone mv s'
  | LErr ek => exists k, L.vm_program limit tco false k ds main = S.RErr ek
  end.
Proof.
  intros limit tco n ds main res H Hn Hwp. unfold lrun_program in H.
  unfold L.wf_program in Hwp. apply andb_true_iff in Hwp. destruct Hwp as [Hwd Hwm].
  pose proof (Proofs_C01_setl.s_sim_defs limit tco n ds (mkL [] lprim_globals) S.prim_globals [] (Forall2_nil _)
                (Proofs_C01_setl.s_Grel_prims tco) Hn Hwd) as Hd.
  destruct (lrun_defs n (mkL [] lprim_globals) ds) as [[st'|ek]|]; try discriminate.
  - destruct (Hd _ eq_refl) as (k1 & MG' & H' & HS' & HG' & Hk1).
    pose proof (Proofs_C01_setl.s_sim_unit limit tco st' MG' H' HS' HG' n main res _ _ H Hn Hwm (HeapVM_C01.runs_to_top limit _)) as Ht.
    destruct res as [v r2 st2|ek].
    + destruct Ht as (mv & MG2 & H2 & Hrel & _ & _ & k2 & Hrun). exists (Nat.max k1 k2), mv. eexists. split; eauto.
      unfold L.vm_program. rewrite Hk1 by lia. apply Hrun. lia.
    + destruct Ht as (k2 & Hrun). exists (Nat.max k1 k2).
      unfold L.vm_program. rewrite Hk1 by lia. apply Hrun. lia.
  - inversion H; subst res.
    destruct (Hd _ eq_refl) as (k1 & Hk1).
    exists k1. unfold L.vm_program. rewrite Hk1; auto.
Qed.

Theorem C01_program_render_setlocal :
  forall limit tco n ds main res,
  lrun_program n ds main = Some res -> n <= limit -> L.wf_program ds main = true ->
  exists k, S.render_run (L.vm_program limit tco false k ds main) = render_lresult (Some res).
Proof.
  intros limit tco n ds main res H Hn Hwp.
  pose proof (C01_program_simulation_setlocal limit tco n ds main res H Hn Hwp) as Hs. destruct res as [v r st|ek].
  - destruct Hs as (k & mv & s' & Hrel & Hrun). exists k. rewrite Hrun. simpl.
    rewrite (Proofs_C01_setl.s_vrel_canon _ _ _ Hrel). auto.
  - destruct Hs as (k & Hrun). exists k. rewrite Hrun. auto.
Qed.

Open Scope string_scope.
Example C01_example_setlocal :
  let I z := SConst (KInt z) in let V := SVar in let A f a := SApp (SVar f) a in
  (* (define (h a) (+ a (begin (set! a 10) a) a))  (h 1) = 21 : a stays in its slot, SETLOCAL *)
  let ds := [("h", SLam ["a"] None (A "+" [V "a"; SSeq (SSet "a" (I 10%Z)) (V "a"); V "a"]))] in
  let main := A "h" [I 1%Z] in
  render_sresult (srun_program 100 ds main) = "OK I21"%string /\
  render_lresult (lrun_program 100 (L.conv_defs ds) (assign_convertL main)) = "OK I21"%string /\
  S.render_run (L.vm_program 100 true true 1000 (L.conv_defs ds) (assign_convertL main)) = "OK I21"%string /\
  L.wf_program (L.conv_defs ds) (assign_convertL main) = true /\
  In (SETLOCAL 0) (match L.compile_define true "h" (snd (hd ("", LConst KVoid) (L.conv_defs ds))) with
                   | MKCLOSURE _ _ _ body :: _ => body | _ => [] end).
Proof. vm_compute. repeat split. auto 20. Qed.
Open Scope list_scope.

(* The boxing pass.  [Proofs_C01_conv.clean e]: no identifier of e is one of the reserved names #%box / #%unbox / #%set-box!
   and the binders of one lambda / let are pairwise distinct.  World W: for every source location either
   [LBox a] (location of an assigned local, corresponds to box a) or [LImm v] (never-assigned local,
   corresponds to the immutable converted value v); [E] relates the environments through W, [inv] says every
   local assigned in e is boxed, [StoreRel] / [GlobRel] relate stores and globals, [V] values, [ext] world
   extension.  The converted program may need more fuel (m) than the reference run (n). *)
Theorem C01_assign_convert_correct :
  forall n rs e st res, seval n rs e st = Some res ->
  forall W bx rb stb,
    Proofs_C01_conv.E W bx rs rb -> Proofs_C01_conv.inv bx rs e -> Proofs_C01_conv.clean e = true ->
    Proofs_C01_conv.StoreRel W (s_store st) (b_store stb) -> Proofs_C01_conv.GlobRel W (s_glob st) (b_glob stb) ->
    exists m,
      match res with
      | SVal v st' => exists W' bv stb', Proofs_C01_conv.ext W W' /\
          beval m rb (aconv bx e) stb = Some (BVal bv stb') /\ Proofs_C01_conv.V W' v bv /\
          Proofs_C01_conv.StoreRel W' (s_store st') (b_store stb') /\
          Proofs_C01_conv.GlobRel W' (s_glob st') (b_glob stb')
      | CoreS.SErr k => beval m rb (aconv bx e) stb = Some (BErr k)
      end.
Proof.
  intros n rs e st res Hev W bx rb stb HE Hi Hc HS HG.
  exists (Proofs_C01_conv.dbl n). exact (Proofs_C01_conv.conv_all n rs e st res Hev W bx rb stb HE Hi Hc HS HG).
Qed.

Theorem C01_assign_convert_program : forall n ds main sres,
  srun_program n ds main = Some sres -> Proofs_C01_conv.clean_prog ds main = true ->
  exists m bres, brun_program m (S.conv_defs ds) (assign_convert main) = Some bres /\
                 render_bresult (Some bres) = render_sresult (Some sres) /\
                 match sres, bres with
                 | SVal v _, BVal bv _ => exists W, Proofs_C01_conv.V W v bv
                 | CoreS.SErr k, BErr k' => k = k'
                 | _, _ => False
                 end.
Proof. intros n ds main sres H Hcl. exists (Proofs_C01_conv.dbl n). exact (Proofs_C01_conv.assign_convert_program n ds main sres H Hcl). Qed.

(* END TO END for the assignment layer: for every evaluation unit of the fragment (clean), whatever the
   reference store semantics computes (value or error) is what the compiled code computes on the heap VM,
   in both compilation modes, for every frame limit above the fuel m of the converted run. *)
Theorem C01_end_to_end_set : forall forms ds ms n sres,
  ssplit_unit forms = Some (ds, ms) -> Proofs_C01_conv.clean_prog ds (sseq_of ms) = true ->
  srun_program n ds (sseq_of ms) = Some sres ->
  S.unit_render_ref n forms = render_sresult (Some sres) /\
  exists m, forall limit tco, m <= limit ->
    exists k, S.unit_render_vm limit tco false k forms = render_sresult (Some sres).
Proof.
  intros forms ds ms n sres Hsp Hcl Hrun. split.
  - unfold S.unit_render_ref. rewrite Hsp, Hrun. auto.
  - destruct (Proofs_C01_conv.assign_convert_program n ds (sseq_of ms) sres Hrun Hcl) as (bres & Hb & Hr & _).
    exists (Proofs_C01_conv.dbl n). intros limit tco Hl.
    destruct (C01_program_render_set limit tco _ _ _ bres Hb Hl) as [k Hk].
    exists k. unfold S.unit_render_vm. rewrite Hsp.
    change (S.conv_defs ds) with (Proofs_C01_conv.cdefs ds). rewrite Hk. exact Hr.
Qed.

(* non-vacuity of the assignment layer: a counter closure over an assigned captured local *)
Example C01_example_set :
  let I z := SConst (KInt z) in let V := SVar in let A f a := SApp (SVar f) a in
  let mk := ("mk", SLam [] None (SLet [("c", I 0%Z)]
               (SLam [] None (SSeq (SSet "c" (A "+" [V "c"; I 1%Z])) (V "c"))))) in
  let ds := [mk; ("k", A "mk" [])] in
  let main := SSeq (A "k" []) (SSeq (A "k" []) (A "+" [A "k" []; I 100%Z])) in
  render_sresult (srun_program 100 ds main) = "OK I103"%string /\
  render_bresult (brun_program 100 (S.conv_defs ds) (assign_convert main)) = "OK I103"%string /\
  S.render_run (S.vm_program 100 true true 1000 (S.conv_defs ds) (assign_convert main)) = "OK I103"%string.
Proof. vm_compute. repeat split. Qed.

(* non-vacuity: a tail-recursive loop, both modes *)
Example C01_example_loop :
  let I z := EConst (KInt z) in let V := EVar in let A f a := EApp (EVar f) a in
  let loopd := ("loop", ELam ["i"; "acc"] None (EIf (A "=" [V "i"; I 0%Z]) (V "acc")
                   (A "loop" [A "-" [V "i"; I 1%Z]; A "+" [V "acc"; V "i"]]))) in
  render_result (run_program 200 [loopd] (A "loop" [I 20%Z; I 0%Z])) = "OK I210"%string /\
  render_run (vm_program 100 true false 2000 [loopd] (A "loop" [I 20%Z; I 0%Z])) = "OK I210"%string /\
  render_run (vm_program 100 false false 2000 [loopd] (A "loop" [I 20%Z; I 0%Z])) = "OK I210"%string /\
  render_run (vm_program 15 false false 2000 [loopd] (A "loop" [I 20%Z; I 0%Z])) = "ERR Generic"%string /\
  render_run (vm_program 15 true true 2000 [loopd] (A "loop" [I 20%Z; I 0%Z])) = "OK I210"%string.
Proof. vm_compute. repeat split. Qed.

Example C01_example_rest :
  let I z := EConst (KInt z) in let V := EVar in
  (* ((lambda (a . r) r) 1 2 3)  and  ((lambda (a b . r) a)) with too few operands *)
  render_result (run_program 50 [] (EApp (ELam ["a"] (Some "r") (V "r")) [I 1%Z; I 2%Z; I 3%Z])) = "OK (I2 I3)"%string /\
  render_run (vm_program 100 true true 500 [] (EApp (ELam ["a"] (Some "r") (V "r")) [I 1%Z; I 2%Z; I 3%Z])) = "OK (I2 I3)"%string /\
  render_run (vm_program 100 true false 500 [] (EApp (ELam ["a"; "b"] (Some "r") (V "a")) [I 1%Z])) = "ERR ArityMismatch"%string /\
  render_result (run_program 50 [] (EApp (ELam ["a"; "b"] (Some "r") (V "a")) [I 1%Z])) = "ERR ArityMismatch"%string.
Proof. vm_compute. repeat split. Qed.
