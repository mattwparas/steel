(* C01, assignment layer — forward simulation between CoreS.beval (the language after assignment
   conversion: immutable locals, boxes in a store, mutable globals) and the compiled bytecode on the heap VM
   of lib/BytecodeS.v, with the structure of Proofs_C01.v.  Boxes are allocated sequentially on both sides,
   so a source box and its VM box have the SAME address and the store relation is pointwise ([Srel]). *)
From Coq Require Import String.
From Coq Require Import List Bool Lia Arith.
From SV Require Import lib.Core lib.CoreS lib.Bytecode lib.BytecodeS c01.Proofs_C01 c01.HeapVM_C01.
Import ListNotations.
Open Scope list_scope.

Lemma bfv_app_eq : forall x f args, S.bfv x (BApp f args) = S.bfv_list x args || S.bfv x f.
Proof. intros. simpl. f_equal. induction args; simpl; auto. rewrite IHargs. auto. Qed.

Lemma bfv_let_eq : forall x bs body,
  S.bfv x (BLet bs body) = S.bfv_list x (map snd bs) || (negb (memb x (map fst bs)) && S.bfv x body).
Proof. intros. simpl. f_equal. induction bs as [|[y a] bs]; simpl; auto. rewrite IHbs. auto. Qed.

Section SimS.
  Variable limit : nat.
  Variable tco : bool.
  Notation star := (S.star limit).
  Notation vm_step := (S.vm_step limit).

  Lemma compile_app_eq : forall ce d tail f args,
    S.compile tco ce d tail (BApp f args) =
    S.compile_list tco ce d args ++ S.compile tco ce (d + length args) false f
      ++ [if tail then TAILCALL (length args) else FUNC (length args)].
  Proof.
    intros. simpl. f_equal. revert d. induction args; simpl; intros; auto. rewrite IHargs. auto.
  Qed.

  Lemma compile_let_eq : forall ce d tail bs body,
    S.compile tco ce d tail (BLet bs body) =
    BEGINSCOPE :: S.compile_list tco ce d (map snd bs)
      ++ S.compile tco (bind_slots (map fst bs) d ce) (d + length bs) tail body ++ [LETENDSCOPE d].
  Proof.
    intros. simpl. f_equal. f_equal. revert d. induction bs as [|[y a] bs]; simpl; intros; auto.
    rewrite IHbs. auto.
  Qed.

  Inductive vrel : bval -> S.mval -> Prop :=
  | vr_int : forall z, vrel (BVInt z) (S.MInt z)
  | vr_bool : forall b, vrel (BVBool b) (S.MBool b)
  | vr_void : vrel BVVoid S.MVoid
  | vr_prim : forall p, vrel (BVPrim p) (S.MPrim p)
  | vr_clo : forall ps rest body r fvs caps,
      (forall j x, nth_error fvs j = Some x ->
         exists v mv, Core.lookup x r = Some v /\ nth_error caps j = Some mv /\ vrel v mv) ->
      (forall x, S.bfv x body = true -> memb x (params ps rest) = false -> ~ In x fvs -> Core.lookup x r = None) ->
      vrel (BVClo ps rest body r)
           (S.MClo (length (params ps rest)) (rest_flag rest)
                   (S.compile tco (body_cenv (params ps rest) fvs) (length (params ps rest)) tco body ++ [POPPURE]) caps)
  | vr_list : forall vs mvs, Forall2 vrel vs mvs -> vrel (BVList vs) (S.MList mvs)
  | vr_box : forall a, vrel (BVBox a) (S.MBox a).

  (* [fetch], [R1], [Grel]: the text of [Rel]'s at [vrel], as in Proofs_C01 *)
  Definition fetch (l : loc) (slots caps : list S.mval) : option S.mval :=
    match l with Slot i => nth_error slots i | Cap j => nth_error caps j end.

  Definition R1 (r : benv) (ce : cenv) (slots caps : list S.mval) : Prop :=
    forall x l, Core.lookup x ce = Some l ->
      exists v mv, Core.lookup x r = Some v /\ fetch l slots caps = Some mv /\ vrel v mv.

  Definition R2 (e : bexpr) (r : benv) (ce : cenv) : Prop :=
    forall x, S.bfv x e = true -> Core.lookup x ce = None -> Core.lookup x r = None.

  Definition R2l (es : list bexpr) (r : benv) (ce : cenv) : Prop :=
    forall x, S.bfv_list x es = true -> Core.lookup x ce = None -> Core.lookup x r = None.

  Definition Grel (G : benv) (MG : list (ident * S.mval)) : Prop :=
    forall g, match Core.lookup g G, Core.lookup g MG with
              | Some v, Some mv => vrel v mv
              | None, None => True
              | _, _ => False
              end.

  Definition Srel (st : list bval) (H : list S.mval) : Prop := Forall2 vrel st H.

  Definition frame_caps (fs : list S.frame) (caps : list S.mval) : Prop :=
    match fs with
    | f :: _ => exists a rs b, S.f_fn f = S.MClo a rs b caps
    | [] => caps = []
    end.

  Lemma R2_if : forall c t e r ce, R2 (BIf c t e) r ce -> R2 c r ce /\ R2 t r ce /\ R2 e r ce.
  Proof. intros c t e r ce H. repeat split; intros y Hy; apply H; simpl; rewrite Hy, ?orb_true_r; auto. Qed.

  Lemma R2_seq : forall a b r ce, R2 (BSeq a b) r ce -> R2 a r ce /\ R2 b r ce.
  Proof. intros a b r ce H. split; intros y Hy; apply H; simpl; rewrite Hy, ?orb_true_r; auto. Qed.

  Lemma R2_setg : forall g e r ce, R2 (BSetG g e) r ce -> R2 e r ce.
  Proof. intros g e r ce H y Hy. apply H. simpl. rewrite Hy, orb_true_r. auto. Qed.

  Lemma R2_app : forall f args r ce, R2 (BApp f args) r ce -> R2l args r ce /\ R2 f r ce.
  Proof. intros f args r ce H. split; intros y Hy; apply H; rewrite bfv_app_eq, Hy, ?orb_true_r; auto. Qed.

  Lemma R2l_cons : forall e es r ce, R2l (e :: es) r ce -> R2 e r ce /\ R2l es r ce.
  Proof. intros e es r ce H. split; intros y Hy; apply H; simpl; rewrite Hy, ?orb_true_r; auto. Qed.

  Lemma R2_let : forall bs body r ce, R2 (BLet bs body) r ce ->
    R2l (map snd bs) r ce /\
    forall vs d, R2 body (bind (map fst bs) vs r) (bind_slots (map fst bs) d ce).
  Proof. intros bs body r ce. apply Rel.unbound_let. intros x. apply bfv_let_eq. Qed.

  Lemma vrel_atom : forall v mv, vrel v mv -> bval_atom v = S.mval_atom mv.
  Proof. destruct 1; simpl; auto. Qed.

  Lemma vrel_atoms : forall vs mvs, Forall2 vrel vs mvs -> map bval_atom vs = map S.mval_atom mvs.
  Proof. induction 1; simpl; auto. f_equal; auto. apply vrel_atom; auto. Qed.

  Lemma vrel_of_atom : forall a, vrel (atom_bval a) (S.atom_mval a).
  Proof. destruct a; simpl; constructor. Qed.

  Lemma vrel_truthy : forall v mv, vrel v mv -> atom_truthy (bval_atom v) = S.mtruthy mv.
  Proof. intros. unfold S.mtruthy. erewrite vrel_atom; eauto. Qed.

  Lemma vrel_const : forall c, vrel (bconst c) (S.const_mval c).
  Proof. destruct c; simpl; constructor. Qed.

  Lemma mprim_rel : forall p vs mvs st G Hh, Forall2 vrel vs mvs -> Srel st Hh ->
    match bprim_apply p vs (mkB st G) with
    | BVal v st' => exists mv H', S.mprim_apply p mvs Hh = inl (mv, H') /\ vrel v mv /\
                                  Srel (b_store st') H' /\ b_glob st' = G
    | BErr k => S.mprim_apply p mvs Hh = inr k
    end.
  Proof.
    intros p vs mvs st G Hh HF HS. destruct p; simpl.
    - rewrite (vrel_atoms _ _ HF). destruct (prim_sem p (map S.mval_atom mvs)); auto.
      simpl. eexists. eexists. split; [reflexivity|]. split; [apply vrel_of_atom|]. auto.
    - (* #%box: the new box has the same address on both sides *)
      destruct HF as [|v mv vs' mvs' Hv [|]]; auto. simpl.
      eexists. eexists. split; [reflexivity|].
      rewrite (Forall2_length _ _ _ _ _ HS). split; [constructor|]. split; auto.
      apply Forall2_app; auto.
    - (* #%unbox *)
      destruct HF as [|v mv vs' mvs' Hv HF']; auto.
      destruct Hv; destruct HF'; simpl; auto.
      pose proof (Forall2_nth_error _ _ _ _ _ HS a) as Hn.
      destruct (nth_error st a), (nth_error Hh a); try tauto.
      simpl. eexists. eexists. split; [reflexivity|]. auto.
    - (* #%set-box! *)
      destruct HF as [|v mv vs' mvs' Hv [|v2 mv2 vs2 mvs2 Hv2 HF2]]; auto.
      { destruct Hv; auto. }
      destruct Hv; destruct HF2; simpl; auto.
      pose proof (Forall2_nth_error _ _ _ _ _ HS a) as Hn.
      destruct (nth_error st a), (nth_error Hh a); try tauto.
      simpl. eexists. eexists. split; [reflexivity|]. split; auto. split; auto.
      apply Forall2_upd_nth; auto.
  Qed.

  Definition fall_state (C : list instr) (pc' : nat) (below slots : list S.mval) (fs : list S.frame)
             (mv : S.mval) MG H :=
    S.mkVM C pc' (below ++ slots ++ [mv]) fs MG H.

  Definition ret_state (f : S.frame) (below : list S.mval) (fs' : list S.frame) (mv : S.mval) MG H :=
    S.mkVM (S.f_ret_code f) (S.f_ret_ip f) (below ++ [mv]) fs' MG H.

  Definition outcome (tail : bool) (s : S.vmstate) C pc' below slots fs mv MG H : Prop :=
    if tail then exists f fs', fs = f :: fs' /\ star s (ret_state f below fs' mv MG H)
    else star s (fall_state C pc' below slots fs mv MG H).

  Definition tail_ok (tail : bool) (C : list instr) (pc' d : nat) (fs : list S.frame) : Prop :=
    tail = true -> fs <> [] /\ returns_from C pc' d.

  Definition sim_concl (res : bresult) (tail : bool) (s : S.vmstate) C pc' below slots fs : Prop :=
    match res with
    | BVal v st' => exists mv MG' H', vrel v mv /\ Srel (b_store st') H' /\ Grel (b_glob st') MG' /\
                                      outcome tail s C pc' below slots fs mv MG' H'
    | BErr k => fails limit s k
    end.

  Definition sim_at (n : nat) : Prop :=
    forall r e st res, beval n r e st = Some res ->
    forall ce tail C pc pc' below slots d caps fs MG H,
      code_seg C pc (S.compile tco ce d tail e) pc' -> length slots = d ->
      length below = S.cur_sp fs -> frame_caps fs caps ->
      R1 r ce slots caps -> R2 e r ce ->
      Srel (b_store st) H -> Grel (b_glob st) MG ->
      length fs + n <= limit ->
      tail_ok tail C pc' d fs ->
      sim_concl res tail (S.mkVM C pc (below ++ slots) fs MG H) C pc' below slots fs.

  Lemma sim_concl_prefix : forall res tail s0 s C pc' below slots fs,
    star s0 s -> sim_concl res tail s C pc' below slots fs -> sim_concl res tail s0 C pc' below slots fs.
  Proof.
    intros res tail s0 s C pc' below slots fs Hs H. destruct res; simpl in *.
    - destruct H as (mv & MG' & H' & Hv & HS & HG & Ho). exists mv, MG', H'. repeat split; auto.
      eapply outcome_prefix; eauto.
    - eapply fails_prefix; eauto.
  Qed.

  Lemma sim_concl_step : forall res tail s C pc1 pc2 below slots1 slots2 fs,
    sim_concl res tail s C pc1 below slots1 fs ->
    (forall mv MG H, vm_step (fall_state C pc1 below slots1 fs mv MG H) =
                     S.SNext (fall_state C pc2 below slots2 fs mv MG H)) ->
    sim_concl res tail s C pc2 below slots2 fs.
  Proof.
    intros [v st'|k] tail s C pc1 pc2 below slots1 slots2 fs H Hs; [|exact H].
    destruct H as (mv & MG' & H' & Hv & HS & HG & Ho). exists mv, MG', H'. repeat split; auto.
    eapply outcome_step; eauto.
  Qed.

  Lemma sim_err_now : forall k tail s C pc' below slots fs,
    vm_step s = S.SErr k -> sim_concl (BErr k) tail s C pc' below slots fs.
  Proof. intros. apply fails_now. auto. Qed.

  Lemma sim_push : forall tail s C pc' below slots fs st v mv MG H,
    vm_step s = S.SNext (S.mkVM C pc' ((below ++ slots) ++ [mv]) fs MG H) ->
    vrel v mv -> Srel (b_store st) H -> Grel (b_glob st) MG ->
    tail_ok tail C pc' (length slots) fs -> length below = S.cur_sp fs ->
    sim_concl (BVal v st) tail s C pc' below slots fs.
  Proof.
    intros tail s C pc' below slots fs st v mv MG H Hs Hv HS HG Ht Hb. exists mv, MG, H. repeat split; auto.
    apply outcome_of_push; auto. apply S.star_one; auto.
  Qed.

  (* As Proofs_C01.sim_sub, for beval: K also takes the state, and the caller also receives the related store and
     globals. *)
  Lemma sim_sub : forall n, sim_at n -> forall r e st ce C pc p1 below sl d caps fs MG H,
    code_seg C pc (S.compile tco ce d false e) p1 -> length sl = d ->
    length below = S.cur_sp fs -> frame_caps fs caps -> R1 r ce sl caps -> R2 e r ce ->
    Srel (b_store st) H -> Grel (b_glob st) MG -> length fs + n <= limit ->
    forall res tail pc' slots (K : bval -> bstate -> option bresult),
    match beval n r e st with Some (BVal v st1) => K v st1 | Some (BErr k) => Some (BErr k) | None => None end = Some res ->
    (forall v st1 mv MG1 H1, K v st1 = Some res -> vrel v mv -> Srel (b_store st1) H1 -> Grel (b_glob st1) MG1 ->
       sim_concl res tail (S.mkVM C p1 ((below ++ sl) ++ [mv]) fs MG1 H1) C pc' below slots fs) ->
    sim_concl res tail (S.mkVM C pc (below ++ sl) fs MG H) C pc' below slots fs.
  Proof.
    intros n IH r e st ce C pc p1 below sl d caps fs MG H Hc Hd Hb Hfc H1 H2 HS HG Hl res tail pc' slots K Hev Hk.
    destruct (beval n r e st) as [res1|] eqn:Hev1; [|discriminate].
    specialize (IH r e st res1 Hev1 ce false C pc p1 below sl d caps fs MG H Hc Hd Hb Hfc H1 H2 HS HG Hl (tail_ok_false _ _ _ _)).
    destruct res1 as [v st1|k]; [|injection Hev as <-; exact IH].
    destruct IH as (mv & MG' & H' & Hr & HS' & HG' & Hs). unfold outcome, fall_state in Hs. rewrite app_assoc in Hs.
    eapply sim_concl_prefix; [exact Hs|]. apply (Hk v st1); auto.
  Qed.

  Lemma sim_subs : forall n, sim_at n -> forall r es st ce C pc p1 below sl d caps fs MG H,
    code_seg C pc (S.compile_list tco ce d es) p1 -> length sl = d ->
    length below = S.cur_sp fs -> frame_caps fs caps -> R1 r ce sl caps -> R2l es r ce ->
    Srel (b_store st) H -> Grel (b_glob st) MG -> length fs + n <= limit ->
    forall res tail pc' slots (K : list bval -> bstate -> option bresult),
    match bevals (beval n r) es st with Some (inl (vs, st1)) => K vs st1 | Some (inr k) => Some (BErr k) | None => None end = Some res ->
    (forall vs st1 mvs MG1 H1, K vs st1 = Some res -> Forall2 vrel vs mvs -> length mvs = length es ->
       Srel (b_store st1) H1 -> Grel (b_glob st1) MG1 ->
       sim_concl res tail (S.mkVM C p1 (below ++ sl ++ mvs) fs MG1 H1) C pc' below slots fs) ->
    sim_concl res tail (S.mkVM C pc (below ++ sl) fs MG H) C pc' below slots fs.
  Proof.
    intros n IH r es. induction es as [|e es IHes];
      intros st ce C pc p1 below sl d caps fs MG H Hc Hd Hb Hfc HR1 HR2 HS HG Hlim res tail pc' slots K Hev Hk.
    - destruct Hc as [_ ->]. specialize (Hk [] st [] MG H Hev (Forall2_nil _) eq_refl HS HG).
      rewrite Nat.add_0_r, app_nil_r in Hk. exact Hk.
    - simpl in Hc, Hev. apply code_seg_app in Hc as (p0 & Hc1 & Hc2). apply R2l_cons in HR2 as [HR2e HR2r].
      eapply (sim_sub n IH r e st) with (K := fun v st1 =>
        match bevals (beval n r) es st1 with Some (inl (vs, st2)) => K (v :: vs) st2 | Some (inr k) => Some (BErr k) | None => None end); eauto.
      { destruct (beval n r e st) as [[v st1|k]|]; auto. destruct (bevals (beval n r) es st1) as [[[vs st2]|k]|]; auto. }
      intros v st1 mv MG1 H1 Hev1 Hv HS1 HG1. rewrite <- app_assoc.
      eapply (IHes st1 ce C p0 p1 below (sl ++ [mv])) with (K := fun vs => K (v :: vs)); eauto.
      { rewrite app_length. simpl. lia. }
      { apply Rel.R1_more_slots; auto. }
      intros vs st2 mvs MG2 H2 Hev2 HF Hlm HS2 HG2. rewrite <- app_assoc. apply (Hk (v :: vs) st2 (mv :: mvs)); simpl; auto.
  Qed.

  Lemma sim_call_closure : forall n, sim_at n -> forall ps rest body r0 clo vs mvs st res tail C pcC below slots fs MG H,
    vrel (BVClo ps rest body r0) clo -> Forall2 vrel vs mvs ->
    match bcall_args ps rest vs with
    | Some (xs, ws) => beval n (bind xs ws r0) body st
    | None => Some (BErr EArity)
    end = Some res ->
    nth_error C pcC = Some (call_instr tail (length mvs)) -> length below = S.cur_sp fs ->
    Srel (b_store st) H -> Grel (b_glob st) MG ->
    length fs + S n <= limit -> tail_ok tail C (S pcC) (length slots) fs ->
    sim_concl res tail (S.mkVM C pcC (((below ++ slots) ++ mvs) ++ [clo]) fs MG H) C (S pcC) below slots fs.
  Proof.
    intros n IH ps rest body r0 clo vs mvs st res tail C pcC below slots fs MG H Hclo HF Hev HiC Hb HS HG Hlim Htail.
    inversion Hclo as [| | | |ps' rest' body' r' fvs caps0 Hcaps Hfree| |]; subst.
    set (bodyc := S.compile tco (body_cenv (params ps rest) fvs) (length (params ps rest)) tco body) in *.
    destruct (bcall_args ps rest vs) as [[xs ws]|] eqn:Hcargs.
    2:{ injection Hev as <-. apply sim_err_now. eapply call_step_arity; eauto.
        eapply (Rel.adjust_err BVList S.MList); eauto. eapply Forall2_length; eauto. }
    destruct (Rel.adjust_ok vrel BVList S.MList vr_list ps rest vs xs ws mvs (below ++ slots) Hcargs HF) as (mws & Hadj & HFw & -> & Hlw & _).
    assert (Hpm : length mws = length (params ps rest)) by (rewrite Hlw; symmetry; eapply Forall2_length; eauto).
    destruct (call_step_closure limit tail C pcC below slots mvs mws _ _ _ (bodyc ++ [POPPURE]) caps0 fs MG H HiC Hadj (eq_sym Hpm) Hb Htail)
      as (below' & f & fs' & Hstep & Hb' & Hfn & Hfs & Hout).
    { destruct n; [discriminate|lia]. }
    eapply sim_concl_prefix; [apply S.star_one, Hstep|].
    assert (Hrf : returns_from (bodyc ++ [POPPURE]) (length bodyc) (length (params ps rest))) by apply rf_pop, nth_error_mid.
    assert (Htk : tail_ok tco (bodyc ++ [POPPURE]) (length bodyc) (length (params ps rest)) (f :: fs'))
      by (intros _; split; [discriminate|exact Hrf]).
    pose proof (IH _ body st res Hev (body_cenv (params ps rest) fvs) tco (bodyc ++ [POPPURE]) 0 _ below' mws _ caps0 (f :: fs') MG H
                   (code_seg_zero _ _) Hpm Hb' (ex_intro _ _ (ex_intro _ _ (ex_intro _ _ Hfn)))
                   (Rel.entry_R1 vrel _ _ _ _ _ _ Hcaps HFw Hlw) (Rel.entry_R2 (fun x => S.bfv x body) _ _ _ _ Hfree) HS HG
                   ltac:(simpl; lia) Htk) as H3.
    destruct res as [v st'|k]; [|exact H3].
    destruct H3 as (mv & MG' & H' & Hrel & HS' & HG' & Ho). exists mv, MG', H'. repeat split; auto.
    apply Hout. eapply outcome_to_ret; eauto. rewrite Hpm. exact Hrf.
  Qed.

  Lemma sim_all : forall n, sim_at n.
  Proof.
    induction n as [|n IH]; intros r e st res Hev; [discriminate|].
    intros ce tail C pc pc' below slots d caps fs MG H Hc Hd Hb Hfc HR1 HR2 HS HG Hlim Htail.
    assert (Hlim' : length fs + n <= limit) by lia.
    destruct e as [c|x|ps rest e|fe args|e1 e2 e3|bs e|e1 e2|g e]; simpl in Hev.
    - (* BConst *)
      injection Hev as <-. apply code_seg_one in Hc as [Hi ->]. subst d.
      eapply sim_push; eauto using vrel_const, step_PUSHCONST.
    - (* BVar *)
      apply code_seg_one in Hc as [Hi ->]. subst d.
      destruct (Core.lookup x ce) as [lc|] eqn:Hce.
      + destruct (read_loc limit vrel _ _ _ _ _ _ x lc C pc MG H HR1 Hfc Hb Hce Hi) as (v & mv & Hv & Hrel & Hstep).
        rewrite Hv in Hev. injection Hev as <-. eapply sim_push; eauto.
      + rewrite (HR2 x) in Hev by (simpl; auto using String.eqb_refl).
        destruct (Core.lookup x (b_glob st)) as [v|] eqn:HxG; injection Hev as <-.
        * destruct (Rel.Grel_some _ _ _ _ _ HG HxG) as (mv & HxM & Hrel).
          eapply sim_push; eauto using step_PUSH.
        * apply sim_err_now. eapply step_PUSH_free; eauto. eapply Rel.Grel_none; eauto.
    - (* BLam *)
      injection Hev as <-. apply code_seg_one in Hc as [Hi ->]. subst d.
      destruct (fetch_caps_ok vrel r ce below slots caps fs HR1 Hfc Hb (S.bcaptured ce (params ps rest) e))
        as (caps' & Hfetch & Hall).
      { intros y Hy. apply filter_In in Hy. apply in_rev, Hy. }
      eapply sim_push; [eapply step_MKCLOSURE; eauto| |auto|auto|auto|auto].
      constructor; auto.
      exact (Rel.uncaptured_unbound (fun x => S.bfv x e) _ _ _ HR2).
    - (* BApp *)
      rewrite compile_app_eq in Hc. fold (call_instr tail (length args)) in Hc.
      apply code_seg_app in Hc as (p1 & Hca & Hc). apply code_seg_app in Hc as (p2 & Hcf & Hc).
      apply code_seg_one in Hc as [HiC ->]. apply R2_app in HR2 as [HRl HRf].
      eapply (sim_subs n IH r args st); eauto; [exact Hev|]. clear Hev. intros vs st1 mvs MG1 H1' Hev HF Hlen HS1 HG1.
      eapply (sim_sub n IH r fe st1 ce C p1 p2 below (slots ++ mvs)); eauto.
      { rewrite app_length. lia. }
      { apply Rel.R1_more_slots; auto. }
      { exact Hev. }
      clear Hev. intros fv0 st2 mf MG2 H2' Hev Hrelf HS2 HG2.
      rewrite (app_assoc below slots mvs). rewrite <- Hlen in HiC. subst d.
      destruct Hrelf as [z|b| |p|ps rest body r0 fvs caps0 Hcaps Hfree|l ml Hl|a];
        try (injection Hev as <-; apply sim_err_now; eapply call_step_notproc; eauto; exact I).
      + (* primitive (the box primitives included) *)
        injection Hev as <-.
        pose proof (call_step_prim limit tail C _ (below ++ slots) mvs p fs MG2 H2' HiC) as Hp.
        destruct st2 as [sg2 gg2]. simpl in HS2, HG2.
        pose proof (mprim_rel p vs mvs sg2 gg2 H2' HF HS2) as Hpr.
        destruct (bprim_apply p vs (mkB sg2 gg2)) as [v st3|k].
        * destruct Hpr as (mv & H3 & Hma & Hrv & HS3 & Hg3). rewrite Hma in Hp.
          eapply sim_push; eauto. rewrite Hg3. exact HG2.
        * rewrite Hpr in Hp. apply sim_err_now. exact Hp.
      + eapply sim_call_closure; eauto using vr_clo.
    - (* BIf *)
      cbn [S.compile] in Hc. apply code_seg_if in Hc as (p1 & p2 & Hcc & HiI & Hct & HiJ & Hcf & Ei & Ej).
      apply R2_if in HR2 as (HRc & HRt & HRf).
      eapply (sim_sub n IH r e1 st); eauto; [exact Hev|]. clear Hev. intros vc st1 mvc MG1 H1' Hev Hrelc HS1 HG1.
      cbv beta in Hev. rewrite (vrel_truthy _ _ Hrelc) in Hev.
      eapply sim_concl_prefix; [apply S.star_one, step_IF, HiI|].
      rewrite Ei. destruct (S.mtruthy mvc).
      + (* then branch: its value is pushed before the JMP over the else branch *)
        assert (Htk : tail_ok tail C p2 d fs).
        { intros Ht. destruct (Htail Ht) as [Hne Hrf]. split; auto. eapply rf_jmp; [exact HiJ|]. rewrite Ej. exact Hrf. }
        eapply sim_concl_step; [eapply IH; eauto|].
        intros mv MG' H'. unfold fall_state. rewrite (step_JMP _ _ _ _ _ _ _ _ HiJ), Ej. reflexivity.
      + eapply IH; eauto.
    - (* BLet *)
      rewrite compile_let_eq in Hc.
      apply code_seg_cons in Hc as [HiB Hc]. apply code_seg_app in Hc as (p1 & Hcl & Hc).
      apply code_seg_app in Hc as (p2 & Hcb & Hc). apply code_seg_one in Hc as [HiL ->].
      apply R2_let in HR2 as [HRl HR2'].
      eapply sim_concl_prefix; [apply S.star_one, step_BEGINSCOPE, HiB|].
      eapply (sim_subs n IH r (map snd bs) st); eauto; [exact Hev|]. clear Hev. intros vs st1 mvs MG1 H1' Hev HF Hlenm HS1 HG1.
      rewrite map_length in Hlenm.
      eapply sim_concl_step.
      + eapply (IH _ e st1 res Hev (bind_slots (map fst bs) d ce) tail C p1 p2 below (slots ++ mvs)); eauto.
        * rewrite app_length. lia.
        * subst d. apply Rel.R1_bind; auto. rewrite map_length, <- Hlenm. symmetry. eapply Forall2_length; eauto.
        * intros Ht. destruct (Htail Ht) as [Hne Hrf]. split; auto. eapply rf_let; [exact HiL|lia|exact Hrf].
      + intros mv MG' H'. unfold fall_state. rewrite !app_assoc, <- (app_assoc below). eapply step_LETENDSCOPE; eauto.
    - (* BSeq *)
      cbn [S.compile] in Hc.
      apply code_seg_app in Hc as (p1 & Hc1 & Hc). apply code_seg_cons in Hc as [Hi Hc2].
      apply R2_seq in HR2 as [HRa HRb].
      eapply (sim_sub n IH r e1 st); eauto; [exact Hev|]. clear Hev. intros v1 st1 mv1 MG1 H1' Hev _ HS1 HG1. cbv beta in Hev.
      eapply sim_concl_prefix; [apply S.star_one, step_POPSINGLE, Hi|].
      eapply IH; eauto.
    - (* BSetG *)
      cbn [S.compile] in Hc.
      apply code_seg_app in Hc as (p1 & Hc1 & Hc). apply code_seg_one in Hc as [Hi ->]. apply R2_setg in HR2.
      eapply (sim_sub n IH r e st); eauto; [exact Hev|]. clear Hev. intros v1 st1 mv1 MG1 H1' Hev Hrel1 HS1 HG1. cbv beta in Hev. subst d.
      destruct (Core.lookup g (b_glob st1)) as [old|] eqn:Hold; injection Hev as <-.
      + destruct (Rel.Grel_some _ _ _ _ _ HG1 Hold) as (mold & Hmold & Hrelo).
        eapply sim_push; eauto using step_SET. apply Rel.Grel_cons; auto.
      + apply sim_err_now. eapply step_SET_free; eauto. eapply Rel.Grel_none; eauto.
  Qed.
End SimS.

Lemma s_Grel_prims : forall tco, Grel tco bprim_globals S.prim_globals.
Proof.
  intros tco g. unfold bprim_globals, S.prim_globals. induction bprim_table as [|[x p] t]; simpl; auto.
  destruct (String.eqb g x); auto. constructor.
Qed.

Lemma s_R2_empty : forall e ce, R2 e [] ce.
Proof. intros e ce x _ _. auto. Qed.

Lemma s_sim_unit : forall limit tco st MG H, Srel tco (b_store st) H -> Grel tco (b_glob st) MG ->
  forall n e res post rr, beval n [] e st = Some res -> n <= limit ->
  let c := S.compile tco [] 0 false e in
  (forall mv MG' H', runs_to limit (S.mkVM (c ++ post) (length c) [mv] [] MG' H') (rr mv MG' H')) ->
  match res with
  | BVal v st' => exists mv MG' H', vrel tco v mv /\ Srel tco (b_store st') H' /\ Grel tco (b_glob st') MG' /\
      runs_to limit (S.init_vm (c ++ post) MG H) (rr mv MG' H')
  | BErr ek => runs_to limit (S.init_vm (c ++ post) MG H) (S.RErr ek)
  end.
Proof.
  intros limit tco st MG H HS HG n e res post rr Hev Hn c Hpost.
  pose proof (sim_all limit tco n [] e st res Hev [] false (c ++ post) 0 _ [] [] 0 [] [] MG H (code_seg_zero _ _)
                eq_refl eq_refl eq_refl (Rel.R1_empty _ _) (s_R2_empty _ _) HS HG Hn (tail_ok_false _ _ _ _)) as Hs.
  destruct res as [v st'|ek]; [|apply fails_run, Hs].
  destruct Hs as (mv & MG' & H' & Hrel & HS' & HG' & Hst). exists mv, MG', H'. repeat split; auto.
  eapply runs_to_star; [exact Hst|apply Hpost].
Qed.

Lemma s_sim_defs : forall limit tco n ds st MG H, Srel tco (b_store st) H -> Grel tco (b_glob st) MG -> n <= limit ->
  forall x, brun_defs n st ds = Some x ->
  match x with
  | inl st' => exists k MG' H', Srel tco (b_store st') H' /\ Grel tco (b_glob st') MG' /\
                 forall k', k <= k' -> S.vm_defs limit tco false k' MG H ds = inr (MG', H')
  | inr ek => exists k, forall k', k <= k' -> S.vm_defs limit tco false k' MG H ds = inl (S.RErr ek)
  end.
Proof.
  intros limit tco n ds. induction ds as [|[y e] ds IH]; intros st MG H HS HG Hn x Hx; simpl in Hx.
  - inversion Hx; subst. exists 0, MG, H. repeat split; auto.
  - pose proof (fun res He => s_sim_unit limit tco st MG H HS HG n e res _ _ He Hn (runs_to_define limit _ y)) as Hu.
    destruct (beval n [] e st) as [[v st1|ek]|]; try discriminate.
    + destruct (Hu _ eq_refl) as (mv & MG1 & H1 & Hrel & HS1 & HG1 & k1 & Hrun).
      specialize (IH (mkB (b_store st1) ((y, v) :: b_glob st1)) ((y, mv) :: MG1) H1 HS1
                     (Rel.Grel_cons _ _ _ _ _ _ HG1 Hrel) Hn x Hx).
      destruct x as [st'|ek].
      * destruct IH as (k2 & MG' & H' & HS' & HG' & Hk2). exists (Nat.max k1 k2), MG', H'. repeat split; auto.
        intros k' Hk'. simpl. unfold S.finish. rewrite Hrun by lia. apply Hk2. lia.
      * destruct IH as (k2 & Hk2). exists (Nat.max k1 k2).
        intros k' Hk'. simpl. unfold S.finish. rewrite Hrun by lia. apply Hk2. lia.
    + inversion Hx; subst x. destruct (Hu _ eq_refl) as (k1 & Hrun).
      exists k1. intros k' Hk'. simpl. unfold S.finish. rewrite Hrun; auto.
Qed.

Lemma s_vrel_canon : forall tco v mv, vrel tco v mv -> canon_bval v = S.canon_mval mv.
Proof.
  intros tco. fix IH 3. intros v mv H. destruct H; simpl; auto.
  f_equal. f_equal. f_equal. induction H; simpl; auto. f_equal; auto.
Qed.

