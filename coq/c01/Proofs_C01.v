(* C01 — forward simulation between the big-step evaluator Core.ceval and the compiled bytecode
   running on the VM of Bytecode.v.  One proof, parametric in [tco] (tail calls compiled to TAILCALL
   or not): C01_simulation_L0 is the instance tco = false, C01_simulation_tail the instance tco = true.
   Then whole programs ([sim_unit], [runs_to]), facts about Core.ceval alone, and [with_code]. *)
From Coq Require Import String.
From Coq Require Import List Bool Lia Arith.
From SV Require Import lib.Core lib.Bytecode.
From SV Require Export c01.Facts_C01.
Import ListNotations.
Open Scope list_scope.

Definition code_at (C : list instr) (pc : nat) (c : list instr) : Prop :=
  exists pre post, C = pre ++ c ++ post /\ pc = length pre.

(* [c] occupies [C] from [pc] up to [pc']; the simulation follows the code through these end points, so that
   lengths of compiled code are mentioned only where a jump offset has to be resolved *)
Definition code_seg (C : list instr) (pc : nat) (c : list instr) (pc' : nat) : Prop :=
  code_at C pc c /\ pc' = pc + length c.

Lemma code_seg_app : forall C pc c1 c2 pc', code_seg C pc (c1 ++ c2) pc' ->
  exists p, code_seg C pc c1 p /\ code_seg C p c2 pc'.
Proof.
  intros C pc c1 c2 pc' [(pre & post & -> & ->) ->]. exists (length pre + length c1). repeat split.
  - exists pre, (c2 ++ post). rewrite <- app_assoc. auto.
  - exists (pre ++ c1), post. rewrite app_length, <- !app_assoc. auto.
  - rewrite app_length. lia.
Qed.

Lemma code_seg_cons : forall C pc i c pc', code_seg C pc (i :: c) pc' ->
  nth_error C pc = Some i /\ code_seg C (S pc) c pc'.
Proof.
  intros C pc i c pc' [(pre & post & -> & ->) ->]. repeat split.
  - apply nth_error_mid.
  - exists (pre ++ [i]), post. rewrite app_length, <- app_assoc. simpl. split; [auto|lia].
  - simpl. lia.
Qed.

Lemma code_seg_one : forall C pc i pc', code_seg C pc [i] pc' -> nth_error C pc = Some i /\ pc' = S pc.
Proof. intros C pc i pc' H. apply code_seg_cons in H as [Hi [_ ->]]. split; [auto|simpl; lia]. Qed.

Lemma code_seg_zero : forall c post, code_seg (c ++ post) 0 c (length c).
Proof. intros. split; [exists [], post|]; auto. Qed.

Lemma code_seg_if : forall C pc cc ct cf pc',
  code_seg C pc (cc ++ IF (length ct + 2) :: ct ++ JMP (length cf + 1) :: cf) pc' ->
  exists p1 p2, code_seg C pc cc p1 /\ nth_error C p1 = Some (IF (length ct + 2)) /\ code_seg C (S p1) ct p2 /\
    nth_error C p2 = Some (JMP (length cf + 1)) /\ code_seg C (S p2) cf pc' /\
    p1 + (length ct + 2) = S p2 /\ p2 + (length cf + 1) = pc'.
Proof.
  intros C pc cc ct cf pc' Hc.
  apply code_seg_app in Hc as (p1 & Hcc & Hc). apply code_seg_cons in Hc as [HiI Hc].
  apply code_seg_app in Hc as (p2 & Hct & Hc). apply code_seg_cons in Hc as [HiJ Hcf].
  exists p1, p2. do 5 (split; [assumption|]). destruct Hct as [_ ->], Hcf as [_ ->]. lia.
Qed.

Lemma lookup_none_notin : forall A x (l : list (ident * A)), Core.lookup x l = None -> ~ In x (map fst l).
Proof.
  intros A x l H Hin. apply lookup_in_fst in Hin. destruct Hin as [a Ha]. congruence.
Qed.

Lemma memb_false_notin : forall x l, memb x l = false -> ~ In x l.
Proof.
  induction l; simpl; intros; auto. apply orb_false_iff in H. destruct H as [H1 H2].
  intros [->|Hin]; [rewrite String.eqb_refl in H1; discriminate|]. apply IHl; auto.
Qed.

Lemma fv_app_eq : forall x f args, fv x (EApp f args) = fv_list x args || fv x f.
Proof.
  intros. simpl. f_equal. induction args; simpl; auto. rewrite IHargs. auto.
Qed.

Lemma fv_let_eq : forall x bs body,
  fv x (ELet bs body) = fv_list x (map snd bs) || (negb (memb x (map fst bs)) && fv x body).
Proof.
  intros. simpl. f_equal. induction bs as [|[y a] bs]; simpl; auto. rewrite IHbs. auto.
Qed.

Definition call_instr (tail : bool) (n : nat) : instr := if tail then TAILCALL n else FUNC n.

Section Sim.
  Variable limit : nat.
  Variable tco : bool.

  Lemma compile_app_eq : forall ce d tail f args,
    compile tco ce d tail (EApp f args) =
    compile_list tco ce d args ++ compile tco ce (d + length args) false f
      ++ [if tail then TAILCALL (length args) else FUNC (length args)].
  Proof.
    intros. simpl. f_equal. revert d. induction args; simpl; intros; auto. rewrite IHargs. auto.
  Qed.

  Lemma compile_let_eq : forall ce d tail bs body,
    compile tco ce d tail (ELet bs body) =
    BEGINSCOPE :: compile_list tco ce d (map snd bs)
      ++ compile tco (bind_slots (map fst bs) d ce) (d + length bs) tail body ++ [LETENDSCOPE d].
  Proof.
    intros. simpl. f_equal. f_equal. revert d. induction bs as [|[y a] bs]; simpl; intros; auto.
    rewrite IHbs. auto.
  Qed.

  Definition rest_flag (rest : option ident) : bool := match rest with Some _ => true | None => false end.

  Inductive vrel : val -> mval -> Prop :=
  | vr_int : forall z, vrel (VInt z) (MInt z)
  | vr_bool : forall b, vrel (VBool b) (MBool b)
  | vr_void : vrel VVoid MVoid
  | vr_prim : forall p, vrel (VPrim p) (MPrim p)
  | vr_clo : forall ps rest body r fvs caps,
      (forall j x, nth_error fvs j = Some x ->
         exists v mv, Core.lookup x r = Some v /\ nth_error caps j = Some mv /\ vrel v mv) ->
      (forall x, fv x body = true -> memb x (params ps rest) = false -> ~ In x fvs -> Core.lookup x r = None) ->
      vrel (VClo ps rest body r)
           (MClo (length (params ps rest)) (rest_flag rest)
                 (compile tco (body_cenv (params ps rest) fvs) (length (params ps rest)) tco body ++ [POPPURE]) caps)
  | vr_list : forall vs mvs, Forall2 vrel vs mvs -> vrel (VList vs) (MList mvs).

  (* [fetch], [R1], [Grel] are the text of [Rel.fetch], [Rel.R1 vrel], [Rel.Grel vrel] (Facts_C01): the lemmas of [Rel]
     apply to them by conversion *)
  Definition fetch (l : loc) (slots caps : list mval) : option mval :=
    match l with Slot i => nth_error slots i | Cap j => nth_error caps j end.

  Definition R1 (r : env) (ce : cenv) (slots caps : list mval) : Prop :=
    forall x l, Core.lookup x ce = Some l ->
      exists v mv, Core.lookup x r = Some v /\ fetch l slots caps = Some mv /\ vrel v mv.

  Definition R2 (e : expr) (r : env) (ce : cenv) : Prop :=
    forall x, fv x e = true -> Core.lookup x ce = None -> Core.lookup x r = None.

  Definition R2l (es : list expr) (r : env) (ce : cenv) : Prop :=
    forall x, fv_list x es = true -> Core.lookup x ce = None -> Core.lookup x r = None.

  Definition Grel (G : env) (MG : list (ident * mval)) : Prop :=
    forall g, match Core.lookup g G, Core.lookup g MG with
              | Some v, Some mv => vrel v mv
              | None, None => True
              | _, _ => False
              end.

  Definition frame_caps (fs : list frame) (caps : list mval) : Prop :=
    match fs with
    | f :: _ => exists a rs b, f_fn f = MClo a rs b caps
    | [] => caps = []
    end.

  Lemma R2_if : forall c t e r ce, R2 (EIf c t e) r ce -> R2 c r ce /\ R2 t r ce /\ R2 e r ce.
  Proof. intros c t e r ce H. repeat split; intros y Hy; apply H; simpl; rewrite Hy, ?orb_true_r; auto. Qed.

  Lemma R2_seq : forall a b r ce, R2 (ESeq a b) r ce -> R2 a r ce /\ R2 b r ce.
  Proof. intros a b r ce H. split; intros y Hy; apply H; simpl; rewrite Hy, ?orb_true_r; auto. Qed.

  Lemma R2_app : forall f args r ce, R2 (EApp f args) r ce -> R2l args r ce /\ R2 f r ce.
  Proof. intros f args r ce H. split; intros y Hy; apply H; rewrite fv_app_eq, Hy, ?orb_true_r; auto. Qed.

  Lemma R2l_cons : forall e es r ce, R2l (e :: es) r ce -> R2 e r ce /\ R2l es r ce.
  Proof. intros e es r ce H. split; intros y Hy; apply H; simpl; rewrite Hy, ?orb_true_r; auto. Qed.

  Lemma R2_let : forall bs body r ce, R2 (ELet bs body) r ce ->
    R2l (map snd bs) r ce /\
    forall vs d, R2 body (bind (map fst bs) vs r) (bind_slots (map fst bs) d ce).
  Proof. intros bs body r ce. apply Rel.unbound_let. intros x. apply fv_let_eq. Qed.

  Lemma vrel_atom : forall v mv, vrel v mv -> val_atom v = mval_atom mv.
  Proof. destruct 1; simpl; auto. Qed.

  Lemma vrel_atoms : forall vs mvs, Forall2 vrel vs mvs -> map val_atom vs = map mval_atom mvs.
  Proof. induction 1; simpl; auto. f_equal; auto. apply vrel_atom; auto. Qed.

  Lemma vrel_of_atom : forall a, vrel (atom_val a) (atom_mval a).
  Proof. destruct a; simpl; constructor. Qed.

  Lemma vrel_truthy : forall v mv, vrel v mv -> truthy v = mtruthy mv.
  Proof. intros. unfold truthy, mtruthy. erewrite vrel_atom; eauto. Qed.

  Lemma vrel_const : forall c, vrel (const_val c) (const_mval c).
  Proof. destruct c; simpl; constructor. Qed.

  Variable MG : list (ident * mval).

  Inductive returns_from (C : list instr) : nat -> nat -> Prop :=
  | rf_pop : forall pc d, nth_error C pc = Some POPPURE -> returns_from C pc d
  | rf_jmp : forall pc d k, nth_error C pc = Some (JMP k) -> returns_from C (pc + k) d -> returns_from C pc d
  | rf_let : forall pc d m, nth_error C pc = Some (LETENDSCOPE m) -> m <= d ->
             returns_from C (S pc) m -> returns_from C pc d.

  Notation star := (star limit).
  Notation vm_step := (vm_step limit).

  (* the stack shapes are those the simulation meets: [below] are the slots of the frames underneath,
     [st ++ [v]] a stack with the operand [v] on top *)
  Section Steps.
    Variables (C : list instr) (pc : nat) (fs : list frame).

    Lemma step_PUSHCONST : forall c st, nth_error C pc = Some (PUSHCONST c) ->
      vm_step (mkVM C pc st fs MG) = SNext (mkVM C (S pc) (st ++ [const_mval c]) fs MG).
    Proof. intros c st Hi. unfold Bytecode.vm_step. simpl. rewrite Hi. reflexivity. Qed.

    Lemma step_READLOCAL : forall i below slots v, nth_error C pc = Some (READLOCAL i) ->
      length below = cur_sp fs -> nth_error slots i = Some v ->
      vm_step (mkVM C pc (below ++ slots) fs MG) = SNext (mkVM C (S pc) ((below ++ slots) ++ [v]) fs MG).
    Proof.
      intros i below slots v Hi Hb Hv. unfold Bytecode.vm_step. simpl.
      rewrite Hi, <- Hb, nth_error_app_plus, Hv. reflexivity.
    Qed.

    Lemma step_READCAPTURED : forall j st caps v, nth_error C pc = Some (READCAPTURED j) ->
      frame_caps fs caps -> nth_error caps j = Some v ->
      vm_step (mkVM C pc st fs MG) = SNext (mkVM C (S pc) (st ++ [v]) fs MG).
    Proof.
      intros j st caps v Hi Hfc Hv. unfold Bytecode.vm_step. simpl. rewrite Hi.
      destruct fs as [|f fs0]; simpl in Hfc.
      - subst caps. destruct j; discriminate.
      - destruct Hfc as (a & rs & b & ->). rewrite Hv. reflexivity.
    Qed.

    Lemma step_PUSH : forall g st v, nth_error C pc = Some (PUSH g) -> Core.lookup g MG = Some v ->
      vm_step (mkVM C pc st fs MG) = SNext (mkVM C (S pc) (st ++ [v]) fs MG).
    Proof. intros g st v Hi Hg. unfold Bytecode.vm_step. simpl. rewrite Hi, Hg. reflexivity. Qed.

    Lemma step_PUSH_free : forall g st, nth_error C pc = Some (PUSH g) -> Core.lookup g MG = None ->
      vm_step (mkVM C pc st fs MG) = SErr EFree.
    Proof. intros g st Hi Hg. unfold Bytecode.vm_step. simpl. rewrite Hi, Hg. reflexivity. Qed.

    Lemma step_MKCLOSURE : forall a rs srcs body st caps, nth_error C pc = Some (MKCLOSURE a rs srcs body) ->
      fetch_caps st fs srcs = Some caps ->
      vm_step (mkVM C pc st fs MG) = SNext (mkVM C (S pc) (st ++ [MClo a rs body caps]) fs MG).
    Proof. intros a rs srcs body st caps Hi Hf. unfold Bytecode.vm_step. simpl. rewrite Hi, Hf. reflexivity. Qed.

    Lemma step_IF : forall off st v, nth_error C pc = Some (IF off) ->
      vm_step (mkVM C pc (st ++ [v]) fs MG) = SNext (mkVM C (if mtruthy v then S pc else pc + off) st fs MG).
    Proof.
      intros off st v Hi. unfold Bytecode.vm_step. simpl. rewrite Hi, unsnoc_app. destruct (mtruthy v); reflexivity.
    Qed.

    Lemma step_JMP : forall off st, nth_error C pc = Some (JMP off) ->
      vm_step (mkVM C pc st fs MG) = SNext (mkVM C (pc + off) st fs MG).
    Proof. intros off st Hi. unfold Bytecode.vm_step. simpl. rewrite Hi. reflexivity. Qed.

    Lemma step_BEGINSCOPE : forall st, nth_error C pc = Some BEGINSCOPE ->
      vm_step (mkVM C pc st fs MG) = SNext (mkVM C (S pc) st fs MG).
    Proof. intros st Hi. unfold Bytecode.vm_step. simpl. rewrite Hi. reflexivity. Qed.

    Lemma step_LETENDSCOPE : forall d below slots extra v, nth_error C pc = Some (LETENDSCOPE d) ->
      length below = cur_sp fs -> length slots = d ->
      vm_step (mkVM C pc ((below ++ slots ++ extra) ++ [v]) fs MG) =
      SNext (mkVM C (S pc) ((below ++ slots) ++ [v]) fs MG).
    Proof.
      intros d below slots extra v Hi Hb <-. unfold Bytecode.vm_step. simpl. rewrite Hi, unsnoc_app, <- Hb.
      replace (Nat.leb (length below + length slots) (length (below ++ slots ++ extra))) with true
        by (symmetry; apply Nat.leb_le; rewrite !app_length; lia).
      unfold next_with. simpl. rewrite firstn_app_2, firstn_app_exact. reflexivity.
    Qed.

    Lemma step_POPSINGLE : forall st v, nth_error C pc = Some POPSINGLE ->
      vm_step (mkVM C pc (st ++ [v]) fs MG) = SNext (mkVM C (S pc) st fs MG).
    Proof. intros st v Hi. unfold Bytecode.vm_step. simpl. rewrite Hi, unsnoc_app. reflexivity. Qed.

    Lemma step_BIND : forall g st v, nth_error C pc = Some (BIND g) ->
      vm_step (mkVM C pc (st ++ [v]) fs MG) = SNext (mkVM C (S pc) st fs ((g, v) :: MG)).
    Proof. intros g st v Hi. unfold Bytecode.vm_step. simpl. rewrite Hi, unsnoc_app. reflexivity. Qed.
  End Steps.

  Lemma step_POPPURE : forall C pc below slots v f fs', nth_error C pc = Some POPPURE ->
    length below = f_sp f ->
    vm_step (mkVM C pc ((below ++ slots) ++ [v]) (f :: fs') MG) =
    SNext (mkVM (f_ret_code f) (f_ret_ip f) (below ++ [v]) fs' MG).
  Proof.
    intros C pc below slots v f fs' Hi Hb. unfold Bytecode.vm_step. simpl. rewrite Hi, unsnoc_app.
    unfold do_return. simpl. rewrite <- Hb.
    replace (Nat.leb (length below) (length (below ++ slots))) with true
      by (symmetry; apply Nat.leb_le; rewrite app_length; lia).
    rewrite firstn_app_exact. reflexivity.
  Qed.

  Lemma step_POPPURE_top : forall C pc v, nth_error C pc = Some POPPURE ->
    vm_step (mkVM C pc [v] [] MG) = SDone v (mkVM C (S pc) [] [] MG).
  Proof. intros C pc v Hi. unfold Bytecode.vm_step. simpl. rewrite Hi. reflexivity. Qed.

  Lemma step_star : forall s s' s'', vm_step s = SNext s' -> star s' s'' -> star s s''.
  Proof. intros. econstructor; eauto. Qed.

  Lemma star_snoc : forall s s' s'', star s s' -> vm_step s' = SNext s'' -> star s s''.
  Proof. intros. eapply star_trans; eauto. apply star_one; auto. Qed.

  Definition fails (s : vmstate) (k : errk) : Prop := exists s', star s s' /\ vm_step s' = SErr k.

  Lemma fails_now : forall s k, vm_step s = SErr k -> fails s k.
  Proof. intros s k H. exists s. split; [apply star_refl|exact H]. Qed.

  Lemma fails_prefix : forall s0 s k, star s0 s -> fails s k -> fails s0 k.
  Proof. intros s0 s k Hs (s' & Hst & He). exists s'. split; [eapply star_trans; eauto|exact He]. Qed.

  Lemma call_step_notproc : forall tail C pcC st mf n fs,
    nth_error C pcC = Some (call_instr tail n) ->
    match mf with MClo _ _ _ _ | MPrim _ => False | _ => True end ->
    vm_step (mkVM C pcC (st ++ [mf]) fs MG) = SErr ENotProc.
  Proof.
    intros tail C pcC st mf n fs Hi Hmf. unfold Bytecode.vm_step. simpl. rewrite Hi. unfold call_instr.
    destruct tail; rewrite unsnoc_app; destruct mf; simpl in *; tauto.
  Qed.

  Lemma call_step_prim : forall tail C pcC st0 mvs p fs,
    nth_error C pcC = Some (call_instr tail (length mvs)) ->
    vm_step (mkVM C pcC ((st0 ++ mvs) ++ [MPrim p]) fs MG) =
    match prim_sem p (map mval_atom mvs) with
    | inl a => SNext (mkVM C (S pcC) (st0 ++ [atom_mval a]) fs MG)
    | inr k => SErr k
    end.
  Proof.
    intros tail C pcC st0 mvs p fs Hi. unfold Bytecode.vm_step. simpl. rewrite Hi. unfold call_instr.
    destruct tail; rewrite unsnoc_app; simpl; unfold call_prim; simpl;
      (replace (Nat.leb (length mvs) (length (st0 ++ mvs))) with true
         by (symmetry; apply Nat.leb_le; rewrite app_length; lia));
      rewrite skipn_len_app, firstn_len_app; auto.
  Qed.

  Lemma call_step_arity : forall tail C pcC st arity rest body caps n fs,
    nth_error C pcC = Some (call_instr tail n) -> adjust_arity arity rest n st = inr EArity ->
    vm_step (mkVM C pcC (st ++ [MClo arity rest body caps]) fs MG) = SErr EArity.
  Proof.
    intros tail C pcC st arity rest body caps n fs Hi Hadj. unfold Bytecode.vm_step. simpl. rewrite Hi. unfold call_instr.
    destruct tail; rewrite unsnoc_app; simpl; rewrite Hadj; auto.
  Qed.

  Lemma call_step_func : forall C pcC st0 mvs mws n arity rest body caps fs,
    nth_error C pcC = Some (FUNC n) ->
    adjust_arity arity rest n (st0 ++ mvs) = inl (Some (st0 ++ mws)) -> arity = length mws ->
    S (length fs) < limit ->
    vm_step (mkVM C pcC ((st0 ++ mvs) ++ [MClo arity rest body caps]) fs MG) =
    SNext (mkVM body 0 (st0 ++ mws)
                (mkFrame (length st0) (MClo arity rest body caps) (S pcC) C :: fs) MG).
  Proof.
    intros C pcC st0 mvs mws n arity rest body caps fs Hi Hadj -> Hl.
    unfold Bytecode.vm_step. simpl. rewrite Hi. rewrite unsnoc_app. simpl. rewrite Hadj.
    replace (Nat.leb (length mws) (length (st0 ++ mws))) with true
      by (symmetry; apply Nat.leb_le; rewrite app_length; lia).
    replace (Nat.leb limit (S (length fs))) with false by (symmetry; apply Nat.leb_gt; lia).
    rewrite app_length. replace (length st0 + length mws - length mws) with (length st0) by lia. auto.
  Qed.

  Lemma call_step_tail : forall C pcC below slots mvs mws n arity rest body caps f0 fs0,
    nth_error C pcC = Some (TAILCALL n) ->
    adjust_arity arity rest n ((below ++ slots) ++ mvs) = inl (Some ((below ++ slots) ++ mws)) ->
    arity = length mws -> length below = f_sp f0 ->
    vm_step (mkVM C pcC (((below ++ slots) ++ mvs) ++ [MClo arity rest body caps]) (f0 :: fs0) MG) =
    SNext (mkVM body 0 (below ++ mws)
                (mkFrame (f_sp f0) (MClo arity rest body caps) (f_ret_ip f0) (f_ret_code f0) :: fs0) MG).
  Proof.
    intros C pcC below slots mvs mws n arity rest body caps f0 fs0 Hi Hadj -> Hb.
    unfold Bytecode.vm_step. simpl. rewrite Hi. rewrite unsnoc_app. simpl. rewrite Hadj. simpl.
    replace (Nat.leb (length mws) (length ((below ++ slots) ++ mws))) with true
      by (symmetry; apply Nat.leb_le; rewrite !app_length; lia).
    replace (Nat.leb (f_sp f0) (length ((below ++ slots) ++ mws) - length mws)) with true
      by (symmetry; apply Nat.leb_le; rewrite !app_length; lia).
    simpl. rewrite <- Hb. rewrite <- app_assoc. rewrite firstn_app_exact.
    rewrite app_assoc. rewrite skipn_len_app. auto.
  Qed.

  Lemma run_return : forall C pc d, returns_from C pc d ->
    forall below slots mv f fs', length below = f_sp f -> length slots = d ->
    star (mkVM C pc ((below ++ slots) ++ [mv]) (f :: fs') MG)
         (mkVM (f_ret_code f) (f_ret_ip f) (below ++ [mv]) fs' MG).
  Proof.
    induction 1; intros below slots mv f fs' Hb Hs.
    - apply star_one, step_POPPURE; auto.
    - eapply step_star; [apply step_JMP; eauto|]. auto.
    - eapply step_star; [|apply (IHreturns_from below (firstn m slots) mv f fs' Hb)].
      + rewrite <- (firstn_skipn m slots) at 1. eapply step_LETENDSCOPE; eauto.
        rewrite firstn_length. lia.
      + rewrite firstn_length. lia.
  Qed.

  Definition fall_state (C : list instr) (pc' : nat) (below slots : list mval) (fs : list frame) (mv : mval) :=
    mkVM C pc' (below ++ slots ++ [mv]) fs MG.

  Definition ret_state (f : frame) (below : list mval) (fs' : list frame) (mv : mval) :=
    mkVM (f_ret_code f) (f_ret_ip f) (below ++ [mv]) fs' MG.

  Definition outcome (tail : bool) (s : vmstate) C pc' below slots fs mv : Prop :=
    if tail then exists f fs', fs = f :: fs' /\ star s (ret_state f below fs' mv)
    else star s (fall_state C pc' below slots fs mv).

  Definition tail_ok (tail : bool) (C : list instr) (pc' d : nat) (fs : list frame) : Prop :=
    tail = true -> fs <> [] /\ returns_from C pc' d.

  Lemma tail_ok_false : forall C pc' d fs, tail_ok false C pc' d fs.
  Proof. intros C pc' d fs H. discriminate. Qed.

  Lemma outcome_of_push : forall tail s C pc' below slots fs mv,
    star s (mkVM C pc' ((below ++ slots) ++ [mv]) fs MG) ->
    tail_ok tail C pc' (length slots) fs -> length below = cur_sp fs ->
    outcome tail s C pc' below slots fs mv.
  Proof.
    intros tail s C pc' below slots fs mv Hs Ht Hb. destruct tail; simpl.
    - destruct (Ht eq_refl) as [Hne Hr]. destruct fs as [|f fs']; [congruence|].
      exists f, fs'. split; auto. eapply star_trans; eauto. eapply run_return; eauto.
    - unfold fall_state. rewrite app_assoc. exact Hs.
  Qed.

  Lemma outcome_to_ret : forall tl s Cb pc' below' slots' f fs' mv,
    outcome tl s Cb pc' below' slots' (f :: fs') mv ->
    returns_from Cb pc' (length slots') -> length below' = f_sp f ->
    star s (ret_state f below' fs' mv).
  Proof.
    intros tl s Cb pc' below' slots' f fs' mv Ho Hr Hb. destruct tl; simpl in Ho.
    - destruct Ho as (f1 & fs1 & Heq & Hst). inversion Heq; subst. auto.
    - eapply star_trans; [exact Ho|]. unfold fall_state. rewrite app_assoc. eapply run_return; eauto.
  Qed.

  (* one more instruction after a value was pushed; in tail position the frame is gone already *)
  Lemma outcome_step : forall tail s C pc1 pc2 below slots1 slots2 fs mv,
    outcome tail s C pc1 below slots1 fs mv ->
    vm_step (fall_state C pc1 below slots1 fs mv) = SNext (fall_state C pc2 below slots2 fs mv) ->
    outcome tail s C pc2 below slots2 fs mv.
  Proof. intros [|] s C pc1 pc2 below slots1 slots2 fs mv Ho Hs; [exact Ho|]. eapply star_snoc; eauto. Qed.

  (* a call enters the body of the closure in a frame [f]: a new one (FUNC), or the caller's, which keeps its
     return address (TAILCALL); once the body has returned from [f] the call is over *)
  Lemma call_step_closure : forall tail C pcC below slots mvs mws n arity rest body caps fs,
    nth_error C pcC = Some (call_instr tail n) ->
    adjust_arity arity rest n ((below ++ slots) ++ mvs) = inl (Some ((below ++ slots) ++ mws)) ->
    arity = length mws -> length below = cur_sp fs ->
    tail_ok tail C (S pcC) (length slots) fs -> S (length fs) < limit ->
    exists below' f fs',
      vm_step (mkVM C pcC (((below ++ slots) ++ mvs) ++ [MClo arity rest body caps]) fs MG) =
        SNext (mkVM body 0 (below' ++ mws) (f :: fs') MG) /\
      length below' = f_sp f /\ f_fn f = MClo arity rest body caps /\ length fs' <= length fs /\
      forall s mv, star s (ret_state f below' fs' mv) -> outcome tail s C (S pcC) below slots fs mv.
  Proof.
    intros tail C pcC below slots mvs mws n arity rest body caps fs Hi Hadj Ha Hb Ht Hl.
    destruct tail; simpl in Hi.
    - destruct (Ht eq_refl) as [Hne _]. destruct fs as [|f0 fs0]; [congruence|]. simpl in Hb.
      exists below, (mkFrame (f_sp f0) (MClo arity rest body caps) (f_ret_ip f0) (f_ret_code f0)), fs0.
      split; [eapply call_step_tail; eauto|]. split; [exact Hb|]. split; [reflexivity|]. split; [simpl; lia|].
      intros s mv Hs. exists f0, fs0. split; auto.
    - exists (below ++ slots), (mkFrame (length (below ++ slots)) (MClo arity rest body caps) (S pcC) C), fs.
      split; [eapply call_step_func; eauto|]. split; [reflexivity|]. split; [reflexivity|]. split; [lia|].
      intros s mv Hs. unfold outcome, fall_state. rewrite app_assoc. exact Hs.
  Qed.

  Lemma read_loc : forall r ce below slots caps fs x lc C pc,
    R1 r ce slots caps -> frame_caps fs caps -> length below = cur_sp fs ->
    Core.lookup x ce = Some lc ->
    nth_error C pc = Some (match lc with Slot i => READLOCAL i | Cap j => READCAPTURED j end) ->
    exists v mv, Core.lookup x r = Some v /\ vrel v mv /\
      vm_step (mkVM C pc (below ++ slots) fs MG) = SNext (mkVM C (S pc) ((below ++ slots) ++ [mv]) fs MG).
  Proof.
    intros r ce below slots caps fs x lc C pc HR1 Hfc Hb Hce Hi.
    destruct (HR1 x lc Hce) as (v & mv & Hv & Hf & Hrel). exists v, mv. split; auto. split; auto.
    destruct lc; simpl in Hf; [eapply step_READLOCAL|eapply step_READCAPTURED]; eauto.
  Qed.

  Lemma fetch_caps_ok : forall r ce below slots caps fs,
    R1 r ce slots caps -> frame_caps fs caps -> length below = cur_sp fs ->
    forall l, (forall x, In x l -> In x (map fst ce)) ->
    exists caps', fetch_caps (below ++ slots) fs (map (capsrc_of ce) l) = Some caps' /\
      forall j x, nth_error l j = Some x ->
        exists v mv, Core.lookup x r = Some v /\ nth_error caps' j = Some mv /\ vrel v mv.
  Proof.
    intros r ce below slots caps fs HR1 Hfc Hb. induction l as [|x l IH]; intros Hin.
    - exists []. split; auto. intros [|j] y Hy; discriminate.
    - destruct IH as (caps' & Hf & Hall). { intros; apply Hin; simpl; auto. }
      destruct (lookup_in_fst _ x ce (Hin x (or_introl eq_refl))) as [lc Hlc].
      destruct (HR1 x lc Hlc) as (v & mv & Hv & Hfetch & Hrel).
      exists (mv :: caps'). split.
      + simpl. rewrite Hf. unfold capsrc_of. rewrite Hlc. destruct lc; simpl in *.
        * rewrite <- Hb, nth_error_app_plus, Hfetch. auto.
        * destruct fs as [|f fs0]; simpl in Hfc.
          -- subst caps. destruct n; discriminate.
          -- destruct Hfc as (a & rs & b & ->). rewrite Hfetch. auto.
      + intros [|j] y Hy; simpl in *.
        * inversion Hy; subst. eauto.
        * eauto.
  Qed.

  Lemma captured_in : forall ce ps body x, In x (captured ce ps body) -> In x (map fst ce).
  Proof. unfold captured. intros. apply filter_In in H. destruct H as [H _]. apply in_rev; auto. Qed.

  Variable G : env.
  Hypothesis HG : Grel G MG.

  Definition sim_concl (res : result) (tail : bool) (s : vmstate) C pc' below slots fs : Prop :=
    match res with
    | Val v => exists mv, vrel v mv /\ outcome tail s C pc' below slots fs mv
    | Err k => fails s k
    end.

  (* [d] is the depth the code was compiled at: the number of slots of the frame *)
  Definition sim_at (n : nat) : Prop :=
    forall r e res, ceval G n r e = Some res ->
    forall ce tail C pc pc' below slots d caps fs,
      code_seg C pc (compile tco ce d tail e) pc' -> length slots = d ->
      length below = cur_sp fs -> frame_caps fs caps ->
      R1 r ce slots caps -> R2 e r ce ->
      length fs + n <= limit ->
      tail_ok tail C pc' d fs ->
      sim_concl res tail (mkVM C pc (below ++ slots) fs MG) C pc' below slots fs.

  Lemma sim_concl_prefix : forall res tail s0 s C pc' below slots fs,
    star s0 s -> sim_concl res tail s C pc' below slots fs -> sim_concl res tail s0 C pc' below slots fs.
  Proof.
    intros res tail s0 s C pc' below slots fs Hs H. destruct res; simpl in *.
    - destruct H as (mv & Hv & Ho). exists mv. split; auto. unfold outcome in *. destruct tail.
      + destruct Ho as (f & fs' & -> & Hst). exists f, fs'. split; auto. eapply star_trans; eauto.
      + eapply star_trans; eauto.
    - eapply fails_prefix; eauto.
  Qed.

  Lemma sim_concl_step : forall res tail s C pc1 pc2 below slots1 slots2 fs,
    sim_concl res tail s C pc1 below slots1 fs ->
    (forall mv, vm_step (fall_state C pc1 below slots1 fs mv) = SNext (fall_state C pc2 below slots2 fs mv)) ->
    sim_concl res tail s C pc2 below slots2 fs.
  Proof.
    intros [v|k] tail s C pc1 pc2 below slots1 slots2 fs H Hs; [|exact H].
    destruct H as (mv & Hv & Ho). exists mv. split; auto. eapply outcome_step; eauto.
  Qed.

  Lemma sim_err_now : forall k tail s C pc' below slots fs,
    vm_step s = SErr k -> sim_concl (Err k) tail s C pc' below slots fs.
  Proof. intros. apply fails_now. auto. Qed.

  Lemma sim_push : forall tail s C pc' below slots fs v mv,
    vm_step s = SNext (mkVM C pc' ((below ++ slots) ++ [mv]) fs MG) ->
    vrel v mv -> tail_ok tail C pc' (length slots) fs -> length below = cur_sp fs ->
    sim_concl (Val v) tail s C pc' below slots fs.
  Proof.
    intros tail s C pc' below slots fs v mv Hs Hv Ht Hb. exists mv. split; auto.
    apply outcome_of_push; auto. apply star_one; auto.
  Qed.

  Lemma evals_length : forall ev es vs, evals ev es = Some (inl vs) -> length vs = length es.
  Proof.
    induction es; simpl; intros.
    - inversion H; auto.
    - destruct (ev a) as [[v|k]|]; try discriminate.
      destruct (evals ev es) as [[vs'|k]|]; try discriminate.
      inversion H; subst. simpl. f_equal. auto.
  Qed.

  (* ceval's bind as a rule.  The hypothesis is ceval's own [match ceval .. with Some (Val v) => K v | Some (Err k) =>
     Some (Err k) | None => None end], so a use is [exact Hev] and unification finds K; error and out-of-fuel end here.
     Left to the caller: the conclusion from the state with the related value pushed, under [K v = Some res].
     [sl]: the slots plus the operands pushed so far.  [sim_subs]: the same for [evals]. *)
  Lemma sim_sub : forall n, sim_at n -> forall r e ce C pc p1 below sl d caps fs,
    code_seg C pc (compile tco ce d false e) p1 -> length sl = d ->
    length below = cur_sp fs -> frame_caps fs caps -> R1 r ce sl caps -> R2 e r ce -> length fs + n <= limit ->
    forall res tail pc' slots (K : val -> option result),
    match ceval G n r e with Some (Val v) => K v | Some (Err k) => Some (Err k) | None => None end = Some res ->
    (forall v mv, K v = Some res -> vrel v mv ->
       sim_concl res tail (mkVM C p1 ((below ++ sl) ++ [mv]) fs MG) C pc' below slots fs) ->
    sim_concl res tail (mkVM C pc (below ++ sl) fs MG) C pc' below slots fs.
  Proof.
    intros n IH r e ce C pc p1 below sl d caps fs Hc Hd Hb Hfc H1 H2 Hl res tail pc' slots K Hev Hk.
    destruct (ceval G n r e) as [res1|] eqn:Hev1; [|discriminate].
    specialize (IH r e res1 Hev1 ce false C pc p1 below sl d caps fs Hc Hd Hb Hfc H1 H2 Hl (tail_ok_false _ _ _ _)).
    destruct res1 as [v|k]; [|injection Hev as <-; exact IH].
    destruct IH as (mv & Hr & Hs). unfold outcome, fall_state in Hs. rewrite app_assoc in Hs.
    eapply sim_concl_prefix; [exact Hs|]. apply (Hk v); auto.
  Qed.

  Lemma sim_subs : forall n, sim_at n -> forall r es ce C pc p1 below sl d caps fs,
    code_seg C pc (compile_list tco ce d es) p1 -> length sl = d ->
    length below = cur_sp fs -> frame_caps fs caps -> R1 r ce sl caps -> R2l es r ce -> length fs + n <= limit ->
    forall res tail pc' slots (K : list val -> option result),
    match evals (ceval G n r) es with Some (inl vs) => K vs | Some (inr k) => Some (Err k) | None => None end = Some res ->
    (forall vs mvs, K vs = Some res -> Forall2 vrel vs mvs -> length mvs = length es ->
       sim_concl res tail (mkVM C p1 (below ++ sl ++ mvs) fs MG) C pc' below slots fs) ->
    sim_concl res tail (mkVM C pc (below ++ sl) fs MG) C pc' below slots fs.
  Proof.
    intros n IH r es. induction es as [|e es IHes];
      intros ce C pc p1 below sl d caps fs Hc Hd Hb Hfc HR1 HR2 Hlim res tail pc' slots K Hev Hk.
    - destruct Hc as [_ ->]. specialize (Hk [] [] Hev (Forall2_nil _) eq_refl).
      rewrite Nat.add_0_r, app_nil_r in Hk. exact Hk.
    - simpl in Hc, Hev. apply code_seg_app in Hc as (p0 & Hc1 & Hc2). apply R2l_cons in HR2 as [HR2e HR2r].
      eapply (sim_sub n IH r e) with (K := fun v =>
        match evals (ceval G n r) es with Some (inl vs) => K (v :: vs) | Some (inr k) => Some (Err k) | None => None end); eauto.
      { destruct (ceval G n r e) as [[v|k]|]; auto. destruct (evals (ceval G n r) es) as [[vs|k]|]; auto. }
      intros v mv Hev1 Hv. rewrite <- app_assoc.
      eapply (IHes ce C p0 p1 below (sl ++ [mv])) with (K := fun vs => K (v :: vs)); eauto.
      { rewrite app_length. simpl. lia. }
      { apply Rel.R1_more_slots; auto. }
      intros vs mvs Hev2 HF Hlm. rewrite <- app_assoc. apply (Hk (v :: vs) (mv :: mvs)); simpl; auto.
  Qed.

  (* a related closure called with related operands: its body runs in the frame the call instruction sets up
     and returns the related value to where that frame says *)
  Lemma sim_call_closure : forall n, sim_at n -> forall ps rest body r0 clo vs mvs res tail C pcC below slots fs,
    vrel (VClo ps rest body r0) clo -> Forall2 vrel vs mvs ->
    match call_args ps rest vs with
    | Some (xs, ws) => ceval G n (bind xs ws r0) body
    | None => Some (Err EArity)
    end = Some res ->
    nth_error C pcC = Some (call_instr tail (length mvs)) -> length below = cur_sp fs ->
    length fs + S n <= limit -> tail_ok tail C (S pcC) (length slots) fs ->
    sim_concl res tail (mkVM C pcC (((below ++ slots) ++ mvs) ++ [clo]) fs MG) C (S pcC) below slots fs.
  Proof.
    intros n IH ps rest body r0 clo vs mvs res tail C pcC below slots fs Hclo HF Hev HiC Hb Hlim Htail.
    inversion Hclo as [| | | |ps' rest' body' r' fvs caps0 Hcaps Hfree|]; subst.
    set (bodyc := compile tco (body_cenv (params ps rest) fvs) (length (params ps rest)) tco body) in *.
    destruct (call_args ps rest vs) as [[xs ws]|] eqn:Hcargs.
    2:{ injection Hev as <-. apply sim_err_now.
        eapply call_step_arity; eauto. eapply (Rel.adjust_err VList MList); eauto. eapply Forall2_length; eauto. }
    destruct (Rel.adjust_ok vrel VList MList vr_list ps rest vs xs ws mvs (below ++ slots) Hcargs HF) as (mws & Hadj & HFw & -> & Hlw & _).
    assert (Hpm : length mws = length (params ps rest)) by (rewrite Hlw; symmetry; eapply Forall2_length; eauto).
    destruct (call_step_closure tail C pcC below slots mvs mws _ _ _ (bodyc ++ [POPPURE]) caps0 fs HiC Hadj (eq_sym Hpm) Hb Htail)
      as (below' & f & fs' & Hstep & Hb' & Hfn & Hfs & Hout).
    { destruct n; [discriminate|lia]. }
    eapply sim_concl_prefix; [apply star_one, Hstep|].
    assert (Hrf : returns_from (bodyc ++ [POPPURE]) (length bodyc) (length (params ps rest))) by apply rf_pop, nth_error_mid.
    assert (Htk : tail_ok tco (bodyc ++ [POPPURE]) (length bodyc) (length (params ps rest)) (f :: fs'))
      by (intros _; split; [discriminate|exact Hrf]).
    pose proof (IH _ body res Hev (body_cenv (params ps rest) fvs) tco (bodyc ++ [POPPURE]) 0 _ below' mws _ caps0 (f :: fs')
                   (code_seg_zero _ _) Hpm Hb' (ex_intro _ _ (ex_intro _ _ (ex_intro _ _ Hfn)))
                   (Rel.entry_R1 vrel _ _ _ _ _ _ Hcaps HFw Hlw) (Rel.entry_R2 (fun x => fv x body) _ _ _ _ Hfree)
                   ltac:(simpl; lia) Htk) as H3.
    destruct res as [v|k]; [|exact H3].
    destruct H3 as (mv & Hrel & Ho). exists mv. split; auto.
    apply Hout. eapply outcome_to_ret; eauto. rewrite Hpm. exact Hrf.
  Qed.

  Lemma sim_all : forall n, sim_at n.
  Proof.
    induction n as [|n IH]; intros r e res Hev; [discriminate|].
    intros ce tail C pc pc' below slots d caps fs Hc Hd Hb Hfc HR1 HR2 Hlim Htail.
    assert (Hlim' : length fs + n <= limit) by lia.
    destruct e as [c|x|ps rest e|fe args|e1 e2 e3|bs e|e1 e2]; simpl in Hev.
    - (* EConst *)
      injection Hev as <-. apply code_seg_one in Hc as [Hi ->]. subst d.
      eapply sim_push; eauto using vrel_const, step_PUSHCONST.
    - (* EVar *)
      apply code_seg_one in Hc as [Hi ->]. subst d.
      destruct (Core.lookup x ce) as [lc|] eqn:Hce.
      + destruct (read_loc _ _ _ _ _ _ x lc C pc HR1 Hfc Hb Hce Hi) as (v & mv & Hv & Hrel & Hstep).
        rewrite Hv in Hev. injection Hev as <-. eapply sim_push; eauto.
      + rewrite (HR2 x) in Hev by (simpl; auto using String.eqb_refl).
        destruct (Core.lookup x G) as [v|] eqn:HxG; injection Hev as <-.
        * destruct (Rel.Grel_some _ _ _ _ _ HG HxG) as (mv & HxM & Hrel).
          eapply sim_push; eauto using step_PUSH.
        * apply sim_err_now. eapply step_PUSH_free; eauto. eapply Rel.Grel_none; eauto.
    - (* ELam *)
      injection Hev as <-. apply code_seg_one in Hc as [Hi ->]. subst d.
      destruct (fetch_caps_ok r ce below slots caps fs HR1 Hfc Hb (captured ce (params ps rest) e))
        as (caps' & Hfetch & Hall). { intros y Hy. eapply captured_in; eauto. }
      eapply sim_push; [eapply step_MKCLOSURE; eauto| |auto|auto].
      constructor; auto.
      exact (Rel.uncaptured_unbound (fun x => fv x e) _ _ _ HR2).
    - (* EApp *)
      rewrite compile_app_eq in Hc. fold (call_instr tail (length args)) in Hc.
      apply code_seg_app in Hc as (p1 & Hca & Hc). apply code_seg_app in Hc as (p2 & Hcf & Hc).
      apply code_seg_one in Hc as [HiC ->]. apply R2_app in HR2 as [HRl HRf].
      eapply (sim_subs n IH r args); eauto; [exact Hev|]. clear Hev. intros vs mvs Hev HF Hlen.
      eapply (sim_sub n IH r fe ce C p1 p2 below (slots ++ mvs)); eauto.
      { rewrite app_length. lia. }
      { apply Rel.R1_more_slots; auto. }
      { exact Hev. }
      clear Hev. intros fv0 mf Hev Hrelf.
      rewrite (app_assoc below slots mvs). rewrite <- Hlen in HiC. subst d.
      destruct Hrelf as [z|b| |p|ps rest body r0 fvs caps0 Hcaps Hfree|l ml Hl];
        try (injection Hev as <-; apply sim_err_now; eapply call_step_notproc; eauto; exact I).
      + (* primitive *)
        injection Hev as <-. unfold prim_apply. rewrite (vrel_atoms _ _ HF).
        pose proof (call_step_prim tail C _ (below ++ slots) mvs p fs HiC) as Hp.
        destruct (prim_sem p (map mval_atom mvs)) as [a|k]; [|apply sim_err_now; exact Hp].
        eapply sim_push; eauto using vrel_of_atom.
      + eapply sim_call_closure; eauto using vr_clo.
    - (* EIf *)
      cbn [compile] in Hc. apply code_seg_if in Hc as (p1 & p2 & Hcc & HiI & Hct & HiJ & Hcf & Ei & Ej).
      apply R2_if in HR2 as (HRc & HRt & HRf).
      eapply (sim_sub n IH r e1); eauto; [exact Hev|]. clear Hev. intros vc mvc Hev Hrelc.
      cbv beta in Hev. rewrite (vrel_truthy _ _ Hrelc) in Hev.
      eapply sim_concl_prefix; [apply star_one, step_IF, HiI|].
      rewrite Ei. destruct (mtruthy mvc).
      + (* then branch: its value is pushed before the JMP over the else branch *)
        assert (Htk : tail_ok tail C p2 d fs).
        { intros Ht. destruct (Htail Ht) as [Hne Hrf]. split; auto. eapply rf_jmp; [exact HiJ|]. rewrite Ej. exact Hrf. }
        eapply sim_concl_step; [eapply IH; eauto|].
        intros mv. unfold fall_state. rewrite (step_JMP _ _ _ _ _ HiJ), Ej. reflexivity.
      + eapply IH; eauto.
    - (* ELet *)
      rewrite compile_let_eq in Hc.
      apply code_seg_cons in Hc as [HiB Hc]. apply code_seg_app in Hc as (p1 & Hcl & Hc).
      apply code_seg_app in Hc as (p2 & Hcb & Hc). apply code_seg_one in Hc as [HiL ->].
      apply R2_let in HR2 as [HRl HR2'].
      eapply sim_concl_prefix; [apply star_one, step_BEGINSCOPE, HiB|].
      eapply (sim_subs n IH r (map snd bs)); eauto; [exact Hev|]. clear Hev. intros vs mvs Hev HF Hlenm.
      rewrite map_length in Hlenm.
      eapply sim_concl_step.
      + eapply (IH _ e res Hev (bind_slots (map fst bs) d ce) tail C p1 p2 below (slots ++ mvs)); eauto.
        * rewrite app_length. lia.
        * subst d. apply Rel.R1_bind; auto. rewrite map_length, <- Hlenm. symmetry. eapply Forall2_length; eauto.
        * intros Ht. destruct (Htail Ht) as [Hne Hrf]. split; auto. eapply rf_let; [exact HiL|lia|exact Hrf].
      + intros mv. unfold fall_state. rewrite !app_assoc, <- (app_assoc below). eapply step_LETENDSCOPE; eauto.
    - (* ESeq *)
      cbn [compile] in Hc.
      apply code_seg_app in Hc as (p1 & Hc1 & Hc). apply code_seg_cons in Hc as [Hi Hc2].
      apply R2_seq in HR2 as [HRa HRb].
      eapply (sim_sub n IH r e1); eauto; [exact Hev|]. clear Hev. intros v1 mv1 Hev _. cbv beta in Hev.
      eapply sim_concl_prefix; [apply star_one, step_POPSINGLE, Hi|].
      eapply IH; eauto.
  Qed.
End Sim.

Lemma vm_run_mono : forall limit k s r, vm_run limit k s = r -> r <> RFuel ->
  forall k', k <= k' -> vm_run limit k' s = r.
Proof.
  induction k; simpl; intros s r H Hr k' Hk.
  - congruence.
  - destruct k'; [lia|]. simpl. destruct (vm_step limit s); auto. apply IHk; auto. lia.
Qed.

Section Runs.
  Variable limit : nat.

  Definition runs_to (s : vmstate) (r : run_result) : Prop :=
    exists k, forall k', k <= k' -> vm_run limit k' s = r.

  Lemma runs_now : forall k s r, vm_run limit k s = r -> r <> RFuel -> runs_to s r.
  Proof. intros k s r Hr Hne. exists k. intros. eapply vm_run_mono; eauto. Qed.

  Lemma runs_to_star : forall s s' r, star limit s s' -> runs_to s' r -> runs_to s r.
  Proof.
    induction 1; intros Hr; auto. destruct (IHstar Hr) as [k0 Hk0]. exists (S k0). intros [|k'] Hk'; [lia|].
    simpl. rewrite H. apply Hk0. lia.
  Qed.

  Lemma fails_run : forall s ek, fails limit s ek -> runs_to s (RErr ek).
  Proof.
    intros s ek (s' & Hst & He). eapply runs_to_star; [exact Hst|]. apply (runs_now 1); [|discriminate].
    simpl. rewrite He. auto.
  Qed.

  Lemma runs_to_top : forall c mv MG,
    runs_to (mkVM (c ++ [POPPURE]) (length c) [mv] [] MG) (RDone mv (mkVM (c ++ [POPPURE]) (S (length c)) [] [] MG)).
  Proof. intros. apply (runs_now 1); [|discriminate]. simpl. rewrite step_POPPURE_top; auto. apply nth_error_mid. Qed.

  Lemma runs_to_define : forall c x mv MG,
    runs_to (mkVM (c ++ [BIND x; PUSHCONST KVoid; POPPURE]) (length c) [mv] [] MG)
            (RDone MVoid (mkVM (c ++ [BIND x; PUSHCONST KVoid; POPPURE]) (S (S (S (length c)))) [] [] ((x, mv) :: MG))).
  Proof.
    intros c x mv MG. apply (runs_now 3); [|discriminate].
    assert (E : forall i, nth_error (c ++ [BIND x; PUSHCONST KVoid; POPPURE]) (length c + i) =
                          nth_error [BIND x; PUSHCONST KVoid; POPPURE] i) by (intros; apply nth_error_app_plus).
    cbn [vm_run]. rewrite (step_BIND limit MG _ _ _ x [] mv) by (rewrite <- (Nat.add_0_r (length c)); apply E).
    rewrite step_PUSHCONST with (c := KVoid) by (rewrite <- Nat.add_1_r; apply E). cbn [app].
    rewrite step_POPPURE_top by (rewrite <- (Nat.add_1_r (length c)), <- Nat.add_1_r, <- Nat.add_assoc; apply E).
    reflexivity.
  Qed.
End Runs.

Lemma Grel_prims : forall tco, Grel tco prim_env prim_globals.
Proof.
  intros tco g. unfold prim_env, prim_globals. induction prim_table as [|[x p] t]; simpl; auto.
  destruct (String.eqb g x); auto. constructor.
Qed.

Lemma R2_empty : forall e ce, R2 e [] ce.
Proof. intros e ce x _ _. auto. Qed.

(* a closed expression compiled in front of [post], run from the initial state: the value is pushed and the run goes
   on as [post] does from there *)
Lemma sim_unit : forall limit tco G MG, Grel tco G MG ->
  forall n e res post rr, ceval G n [] e = Some res -> n <= limit ->
  let c := compile tco [] 0 false e in
  (forall mv, runs_to limit (mkVM (c ++ post) (length c) [mv] [] MG) (rr mv)) ->
  match res with
  | Val v => exists mv, vrel tco v mv /\ runs_to limit (init_vm (c ++ post) MG) (rr mv)
  | Err ek => runs_to limit (init_vm (c ++ post) MG) (RErr ek)
  end.
Proof.
  intros limit tco G MG HG n e res post rr Hev Hn c Hpost.
  pose proof (sim_all limit tco MG G HG n [] e res Hev [] false (c ++ post) 0 _ [] [] 0 [] [] (code_seg_zero _ _)
                eq_refl eq_refl eq_refl (Rel.R1_empty _ _) (R2_empty _ _) Hn (tail_ok_false _ _ _ _)) as H.
  destruct res as [v|ek]; [|apply fails_run, H].
  destruct H as (mv & Hrel & Hst). exists mv. split; auto. eapply runs_to_star; [exact Hst|apply Hpost].
Qed.

Lemma sim_defs : forall limit tco n ds G MG, Grel tco G MG -> n <= limit ->
  forall x, run_defs n G ds = Some x ->
  match x with
  | inl G' => exists k MG', Grel tco G' MG' /\ forall k', k <= k' -> vm_defs limit tco false k' MG ds = inr MG'
  | inr ek => exists k, forall k', k <= k' -> vm_defs limit tco false k' MG ds = inl (RErr ek)
  end.
Proof.
  intros limit tco n ds. induction ds as [|[y e] ds IH]; intros G MG HG Hn x Hx; simpl in Hx.
  - inversion Hx; subst. exists 0, MG. split; auto.
  - pose proof (fun res He => sim_unit limit tco G MG HG n e res _ _ He Hn (fun mv => runs_to_define limit _ y mv MG)) as Hu.
    destruct (ceval G n [] e) as [[v|ek]|]; try discriminate.
    + destruct (Hu _ eq_refl) as (mv & Hrel & k1 & Hrun).
      specialize (IH ((y, v) :: G) ((y, mv) :: MG) (Rel.Grel_cons _ _ _ _ _ _ HG Hrel) Hn x Hx).
      destruct x as [G'|ek].
      * destruct IH as (k2 & MG' & HG' & Hk2). exists (Nat.max k1 k2), MG'. split; auto.
        intros k' Hk'. simpl. unfold finish. rewrite Hrun by lia. apply Hk2. lia.
      * destruct IH as (k2 & Hk2). exists (Nat.max k1 k2).
        intros k' Hk'. simpl. unfold finish. rewrite Hrun by lia. apply Hk2. lia.
    + inversion Hx; subst x. destruct (Hu _ eq_refl) as (k1 & Hrun).
      exists k1. intros k' Hk'. simpl. unfold finish. rewrite Hrun; auto.
Qed.

Lemma vrel_canon : forall tco v mv, vrel tco v mv -> canon_val v = canon_mval mv.
Proof.
  intros tco. fix IH 3. intros v mv H. destruct H; simpl; auto.
  f_equal. f_equal. f_equal. induction H; simpl; auto. f_equal; auto.
Qed.

Lemma var_latest : forall G n r x v, ceval G (S n) ((x, v) :: r) (EVar x) = Some (Val v).
Proof. intros. simpl. rewrite String.eqb_refl. auto. Qed.

Lemma dead_branch_true : forall G n r c t e1 e2 v,
  ceval G n r c = Some (Val v) -> truthy v = true ->
  ceval G (S n) r (EIf c t e1) = ceval G (S n) r (EIf c t e2) /\
  ceval G (S n) r (EIf c t e1) = ceval G n r t.
Proof. intros G n r c t e1 e2 v Hc Ht. simpl. rewrite Hc, Ht. auto. Qed.

Lemma dead_branch_false : forall G n r c t1 t2 e v,
  ceval G n r c = Some (Val v) -> truthy v = false ->
  ceval G (S n) r (EIf c t1 e) = ceval G (S n) r (EIf c t2 e) /\
  ceval G (S n) r (EIf c t1 e) = ceval G n r e.
Proof. intros G n r c t1 t2 e v Hc Ht. simpl. rewrite Hc, Ht. auto. Qed.

Lemma dead_lambda_body : forall G n r ps rest body,
  ceval G (S n) r (ELam ps rest body) = Some (Val (VClo ps rest body r)).
Proof. auto. Qed.

Lemma dead_code_silent : forall G n r c t e1 e2 v,
  ceval G n r c = Some (Val v) ->
  (truthy v = true -> ceval G (S n) r (EIf c t e1) = ceval G (S n) r (EIf c t e2)) /\
  (truthy v = false -> ceval G (S n) r (EIf c e1 t) = ceval G (S n) r (EIf c e2 t)) /\
  (forall ps rest body, ceval G (S n) r (ELam ps rest body) = Some (Val (VClo ps rest body r))).
Proof.
  intros G n r c t e1 e2 v H. split; [|split].
  - intros Ht. simpl. rewrite H, Ht. auto.
  - intros Ht. simpl. rewrite H, Ht. auto.
  - auto.
Qed.

Lemma call_args_exact : forall G n r f args ps rest body r' vs,
  evals (ceval G n r) args = Some (inl vs) ->
  ceval G n r f = Some (Val (VClo ps rest body r')) ->
  ceval G (S n) r (EApp f args) =
    match call_args ps rest vs with
    | Some (xs, ws) => ceval G n (bind xs ws r') body
    | None => Some (Err EArity)
    end /\
  (rest = None -> length ps = length vs -> call_args ps rest vs = Some (ps, vs)) /\
  (rest = None -> length ps <> length vs -> call_args ps rest vs = None) /\
  (forall r0, rest = Some r0 -> length ps <= length vs ->
     call_args ps rest vs = Some (ps ++ [r0], firstn (length ps) vs ++ [VList (skipn (length ps) vs)])) /\
  (forall xs ws, call_args ps rest vs = Some (xs, ws) -> NoDup xs ->
     forall i x v, nth_error xs i = Some x -> nth_error ws i = Some v -> Core.lookup x (bind xs ws r') = Some v) /\
  length vs = length args.
Proof.
  intros G n r f args ps rest body r' vs He Hf. repeat split.
  - simpl. rewrite He, Hf. destruct (call_args ps rest vs) as [[xs ws]|]; auto.
  - intros -> Hl. unfold call_args. apply Nat.eqb_eq in Hl. rewrite Hl. auto.
  - intros -> Hl. unfold call_args. apply Nat.eqb_neq in Hl. rewrite Hl. auto.
  - intros r0 -> Hl. unfold call_args. apply Nat.leb_le in Hl. rewrite Hl. auto.
  - intros xs ws Hc Hnd i x v Hx Hv. eapply lookup_bind_nth; eauto.
  - eapply evals_length; eauto.
Qed.

(* [s] continuing in the code [C']: C01_callglobal_fusion (Properties_C01.v) compares next states up to this *)
Definition with_code (C' : list instr) (s : vmstate) : vmstate :=
  mkVM C' (ip s) (stack s) (frames s) (globals s).

