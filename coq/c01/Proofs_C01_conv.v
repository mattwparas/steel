(* C01 — correctness of the assignment conversion: the reference store semantics CoreS.seval (every
   variable a store location) agrees with CoreS.beval after [assign_convert] (immutable locals + boxes).
   A world W records, for every source location, whether it is the location of an ASSIGNED local (then
   it corresponds to a box address) or of a never-assigned local (then it corresponds to the immutable
   value bound in the converted environment); worlds only grow; the content of a never-assigned location
   never changes because every variable that is the target of a set! in its scope is boxed. *)
From Coq Require Import String.
From Coq Require Import List Bool Lia Arith.
From SV Require Import lib.Lang lib.Core lib.CoreS c01.Facts_C01.
Import ListNotations.
Open Scope list_scope.

Lemma bevals_mono_gen : forall (ev ev' : bexpr -> bstate -> option bresult),
  (forall e st r, ev e st = Some r -> ev' e st = Some r) ->
  forall es st r, bevals ev es st = Some r -> bevals ev' es st = Some r.
Proof.
  intros ev ev' H. induction es; simpl; intros st r Hr; auto.
  destruct (ev a st) as [[v st1|k]|] eqn:E; try discriminate; rewrite (H _ _ _ E); auto.
  destruct (bevals ev es st1) as [[[vs st2]|k]|] eqn:E2; try discriminate; rewrite (IHes _ _ E2); auto.
Qed.

Lemma beval_S : forall n r e st res, beval n r e st = Some res -> beval (S n) r e st = Some res.
Proof.
  induction n as [|n IH]; intros r e st res H; [discriminate|].
  destruct e; simpl in H; remember (S n) as m eqn:Em; simpl; subst m; auto.
  - destruct (bevals (beval n r) args st) as [[[vs st1]|k]|] eqn:E; try discriminate;
      rewrite (bevals_mono_gen (beval n r) (beval (S n) r) (IH r) _ _ _ E); auto.
    destruct (beval n r e st1) as [[fv st2|k]|] eqn:E2; try discriminate; rewrite (IH _ _ _ _ E2); auto.
    destruct fv; auto. destruct (bcall_args ps rest vs) as [[xs ws]|]; auto.
  - destruct (beval n r e1 st) as [[v st1|k]|] eqn:E; try discriminate; rewrite (IH _ _ _ _ E); auto.
    destruct (atom_truthy (bval_atom v)); auto.
  - destruct (bevals (beval n r) (map snd bs) st) as [[[vs st1]|k]|] eqn:E; try discriminate;
      rewrite (bevals_mono_gen (beval n r) (beval (S n) r) (IH r) _ _ _ E); auto.
  - destruct (beval n r e1 st) as [[v st1|k]|] eqn:E; try discriminate; rewrite (IH _ _ _ _ E); auto.
  - destruct (beval n r e st) as [[v st1|k]|] eqn:E; try discriminate; rewrite (IH _ _ _ _ E); auto.
Qed.

Lemma beval_mono : forall n m r e st res, beval n r e st = Some res -> n <= m -> beval m r e st = Some res.
Proof. intros n m r e st res H Hl. induction Hl; auto. apply beval_S; auto. Qed.

Lemma beval_app_eq : forall k r f args st, beval (S k) r (BApp f args) st =
  match bevals (beval k r) args st with
  | None => None
  | Some (inr e) => Some (BErr e)
  | Some (inl (vs, st1)) =>
    match beval k r f st1 with
    | None => None
    | Some (BErr e) => Some (BErr e)
    | Some (BVal fv st2) =>
      match fv with
      | BVClo ps rest body r' =>
          match bcall_args ps rest vs with
          | Some (xs, ws) => beval k (bind xs ws r') body st2
          | None => Some (BErr EArity)
          end
      | BVPrim p => Some (bprim_apply p vs st2)
      | _ => Some (BErr ENotProc)
      end
    end
  end.
Proof. reflexivity. Qed.

Lemma beval_let_eq : forall k r bs body st, beval (S k) r (BLet bs body) st =
  match bevals (beval k r) (map snd bs) st with
  | None => None
  | Some (inr e) => Some (BErr e)
  | Some (inl (vs, st1)) => beval k (bind (map fst bs) vs r) body st1
  end.
Proof. reflexivity. Qed.

(* Fuel is nesting depth.  Conversion adds at most one level per source level (a read or write of a boxed local is a
   call, a scope with assigned binders a let around its body), and a call of a closure with an assigned parameter
   does spend two, hence 2n; the bound is the same for every part, so their runs compose by [beval_S] alone. *)
Fixpoint dbl (n : nat) : nat := match n with O => O | S n => S (S (dbl n)) end.

Inductive linfo := LBox (a : nat) | LImm (v : bval).
Definition world := list linfo.
Definition ext (W W' : world) : Prop := exists W2, W' = W ++ W2.

Lemma ext_refl : forall W, ext W W.
Proof. intros. exists []. rewrite app_nil_r. auto. Qed.

Lemma ext_trans : forall a b c, ext a b -> ext b c -> ext a c.
Proof. intros a b c [x ->] [y ->]. exists (x ++ y). rewrite app_assoc. auto. Qed.

Lemma ext_nth : forall W W' l i, ext W W' -> nth_error W l = Some i -> nth_error W' l = Some i.
Proof. intros W W' l i [W2 ->] H. rewrite nth_error_app1; auto. apply nth_error_Some. congruence. Qed.

Definition is_box_name (x : ident) : bool :=
  String.eqb x box_name || String.eqb x unbox_name || String.eqb x setbox_name.

Fixpoint nodupb (l : list ident) : bool :=
  match l with [] => true | x :: r => negb (memb_s x r) && nodupb r end.

Definition names_ok (xs : list ident) : bool := forallb (fun x => negb (is_box_name x)) xs && nodupb xs.

(* no identifier of the program is one of the reserved primitive names #%box / #%unbox / #%set-box!,
   and the binders of one lambda / let are pairwise distinct *)
Fixpoint clean (e : sexpr) : bool :=
  match e with
  | SConst _ => true
  | SVar x => negb (is_box_name x)
  | SLam ps rest body => names_ok (params ps rest) && clean body
  | SApp f args => (fix go (es : list sexpr) : bool :=
                      match es with [] => true | a :: r => clean a && go r end) args && clean f
  | SIf c t e' => clean c && clean t && clean e'
  | SLet bs body => names_ok (map fst bs)
                    && (fix go (bs : list (ident * sexpr)) : bool :=
                          match bs with [] => true | (_, a) :: r => clean a && go r end) bs
                    && clean body
  | SSeq e1 e2 => clean e1 && clean e2
  | SSet x e' => negb (is_box_name x) && clean e'
  end.

(* [clean_list], [assigned_list], [aconv_list], [aconv_binds] have to stay literally the anonymous fixes nested in
   [clean], [assigned], [aconv]: otherwise [fold] and [cbn [..]] on them silently do nothing *)
Definition clean_list := fix go (es : list sexpr) : bool :=
  match es with [] => true | a :: r => clean a && go r end.

Definition assigned_list (x : ident) := fix go (es : list sexpr) : bool :=
  match es with [] => false | a :: r => assigned x a || go r end.

Definition aconv_list (bx : list ident) := fix go (es : list sexpr) : list bexpr :=
  match es with [] => [] | a :: r => aconv bx a :: go r end.

(* conjunct 2: what is unbound (a global) stays unbound and is not boxed, so [aconv] leaves it a global; conjunct 3:
   the box names are never bound, so the converted code reaches the primitives through the globals ([E_boxname]) *)
Definition E (W : world) (bx : list ident) (rs : senv) (rb : benv) : Prop :=
  (forall x l, Core.lookup x rs = Some l ->
     if memb_s x bx
     then exists a, nth_error W l = Some (LBox a) /\ Core.lookup x rb = Some (BVBox a)
     else exists v, nth_error W l = Some (LImm v) /\ Core.lookup x rb = Some v) /\
  (forall x, Core.lookup x rs = None -> Core.lookup x rb = None /\ memb_s x bx = false) /\
  (forall x, is_box_name x = true -> Core.lookup x rs = None).

Definition inv (bx : list ident) (rs : senv) (e : sexpr) : Prop :=
  forall x l, Core.lookup x rs = Some l -> memb_s x bx = false -> assigned x e = false.

Inductive V (W : world) : sval -> bval -> Prop :=
| V_int : forall z, V W (SVInt z) (BVInt z)
| V_bool : forall b, V W (SVBool b) (BVBool b)
| V_void : V W SVVoid BVVoid
| V_prim : forall p, V W (SVPrim p) (BVPrim (BP p))
| V_list : forall vs bvs, Forall2 (V W) vs bvs -> V W (SVList vs) (BVList bvs)
| V_clo : forall ps rest body rs rb bx,
    E W bx rs rb -> inv bx rs (SLam ps rest body) -> clean (SLam ps rest body) = true ->
    V W (SVClo ps rest body rs)
        (BVClo ps rest
           (wrap_boxes (filter (fun x => assigned x body) (params ps rest))
              (aconv (filter (fun x => assigned x body) (params ps rest) ++ minus bx (params ps rest)) body))
           rb).

Lemma E_ext : forall W W' bx rs rb, ext W W' -> E W bx rs rb -> E W' bx rs rb.
Proof.
  intros W W' bx rs rb Hx (A & B & C). split; [|split]; auto.
  intros x l Hl. specialize (A x l Hl). destruct (memb_s x bx).
  - destruct A as (a & H1 & H2). exists a. split; auto. eapply ext_nth; eauto.
  - destruct A as (v & H1 & H2). exists v. split; auto. eapply ext_nth; eauto.
Qed.

Lemma V_ext : forall W W', ext W W' -> forall v bv, V W v bv -> V W' v bv.
Proof.
  intros W W' Hx. fix IH 3. intros v bv H. destruct H; try constructor; auto.
  - induction H; constructor; auto.
  - eapply E_ext; eauto.
Qed.

Lemma V_atom : forall W v bv, V W v bv -> sval_atom v = bval_atom bv.
Proof. destruct 1; simpl; auto. Qed.

Lemma V_atoms : forall W vs bvs, Forall2 (V W) vs bvs -> map sval_atom vs = map bval_atom bvs.
Proof. induction 1; simpl; auto. f_equal; auto. eapply V_atom; eauto. Qed.

Lemma V_of_atom : forall W a, V W (atom_sval a) (atom_bval a).
Proof. destruct a; simpl; constructor. Qed.

Lemma V_const : forall W c, V W (sconst c) (bconst c).
Proof. destruct c; simpl; constructor. Qed.

Definition StoreRel (W : world) (st : list sval) (bt : list bval) : Prop :=
  length W = length st /\
  (forall l a, nth_error W l = Some (LBox a) ->
     exists sv bv, nth_error st l = Some sv /\ nth_error bt a = Some bv /\ V W sv bv) /\
  (forall l v, nth_error W l = Some (LImm v) -> exists sv, nth_error st l = Some sv /\ V W sv v) /\
  (forall l l' a, nth_error W l = Some (LBox a) -> nth_error W l' = Some (LBox a) -> l = l').

Definition GlobRel (W : world) (Gs : list (ident * sval)) (Gb : list (ident * bval)) : Prop :=
  (forall g, match Core.lookup g Gs with
             | Some v => exists bv, Core.lookup g Gb = Some bv /\ V W v bv
             | None => is_box_name g = true \/ Core.lookup g Gb = None
             end) /\
  Core.lookup box_name Gb = Some (BVPrim BBoxNew) /\
  Core.lookup unbox_name Gb = Some (BVPrim BUnbox) /\
  Core.lookup setbox_name Gb = Some (BVPrim BSetBox).

Lemma GlobRel_ext : forall W W' Gs Gb, ext W W' -> GlobRel W Gs Gb -> GlobRel W' Gs Gb.
Proof.
  intros W W' Gs Gb Hx (A & B). split; auto. intros g. specialize (A g).
  destruct (Core.lookup g Gs); auto. destruct A as (bv & H1 & H2). exists bv. split; auto. eapply V_ext; eauto.
Qed.

Lemma Forall2_V_ext : forall W W' vs bvs, ext W W' -> Forall2 (V W) vs bvs -> Forall2 (V W') vs bvs.
Proof. induction 2; constructor; auto. eapply V_ext; eauto. Qed.

(* CoreS.memb_s and Bytecode.memb are the same fixpoint, written twice *)
Lemma memb_s_memb : forall x l, memb_s x l = Bytecode.memb x l.
Proof. reflexivity. Qed.

Lemma memb_s_In : forall x l, memb_s x l = true <-> In x l.
Proof.
  split; [apply memb_true_in|]. induction l; simpl; intros H; [tauto|].
  apply orb_true_iff. destruct H as [->|H]; [left; apply String.eqb_refl|right; auto].
Qed.

Lemma memb_s_false : forall x l, memb_s x l = false <-> ~ In x l.
Proof. intros. rewrite <- memb_s_In. destruct (memb_s x l); split; intros; try congruence; try (exfalso; auto; fail). Qed.

Lemma nodupb_NoDup : forall l, nodupb l = true -> NoDup l.
Proof.
  induction l; simpl; intros; constructor.
  - apply andb_true_iff in H. destruct H as [H _]. apply memb_s_false. destruct (memb_s a l); auto; discriminate.
  - apply IHl. apply andb_true_iff in H. tauto.
Qed.

Lemma names_ok_spec : forall xs, names_ok xs = true -> (forall x, In x xs -> is_box_name x = false) /\ NoDup xs.
Proof.
  unfold names_ok. intros xs H. apply andb_true_iff in H. destruct H as [Hn Hd]. split; [|apply nodupb_NoDup, Hd].
  intros x Hin. rewrite forallb_forall in Hn. apply negb_true_iff, Hn, Hin.
Qed.

Lemma lookup_bind_out : forall A xs (vs : list A) r x, ~ In x xs -> Core.lookup x (bind xs vs r) = Core.lookup x r.
Proof. intros. apply lookup_bind_notin. apply memb_s_false. auto. Qed.

Lemma lookup_bind_in : forall A xs (vs : list A) r x, length xs = length vs -> In x xs ->
  exists k v, nth_error xs k = Some x /\ nth_error vs k = Some v /\ Core.lookup x (bind xs vs r) = Some v.
Proof.
  induction xs as [|p xs IH]; intros vs r x Hlen Hin; [destruct Hin|].
  destruct vs as [|w vs]; [discriminate|]. simpl.
  destruct (in_dec string_dec x xs) as [Hi|Hn].
  - destruct (IH vs ((p, w) :: r) x ltac:(simpl in Hlen; lia) Hi) as (k & v & A1 & B1 & C1).
    exists (S k), v. auto.
  - destruct Hin as [->|Hin]; [|tauto]. exists 0, w. repeat split; auto.
    rewrite lookup_bind_out; auto. simpl. rewrite String.eqb_refl. auto.
Qed.

Lemma In_nth_error' : forall A (l : list A) x, In x l -> exists k, nth_error l k = Some x.
Proof. apply In_nth_error. Qed.

Lemma salloc_eq : forall xs ws rs st, length xs = length ws ->
  salloc xs ws rs st = (bind xs (seq (length st) (length xs)) rs, st ++ ws).
Proof.
  induction xs; destruct ws; simpl; intros; try discriminate.
  - rewrite app_nil_r. auto.
  - rewrite IHxs by lia. rewrite app_length. simpl. rewrite Nat.add_1_r. rewrite <- app_assoc. auto.
Qed.

Lemma nth_error_app_l : forall A (a b : list A) i, i < length a -> nth_error (a ++ b) i = nth_error a i.
Proof. intros. apply nth_error_app1; auto. Qed.

Lemma nth_error_lt : forall A (l : list A) i x, nth_error l i = Some x -> i < length l.
Proof. intros. apply nth_error_Some. congruence. Qed.

Lemma is_box_name_cases : forall x, is_box_name x = true -> x = box_name \/ x = unbox_name \/ x = setbox_name.
Proof.
  unfold is_box_name. intros x H. apply orb_true_iff in H. destruct H as [H|H].
  - apply orb_true_iff in H. destruct H as [H|H]; apply String.eqb_eq in H; auto.
  - apply String.eqb_eq in H. auto.
Qed.

Lemma eval_box_bindings : forall k mx rb1 bt G,
  Core.lookup box_name rb1 = None -> Core.lookup box_name G = Some (BVPrim BBoxNew) ->
  forall vals, Forall2 (fun x v => Core.lookup x rb1 = Some v) mx vals ->
  bevals (beval (S (S k)) rb1) (map snd (map (fun x => (x, box_of (BVar x))) mx)) (mkB bt G) =
    Some (inl (map BVBox (seq (length bt) (length mx)), mkB (bt ++ vals) G)).
Proof.
  intros k. induction mx as [|x mx IH]; intros rb1 bt G Hb HG vals HF; inversion HF as [|x' v mx' vals' Hx HF']; subst.
  - rewrite app_nil_r. reflexivity.
  - pose proof (IH rb1 (bt ++ [v]) G Hb HG vals' HF') as H2.
    rewrite app_length, <- app_assoc, Nat.add_1_r in H2.
    assert (H1 : beval (S (S k)) rb1 (box_of (BVar x)) (mkB bt G) = Some (BVal (BVBox (length bt)) (mkB (bt ++ [v]) G)))
      by (simpl; rewrite Hx, Hb; simpl; rewrite HG; reflexivity).
    cbn [map snd bevals]. rewrite H1, H2. reflexivity.
Qed.

Lemma memb_s_app : forall x a b, memb_s x (a ++ b) = memb_s x a || memb_s x b.
Proof. induction a; simpl; intros; auto. rewrite IHa. rewrite orb_assoc. auto. Qed.

Lemma memb_s_filter : forall x f l, memb_s x (filter f l) = memb_s x l && f x.
Proof.
  induction l as [|a l IH]; simpl; [reflexivity|].
  destruct (String.eqb x a) eqn:Ex.
  - apply String.eqb_eq in Ex. subst a. destruct (f x) eqn:Fx; simpl; [rewrite String.eqb_refl; reflexivity|rewrite IH; apply andb_false_r].
  - destruct (f a); simpl; rewrite ?Ex; exact IH.
Qed.

Lemma memb_s_minus : forall x l xs, memb_s x (minus l xs) = memb_s x l && negb (memb_s x xs).
Proof. intros. apply memb_s_filter. Qed.

(* the boxed names of a scope that binds xs and boxes those of them that f selects *)
Lemma memb_s_scope : forall x f xs bx,
  memb_s x (filter f xs ++ minus bx xs) = if memb_s x xs then f x else memb_s x bx.
Proof.
  intros. rewrite memb_s_app, memb_s_minus, memb_s_filter. destruct (memb_s x xs), (f x), (memb_s x bx); reflexivity.
Qed.

Lemma lookup_bind_ext : forall A y xs (vs : list A) r r', Core.lookup y r = Core.lookup y r' ->
  Core.lookup y (bind xs vs r) = Core.lookup y (bind xs vs r').
Proof.
  induction xs as [|x xs IH]; intros [|v vs] r r' H; simpl; auto. apply IH. simpl. rewrite H. reflexivity.
Qed.

(* E reads its lists through [memb_s] and [lookup] only *)
Lemma E_equiv : forall W bx bx' rs rb rb', E W bx rs rb ->
  (forall y, memb_s y bx' = memb_s y bx) -> (forall y, Core.lookup y rb' = Core.lookup y rb) -> E W bx' rs rb'.
Proof.
  intros W bx bx' rs rb rb' (A & B & C) Hb Hr. split; [|split]; auto.
  - intros x l Hl. rewrite Hb, Hr. apply A, Hl.
  - intros x Hn. rewrite Hb, Hr. auto.
Qed.

(* no NoDup here: a later binder of the same name would simply shadow this one *)
Lemma alloc1 : forall W bx rs rb st bt x w bw (b : bool),
  E W bx rs rb -> StoreRel W st bt -> V W w bw -> is_box_name x = false ->
  let W' := W ++ [if b then LBox (length bt) else LImm bw] in
  ext W W' /\
  E W' (filter (fun _ => b) [x] ++ minus bx [x]) ((x, length st) :: rs) ((x, if b then BVBox (length bt) else bw) :: rb) /\
  StoreRel W' (st ++ [w]) (bt ++ if b then [bw] else []).
Proof.
  intros W bx rs rb st bt x w bw b HE (HL & HB & HI & HJ) Hv Hx W'.
  assert (X : ext W W') by (eexists; reflexivity). destruct (E_ext _ _ _ _ _ X HE) as (E1 & E2 & E3).
  assert (Hnew : nth_error W' (length st) = Some (if b then LBox (length bt) else LImm bw))
    by (unfold W'; rewrite <- HL; apply nth_error_mid).
  assert (Hcases : forall l inf, nth_error W' l = Some inf ->
            nth_error W l = Some inf \/ l = length st /\ inf = if b then LBox (length bt) else LImm bw).
  { intros l inf H. unfold W' in H. destruct (Nat.lt_ge_cases l (length W)); [left; rewrite nth_error_app1 in H; auto|right].
    assert (l = length W) by (apply nth_error_lt in H; rewrite app_length in H; simpl in H; lia). subst l.
    rewrite nth_error_mid in H. inversion H. auto. }
  split; [exact X|]. split; [split; [|split]|split; [|split; [|split]]].
  - intros y l Hl. rewrite memb_s_scope. cbn [Core.lookup memb_s] in *. destruct (String.eqb y x) eqn:Eyx; [|exact (E1 y l Hl)].
    apply String.eqb_eq in Eyx. subst y. inversion Hl; subst l. rewrite Hnew. destruct b; simpl; eauto.
  - intros y Hn. rewrite memb_s_scope. cbn [Core.lookup memb_s] in *. destruct (String.eqb y x); [discriminate|]. apply E2, Hn.
  - intros y Hy. cbn [Core.lookup]. destruct (String.eqb y x) eqn:Eyx; [|apply E3, Hy].
    apply String.eqb_eq in Eyx. congruence.
  - unfold W'. rewrite !app_length. simpl. lia.
  - intros l a Hl. destruct (Hcases l _ Hl) as [Hold|[-> Hinf]].
    + destruct (HB l a Hold) as (sv & bv & A1 & A2 & A3). exists sv, bv.
      split; [rewrite nth_error_app1; eauto using nth_error_lt|]. split; [rewrite nth_error_app1; eauto using nth_error_lt|].
      eapply V_ext; eauto.
    + destruct b; inversion Hinf; subst a. exists w, bw. rewrite !nth_error_mid. split; auto. split; auto. eapply V_ext; eauto.
  - intros l v Hl. destruct (Hcases l _ Hl) as [Hold|[-> Hinf]].
    + destruct (HI l v Hold) as (sv & A1 & A2). exists sv. split; [rewrite nth_error_app1; eauto using nth_error_lt|eapply V_ext; eauto].
    + destruct b; inversion Hinf; subst v. exists w. rewrite nth_error_mid. split; auto. eapply V_ext; eauto.
  - intros l l' a Hl Hl'.
    destruct (Hcases l _ Hl) as [Hold|[-> Hinf]]; destruct (Hcases l' _ Hl') as [Hold'|[-> Hinf']]; auto.
    + eapply HJ; eauto.
    + destruct (HB l a Hold) as (_ & bv & _ & A2 & _). apply nth_error_lt in A2. destruct b; inversion Hinf'. lia.
    + destruct (HB l' a Hold') as (_ & bv & _ & A2 & _). apply nth_error_lt in A2. destruct b; inversion Hinf. lia.
Qed.

Section Scope.
  Variable f : ident -> bool.

  Fixpoint sel (xs : list ident) (bws : list bval) : list bval :=
    match xs, bws with
    | x :: xs', bw :: bws' => if f x then bw :: sel xs' bws' else sel xs' bws'
    | _, _ => []
    end.

  Lemma sel_vals : forall xs bws rb, NoDup xs -> length xs = length bws ->
    Forall2 (fun x v => Core.lookup x (bind xs bws rb) = Some v) (filter f xs) (sel xs bws).
  Proof.
    induction xs as [|x xs IH]; intros [|bw bws] rb Hnd Hlen; try discriminate; simpl; [constructor|].
    inversion Hnd; subst. destruct (f x); [constructor|]; auto.
    rewrite lookup_bind_out by auto. simpl. rewrite String.eqb_refl. reflexivity.
  Qed.

  (* NoDup is used in the E part only: the boxes are bound after ALL of xs, so the box of x has to be moved
     inwards past the later binders, which are other names *)
  Lemma allocs : forall xs ws bws W bx rs rb st bt,
    NoDup xs -> (forall x, In x xs -> is_box_name x = false) -> Forall2 (V W) ws bws -> length xs = length ws ->
    E W bx rs rb -> StoreRel W st bt ->
    exists W', ext W W' /\
      E W' (filter f xs ++ minus bx xs) (bind xs (seq (length st) (length xs)) rs)
        (bind (filter f xs) (map BVBox (seq (length bt) (length (filter f xs)))) (bind xs bws rb)) /\
      StoreRel W' (st ++ ws) (bt ++ sel xs bws).
  Proof.
    induction xs as [|x xs IH]; intros ws bws W bx rs rb st bt Hnd Hbn HF Hlen HE HS.
    - destruct ws; [|discriminate]. inversion HF; subst. exists W. rewrite !app_nil_r. split; [apply ext_refl|]. split; auto.
      eapply E_equiv; [exact HE|intros; apply memb_s_scope|reflexivity].
    - destruct ws as [|w ws]; [discriminate|]. inversion HF as [|w' bw ws' bws' Hv HF']; subst.
      inversion Hnd as [|x' xs' Hnin Hnd']; subst.
      destruct (alloc1 W bx rs rb st bt x w bw (f x) HE HS Hv (Hbn x (or_introl eq_refl))) as (X1 & HE1 & HS1).
      destruct (IH ws bws' _ _ _ _ _ _ Hnd' (fun y Hy => Hbn y (or_intror Hy)) (Forall2_V_ext _ _ _ _ X1 HF')
                   ltac:(simpl in Hlen; lia) HE1 HS1) as (W' & X' & HE' & HS').
      exists W'. split; [eapply ext_trans; eauto|]. rewrite !app_length, Nat.add_1_r in HE'. rewrite <- app_assoc in HS'. split.
      + eapply E_equiv; [exact HE'| |].
        * intros y. rewrite !memb_s_scope. cbn [memb_s]. destruct (String.eqb y x) eqn:Eyx; [|reflexivity].
          apply String.eqb_eq in Eyx. subst y. destruct (memb_s x xs); reflexivity.
        * intros y. cbn [filter bind]. destruct (f x).
          -- cbn [length seq map bind]. rewrite Nat.add_1_r. apply lookup_bind_ext. cbn [Core.lookup].
             destruct (String.eqb y x) eqn:Eyx.
             ++ apply String.eqb_eq in Eyx. subst y. rewrite lookup_bind_out by auto. simpl. rewrite String.eqb_refl. reflexivity.
             ++ apply lookup_bind_ext. simpl. rewrite Eyx. reflexivity.
          -- rewrite Nat.add_0_r. reflexivity.
      + cbn [sel]. destruct (f x); [rewrite <- app_assoc in HS'|rewrite app_nil_r in HS']; exact HS'.
  Qed.
End Scope.

Lemma wrap_eval : forall k mx vals rb1 body' bt G res,
  Core.lookup box_name rb1 = None -> Core.lookup box_name G = Some (BVPrim BBoxNew) ->
  Forall2 (fun x v => Core.lookup x rb1 = Some v) mx vals ->
  beval (S (S k)) (bind mx (map BVBox (seq (length bt) (length mx))) rb1) body' (mkB (bt ++ vals) G) = Some res ->
  beval (S (S (S k))) rb1 (wrap_boxes mx body') (mkB bt G) = Some res.
Proof.
  intros k mx vals rb1 body' bt G res Hb HG HF Hev. destruct mx as [|x mx].
  - inversion HF; subst. rewrite app_nil_r in Hev. apply beval_S. exact Hev.
  - unfold wrap_boxes. rewrite beval_let_eq, (eval_box_bindings k _ _ _ _ Hb HG _ HF), map_map. cbn [fst]. rewrite map_id. exact Hev.
Qed.

Lemma assigned_let_eq : forall x bs body, assigned x (SLet bs body) = assigned_list x (map snd bs) || assigned x body.
Proof. intros. simpl. f_equal; try reflexivity; try (induction bs as [|[y a] bs]; simpl; auto; rewrite ?IHbs; auto). Qed.

Lemma clean_let_eq : forall bs body, clean (SLet bs body) = names_ok (map fst bs) && clean_list (map snd bs) && clean body.
Proof. intros. simpl. f_equal; try reflexivity. f_equal; try reflexivity; try (induction bs as [|[y a] bs]; simpl; auto; rewrite ?IHbs; auto). Qed.

Definition aconv_binds (bx : list ident) := fix go (bs : list (ident * sexpr)) : list (ident * bexpr) :=
  match bs with [] => [] | (x, a) :: r => (x, aconv bx a) :: go r end.

Lemma map_snd_conv : forall bx bs, map snd (aconv_binds bx bs) = aconv_list bx (map snd bs).
Proof. induction bs as [|[y a] bs]; simpl; auto. f_equal; auto. Qed.

Lemma map_fst_conv : forall bx bs, map fst (aconv_binds bx bs) = map fst bs.
Proof. induction bs as [|[y a] bs]; simpl; auto. f_equal; auto. Qed.

Definition inv_list (bx : list ident) (rs : senv) (es : list sexpr) : Prop :=
  forall x l, Core.lookup x rs = Some l -> memb_s x bx = false -> assigned_list x es = false.

Lemma inv_cons : forall bx rs e es, inv_list bx rs (e :: es) -> inv bx rs e /\ inv_list bx rs es.
Proof. intros bx rs e es H. split; intros y l Hy Hm; specialize (H y l Hy Hm); apply orb_false_iff in H; tauto. Qed.

Lemma inv_app : forall bx rs f args, inv bx rs (SApp f args) -> inv_list bx rs args /\ inv bx rs f.
Proof.
  intros bx rs f args H. split; intros y l Hy Hm; specialize (H y l Hy Hm);
    apply orb_false_iff in H; tauto.
Qed.

Lemma inv_let : forall bx rs bs body, inv bx rs (SLet bs body) -> inv_list bx rs (map snd bs) /\ inv bx rs body.
Proof.
  intros bx rs bs body H. split; intros y l Hy Hm; specialize (H y l Hy Hm);
    rewrite assigned_let_eq in H; apply orb_false_iff in H; tauto.
Qed.

Lemma inv_if : forall bx rs a b c, inv bx rs (SIf a b c) -> inv bx rs a /\ inv bx rs b /\ inv bx rs c.
Proof.
  intros bx rs a b c H. repeat split; intros y l Hy Hm; specialize (H y l Hy Hm);
    simpl in H; apply orb_false_iff in H; destruct H as [H H3]; apply orb_false_iff in H; tauto.
Qed.

Lemma inv_seq : forall bx rs a b, inv bx rs (SSeq a b) -> inv bx rs a /\ inv bx rs b.
Proof. intros bx rs a b H. split; intros y l Hy Hm; specialize (H y l Hy Hm); apply orb_false_iff in H; tauto. Qed.

Lemma inv_set : forall bx rs x e, inv bx rs (SSet x e) -> inv bx rs e.
Proof. intros bx rs x e H y l Hy Hm. specialize (H y l Hy Hm). apply orb_false_iff in H. tauto. Qed.

(* [bevals] on a non-empty list, in the shape of a bind on its first element *)
Lemma bevals_bind : forall ev e es st (KB : list bval -> bstate -> option bresult),
  match bevals ev (e :: es) st with Some (inl (bvs, st2)) => KB bvs st2 | Some (inr k) => Some (BErr k) | None => None end =
  match ev e st with
  | Some (BVal bv st1) =>
      match bevals ev es st1 with Some (inl (bvs, st2)) => KB (bv :: bvs) st2 | Some (inr k) => Some (BErr k) | None => None end
  | Some (BErr k) => Some (BErr k)
  | None => None
  end.
Proof. intros. simpl. destruct (ev e st) as [[bv st1|k]|]; auto. destruct (bevals ev es st1) as [[[bvs st2]|k]|]; auto. Qed.

Definition conv_res (W : world) (ob : option bresult) (res : sresult) : Prop :=
  match res with
  | SVal v st' => exists W' bv stb', ext W W' /\ ob = Some (BVal bv stb') /\ V W' v bv /\
                    StoreRel W' (s_store st') (b_store stb') /\ GlobRel W' (s_glob st') (b_glob stb')
  | SErr e => ob = Some (BErr e)
  end.

Lemma conv_res_via : forall W W1 ob ob1 res, ext W W1 ->
  (forall bres, ob1 = Some bres -> ob = Some bres) -> conv_res W1 ob1 res -> conv_res W ob res.
Proof.
  intros W W1 ob ob1 [v st'|e] X Hr H; simpl in *; auto.
  destruct H as (W' & bv & stb' & X' & B & R). exists W', bv, stb'. split; [eapply ext_trans; eauto|]. split; auto.
Qed.

Lemma conv_S : forall W k rb be stb res, conv_res W (beval k rb be stb) res -> conv_res W (beval (S k) rb be stb) res.
Proof. intros W k rb be stb res. apply conv_res_via; [apply ext_refl|apply beval_S]. Qed.

Lemma conv_res_val : forall W ob v st bv stb, ob = Some (BVal bv stb) -> V W v bv ->
  StoreRel W (s_store st) (b_store stb) -> GlobRel W (s_glob st) (b_glob stb) -> conv_res W ob (SVal v st).
Proof. intros. exists W, bv, stb. split; [apply ext_refl|]. auto. Qed.

(* The rule of the evaluators' own bind: the first hypothesis is seval's match on a sub-evaluation, the conclusion
   beval's, so K and KB come by unification.  Error and lack of fuel end here; a use continues from related values in a
   later world. *)
Lemma conv_bind : forall W os ob res (K : sval -> sstate -> option sresult) (KB : bval -> bstate -> option bresult),
  match os with Some (SVal v st1) => K v st1 | Some (SErr k) => Some (SErr k) | None => None end = Some res ->
  (forall r, os = Some r -> conv_res W ob r) ->
  (forall W1 v st1 bv stb1, ext W W1 -> V W1 v bv ->
     StoreRel W1 (s_store st1) (b_store stb1) -> GlobRel W1 (s_glob st1) (b_glob stb1) ->
     K v st1 = Some res -> conv_res W1 (KB bv stb1) res) ->
  conv_res W (match ob with Some (BVal bv stb1) => KB bv stb1 | Some (BErr k) => Some (BErr k) | None => None end) res.
Proof.
  intros W os ob res K KB Hev H Hk. destruct os as [[v st1|k]|]; [| |discriminate]; specialize (H _ eq_refl); simpl in H.
  - destruct H as (W1 & bv & stb1 & X & -> & Hv & HS & HG). eapply conv_res_via; [exact X|intros bres Hb; exact Hb|]. eapply Hk; eauto.
  - rewrite H. injection Hev as <-. reflexivity.
Qed.

Definition conv_at (n k : nat) : Prop :=
  forall rs e st res, seval n rs e st = Some res ->
  forall W bx rb stb, E W bx rs rb -> inv bx rs e -> clean e = true ->
    StoreRel W (s_store st) (b_store stb) -> GlobRel W (s_glob st) (b_glob stb) ->
    conv_res W (beval k rb (aconv bx e) stb) res.

Lemma conv_at_S : forall n k, conv_at n k -> conv_at n (S k).
Proof. intros n k H rs e st res Hev W bx rb stb HE Hi Hc HS HG. apply conv_S. eapply H; eauto. Qed.

(* the same rule for a list of operands *)
Lemma conv_subs : forall n k, conv_at n k -> forall es rs st W bx rb stb res
    (K : list sval -> sstate -> option sresult) (KB : list bval -> bstate -> option bresult),
  match sevals (seval n rs) es st with Some (inl (vs, st1)) => K vs st1 | Some (inr k) => Some (SErr k) | None => None end = Some res ->
  E W bx rs rb -> inv_list bx rs es -> clean_list es = true ->
  StoreRel W (s_store st) (b_store stb) -> GlobRel W (s_glob st) (b_glob stb) ->
  (forall W1 vs st1 bvs stb1, ext W W1 -> Forall2 (V W1) vs bvs -> length vs = length es ->
     StoreRel W1 (s_store st1) (b_store stb1) -> GlobRel W1 (s_glob st1) (b_glob stb1) ->
     K vs st1 = Some res -> conv_res W1 (KB bvs stb1) res) ->
  conv_res W (match bevals (beval k rb) (aconv_list bx es) stb with
              | Some (inl (bvs, stb1)) => KB bvs stb1 | Some (inr k) => Some (BErr k) | None => None end) res.
Proof.
  intros n k IH es. induction es as [|e es IHes]; intros rs st W bx rb stb res K KB Hev HE Hinv Hcl HS HG Hk.
  - eapply Hk; eauto using ext_refl.
  - simpl in Hev, Hcl. apply andb_true_iff in Hcl. destruct Hcl as [Hc1 Hc2]. apply inv_cons in Hinv as [Hi1 Hi2].
    cbn [aconv_list]. rewrite bevals_bind.
    eapply conv_bind with (K := fun v st1 => match sevals (seval n rs) es st1 with
         Some (inl (vs, st2)) => K (v :: vs) st2 | Some (inr k) => Some (SErr k) | None => None end);
      [|intros r Hr; eapply IH; eauto|].
    + destruct (seval n rs e st) as [[v st1|k']|]; auto. destruct (sevals (seval n rs) es st1) as [[[vs st2]|k']|]; auto.
    + intros W1 v st1 bv stb1 X1 V1 S1 G1 Hev1. eapply IHes with (K := fun vs => K (v :: vs)) (KB := fun bvs => KB (bv :: bvs)); eauto using E_ext.
      intros W2 vs st2 bvs stb2 X2 V2 L2 S2 G2 Hev2. eapply Hk; eauto using ext_trans; [constructor; eauto using V_ext|simpl; auto].
Qed.

Lemma E_boxname : forall W bx rs rb x, E W bx rs rb -> is_box_name x = true -> Core.lookup x rb = None.
Proof. intros W bx rs rb x (A & B & C) H. apply B. apply C. auto. Qed.

Lemma call_args_rel : forall W ps rest vs bvs, Forall2 (V W) vs bvs ->
  match scall_args ps rest vs, bcall_args ps rest bvs with
  | Some (xs, ws), Some (xs', bws) => xs = params ps rest /\ xs' = xs /\ Forall2 (V W) ws bws /\ length xs = length ws
  | None, None => True
  | _, _ => False
  end.
Proof.
  intros W ps rest vs bvs HF. pose proof (Forall2_length _ _ _ _ _ HF) as Hl.
  unfold scall_args, bcall_args. rewrite <- Hl. destruct rest as [r|]; simpl.
  - destruct (Nat.leb (length ps) (length vs)) eqn:E1; auto. apply Nat.leb_le in E1.
    repeat split; auto.
    + apply Forall2_app. apply Forall2_firstn; auto. constructor; [|constructor]. constructor. apply Forall2_skipn; auto.
    + rewrite !app_length, firstn_length. simpl. lia.
  - destruct (Nat.eqb (length ps) (length vs)) eqn:E1; auto. apply Nat.eqb_eq in E1. repeat split; auto.
Qed.

Lemma supdate_nth_same : forall l v st, l < length st -> nth_error (supdate l v st) l = Some v.
Proof. exact upd_nth_same. Qed.

Lemma supdate_nth_other : forall l l' v st, l <> l' -> nth_error (supdate l v st) l' = nth_error st l'.
Proof. exact upd_nth_other. Qed.

Lemma supdate_length : forall l v st, length (supdate l v st) = length st.
Proof. exact upd_nth_length. Qed.

Lemma bupdate_nth_same : forall l v st, l < length st -> nth_error (bupdate l v st) l = Some v.
Proof. exact upd_nth_same. Qed.

Lemma bupdate_nth_other : forall l l' v st, l <> l' -> nth_error (bupdate l v st) l' = nth_error st l'.
Proof. exact upd_nth_other. Qed.

Lemma StoreRel_set : forall W st bt l a v bv, StoreRel W st bt -> nth_error W l = Some (LBox a) -> V W v bv ->
  StoreRel W (supdate l v st) (bupdate a bv bt).
Proof.
  intros W st bt l a v bv (HL & HB & HI & HJ) Hl Hv.
  destruct (HB l a Hl) as (sv0 & bv0 & A1 & A2 & _).
  split; [rewrite supdate_length; auto|]. split; [|split; auto].
  - intros l' a' Hl'. destruct (Nat.eq_dec l' l) as [->|Hne].
    + rewrite Hl in Hl'. inversion Hl'; subst a'. exists v, bv.
      split; [apply supdate_nth_same; eapply nth_error_lt; eauto|].
      split; [apply bupdate_nth_same; eapply nth_error_lt; eauto|auto].
    + destruct (HB l' a' Hl') as (sv & bv' & B1 & B2 & B3). exists sv, bv'.
      split; [rewrite supdate_nth_other; auto|]. split; auto.
      rewrite bupdate_nth_other; auto. intros Heq. subst a'. apply Hne. eapply HJ; eauto.
  - intros l' v' Hl'. destruct (HI l' v' Hl') as (sv & B1 & B2). exists sv. split; auto.
    rewrite supdate_nth_other; auto. intros Heq. subst l'. rewrite Hl in Hl'. discriminate.
Qed.

Lemma GlobRel_cons : forall W Gs Gb g v bv, GlobRel W Gs Gb -> V W v bv -> is_box_name g = false ->
  GlobRel W ((g, v) :: Gs) ((g, bv) :: Gb).
Proof.
  intros W Gs Gb g v bv (A & B1 & B2 & B3) Hv Hg. split.
  - intros g'. simpl. destruct (String.eqb g' g); eauto. apply A.
  - unfold is_box_name in Hg. apply orb_false_iff in Hg. destruct Hg as [Hg H3]. apply orb_false_iff in Hg. destruct Hg as [H1 H2].
    assert (E1 : String.eqb box_name g = false) by (rewrite String.eqb_sym; auto).
    assert (E2 : String.eqb unbox_name g = false) by (rewrite String.eqb_sym; auto).
    assert (E3 : String.eqb setbox_name g = false) by (rewrite String.eqb_sym; auto).
    cbn [Core.lookup]. rewrite E1, E2, E3. auto.
Qed.

(* entering a scope (lambda call / let body): allocate the locations, box the assigned binders, run the body *)
Lemma scope_eval : forall n, conv_at n (dbl n) -> forall W bx rs rb xs ws bws body st stb res,
  names_ok xs = true -> length xs = length ws -> Forall2 (V W) ws bws -> E W bx rs rb ->
  StoreRel W (s_store st) (b_store stb) -> GlobRel W (s_glob st) (b_glob stb) ->
  (forall x l, Core.lookup x rs = Some l -> memb_s x bx = false -> assigned x body = false) ->
  clean body = true ->
  (let '(r', store') := salloc xs ws rs (s_store st) in seval n r' body (mkS store' (s_glob st))) = Some res ->
  conv_res W (beval (S (dbl n)) (bind xs bws rb)
    (wrap_boxes (filter (fun x => assigned x body) xs)
       (aconv (filter (fun x => assigned x body) xs ++ minus bx xs) body)) stb) res.
Proof.
  intros n IH W bx rs rb xs ws bws body st stb res Hok Hlen HF HE HS HG Hinv Hcl Hev.
  rewrite salloc_eq in Hev by auto.
  destruct stb as [bt G]. simpl in HS, HG.
  destruct (names_ok_spec xs Hok) as [Hbn Hnd].
  destruct (allocs (fun x => assigned x body) xs ws bws W bx rs rb (s_store st) bt Hnd Hbn HF Hlen HE HS) as (W' & X & HE' & HS').
  assert (HV := sel_vals (fun x => assigned x body) xs bws rb Hnd (eq_trans Hlen (Forall2_length _ _ _ _ _ HF))).
  set (mx := filter (fun x => assigned x body) xs) in *. set (vals := sel _ xs bws) in *.
  assert (Hinv' : inv (mx ++ minus bx xs) (bind xs (seq (length (s_store st)) (length xs)) rs) body).
  { intros x l Hl Hm. unfold mx in Hm. rewrite memb_s_scope in Hm. destruct (memb_s x xs) eqn:Hx; [exact Hm|].
    apply memb_s_false in Hx. rewrite lookup_bind_out in Hl by exact Hx. exact (Hinv x l Hl Hm). }
  assert (Hb1 : Core.lookup box_name (bind xs bws rb) = None).
  { rewrite lookup_bind_out. eapply E_boxname; eauto. intros Hin. discriminate (Hbn box_name Hin). }
  eapply conv_res_via; [exact X| |exact (IH _ body _ res Hev W' (mx ++ minus bx xs) _ (mkB (bt ++ vals) G) HE' Hinv' Hcl HS'
                                             (GlobRel_ext _ _ _ _ X HG))].
  (* the body ran, so n is not 0 and the two levels of a call of #%box are there *)
  destruct n as [|n]; [discriminate|]. intros bres. apply wrap_eval; auto. apply HG.
Qed.

Lemma conv_all : forall n, conv_at n (dbl n).
Proof.
  induction n as [|n IH]; intros rs e st res Hev; [discriminate|].
  intros W bx rb stb HE Hinv Hcl HS HG. cbn [dbl]. pose proof (conv_at_S _ _ IH) as IH'.
  destruct e as [c|x|ps rest body|f args|e1 e2 e3|bs body|e1 e2|x e]; simpl in Hev.
  - (* SConst *)
    injection Hev as <-. apply conv_res_val with (bv := bconst c) (stb := stb); auto. apply V_const.
  - (* SVar *)
    simpl in Hcl. destruct HE as (E1 & E2 & E3).
    destruct (Core.lookup x rs) as [l|] eqn:Hx.
    + pose proof (E1 x l Hx) as Hxl. cbn [aconv]. destruct (memb_s x bx) eqn:Hm.
      * destruct Hxl as (a & Hw & Hrb). pose proof HS as (_ & HB & _).
        destruct (HB l a Hw) as (sv & bv & A1 & A2 & A3). rewrite A1 in Hev. injection Hev as <-.
        apply conv_res_val with (bv := bv) (stb := stb); auto.
        simpl. rewrite Hrb, (E_boxname W bx rs rb unbox_name (conj E1 (conj E2 E3)) eq_refl).
        destruct HG as (_ & _ & -> & _). simpl. rewrite A2. reflexivity.
      * destruct Hxl as (v & Hw & Hrb). pose proof HS as (_ & _ & HI & _).
        destruct (HI l v Hw) as (sv & A1 & A2). rewrite A1 in Hev. injection Hev as <-.
        apply conv_res_val with (bv := v) (stb := stb); auto. simpl. rewrite Hrb. reflexivity.
    + destruct (E2 x Hx) as [Hrb Hm]. cbn [aconv]. rewrite Hm.
      pose proof (proj1 HG x) as Hg. destruct (Core.lookup x (s_glob st)) as [v|] eqn:Hgx; injection Hev as <-.
      * destruct Hg as (bv & Hb & Hv).
        apply conv_res_val with (bv := bv) (stb := stb); auto. simpl. rewrite Hrb, Hb. reflexivity.
      * simpl. rewrite Hrb.
        destruct Hg as [Hg|Hg]; [rewrite Hg in Hcl; discriminate|]. rewrite Hg. auto.
  - (* SLam *)
    injection Hev as <-. eapply conv_res_val; [reflexivity|constructor; auto|exact HS|exact HG].
  - (* SApp *)
    apply andb_true_iff in Hcl. destruct Hcl as [Hca Hcf].
    apply inv_app in Hinv as [Hil Hif].
    cbn [aconv]. rewrite beval_app_eq.
    eapply (conv_subs n _ IH'); eauto; [exact Hev|]. clear Hev. intros W1 vs st1 bvs stb1 X1 V1 L1 S1 G1 Hev.
    eapply conv_bind; [exact Hev|intros r Hr; eapply IH'; eauto using E_ext|]. clear Hev.
    intros W2 fv st2 bfv stb2 X2 V2 S2 G2 Hev. pose proof (Forall2_V_ext _ _ _ _ X2 V1) as V1'.
    destruct V2 as [z|b| |p|lv lbv HFl|ps rest body rs0 rb0 bx0 HEc Hic Hcc];
      try (injection Hev as <-; reflexivity).
    + (* primitive *)
      rewrite (V_atoms _ _ _ V1') in Hev. cbn [bprim_apply].
      destruct (prim_sem p (map bval_atom bvs)) as [a|k] eqn:Hp; injection Hev as <-; [|reflexivity].
      eapply conv_res_val; eauto. apply V_of_atom.
    + (* closure *)
      pose proof (call_args_rel W2 ps rest vs bvs V1') as Hca'.
      destruct (scall_args ps rest vs) as [[xs ws]|] eqn:Hsc; destruct (bcall_args ps rest bvs) as [[xs' bws]|] eqn:Hbc; try tauto.
      2:{ injection Hev as <-. reflexivity. }
      destruct Hca' as (Hxs & -> & HFw & Hlw). subst xs.
      simpl in Hcc. apply andb_true_iff in Hcc. destruct Hcc as [Hok Hcb].
      eapply (scope_eval n IH W2 bx0 rs0 rb0 (params ps rest) ws bws body st2 stb2 res); eauto.
  - (* SIf *)
    simpl in Hcl. apply andb_true_iff in Hcl. destruct Hcl as [Hcl Hc3]. apply andb_true_iff in Hcl. destruct Hcl as [Hc1 Hc2].
    apply inv_if in Hinv as (Hi1 & Hi2 & Hi3).
    apply conv_S. cbn [aconv beval].
    eapply conv_bind; [exact Hev|intros r Hr; eapply IH; eauto|]. clear Hev. intros W1 v st1 bv stb1 X1 V1 S1 G1 Hev.
    cbv beta in Hev. rewrite (V_atom _ _ _ V1) in Hev. destruct (atom_truthy (bval_atom bv)); eapply IH; eauto using E_ext.
  - (* SLet *)
    rewrite clean_let_eq in Hcl. apply andb_true_iff in Hcl. destruct Hcl as [Hcl Hcb].
    apply andb_true_iff in Hcl. destruct Hcl as [Hok Hcl].
    apply inv_let in Hinv as [Hil Hib].
    cbn [aconv]. fold (aconv_binds bx). rewrite beval_let_eq, map_snd_conv, map_fst_conv.
    eapply (conv_subs n _ IH'); eauto; [exact Hev|]. clear Hev. intros W1 vs st1 bvs stb1 X1 V1 L1 S1 G1 Hev.
    eapply (scope_eval n IH W1 bx rs rb (map fst bs) vs bvs body st1 stb1 res); eauto using E_ext.
    rewrite L1, !map_length. reflexivity.
  - (* SSeq *)
    simpl in Hcl. apply andb_true_iff in Hcl. destruct Hcl as [Hc1 Hc2].
    apply inv_seq in Hinv as [Hi1 Hi2].
    apply conv_S. cbn [aconv beval].
    eapply conv_bind; [exact Hev|intros r Hr; eapply IH; eauto|]. clear Hev. intros W1 v st1 bv stb1 X1 V1 S1 G1 Hev.
    cbv beta in Hev. eapply IH; eauto using E_ext.
  - (* SSet *)
    simpl in Hcl. apply andb_true_iff in Hcl. destruct Hcl as [Hcx Hce].
    assert (Hnb : is_box_name x = false) by (destruct (is_box_name x); auto; discriminate).
    pose proof (inv_set _ _ _ _ Hinv) as Hie.
    pose proof HE as HE0. destruct HE0 as (E1 & E2 & E3).
    destruct (Core.lookup x rs) as [l|] eqn:Hx.
    + (* a boxed local: #%set-box! on its box *)
      assert (Hm : memb_s x bx = true).
      { destruct (memb_s x bx) eqn:Hm; auto. specialize (Hinv x l Hx Hm). simpl in Hinv. rewrite String.eqb_refl in Hinv. discriminate. }
      pose proof (E1 x l Hx) as Hxl. rewrite Hm in Hxl. destruct Hxl as (a & Hw & Hrb).
      simpl aconv. rewrite Hm.
      assert (Hx1 : beval (S (dbl n)) rb (BVar x) stb = Some (BVal (BVBox a) stb)) by (simpl; rewrite Hrb; reflexivity).
      rewrite beval_app_eq, bevals_bind, Hx1, bevals_bind.
      eapply conv_bind; [exact Hev|intros r Hr; eapply IH'; eauto|]. clear Hev. intros W1 v st1 bv stb1 X1 V1 S1 G1 Hev.
      cbv beta in Hev. apply (ext_nth _ _ _ _ X1) in Hw.
      destruct (proj1 (proj2 S1) l a Hw) as (old & bold & A1 & A2 & A3). rewrite A1 in Hev. injection Hev as <-.
      apply conv_res_val with (bv := bold) (stb := mkB (bupdate a bv (b_store stb1)) (b_glob stb1)); auto; [|apply StoreRel_set; auto].
      simpl. rewrite (E_boxname W bx rs rb setbox_name HE eq_refl), (proj2 (proj2 (proj2 G1))). simpl. rewrite A2. reflexivity.
    + (* a global *)
      destruct (E2 x Hx) as [Hrb Hm]. simpl aconv. rewrite Hm. apply conv_S. cbn [beval].
      eapply conv_bind; [exact Hev|intros r Hr; eapply IH; eauto|]. clear Hev. intros W1 v st1 bv stb1 X1 V1 S1 G1 Hev.
      cbv beta in Hev. pose proof (proj1 G1 x) as Hg.
      destruct (Core.lookup x (s_glob st1)) as [old|] eqn:Hgx; injection Hev as <-.
      * destruct Hg as (bold & -> & Hv). eapply conv_res_val; eauto. apply GlobRel_cons; auto.
      * destruct Hg as [Hg|Hg]; [congruence|]. rewrite Hg. reflexivity.
Qed.
Definition clean_prog (ds : list (ident * sexpr)) (main : sexpr) : bool :=
  forallb (fun d => negb (is_box_name (fst d)) && clean (snd d)) ds && clean main.

Definition cdefs (ds : list (ident * sexpr)) : list (ident * bexpr) :=
  map (fun d => (fst d, assign_convert (snd d))) ds.

Lemma E_nil : forall W, E W [] [] [].
Proof. intros W. split; [|split]; intros; simpl in *; auto; discriminate. Qed.

Lemma inv_nil : forall e, inv [] [] e.
Proof. intros e x l H. discriminate. Qed.

Lemma StoreRel_nil : StoreRel [] [] [].
Proof. split; auto. split; [|split]; intros l; intros; destruct l; discriminate. Qed.

Lemma GlobRel_init : GlobRel [] sprim_globals bprim_globals.
Proof.
  split; [|repeat split; reflexivity].
  intros g. unfold sprim_globals, bprim_globals, bprim_table. rewrite map_app, map_map.
  induction prim_table as [|[x p] t IH]; simpl.
  - destruct (String.eqb g box_name) eqn:E1; [left; unfold is_box_name; rewrite E1; auto|].
    destruct (String.eqb g unbox_name) eqn:E2; [left; unfold is_box_name; rewrite E1, E2; auto|].
    destruct (String.eqb g setbox_name) eqn:E3; [left; unfold is_box_name; rewrite E1, E2, E3; auto|].
    right. auto.
  - destruct (String.eqb g x); auto. eexists. split; eauto. constructor.
Qed.
Lemma conv_defs_sim : forall n ds st x, srun_defs n st ds = Some x ->
  forall W stb, StoreRel W (s_store st) (b_store stb) -> GlobRel W (s_glob st) (b_glob stb) ->
  forallb (fun d => negb (is_box_name (fst d)) && clean (snd d)) ds = true ->
  match x with
  | inl st' => exists W' stb', ext W W' /\ brun_defs (dbl n) stb (cdefs ds) = Some (inl stb') /\
                 StoreRel W' (s_store st') (b_store stb') /\ GlobRel W' (s_glob st') (b_glob stb')
  | inr k => brun_defs (dbl n) stb (cdefs ds) = Some (inr k)
  end.
Proof.
  intros n ds. induction ds as [|[y e] ds IH]; intros st x Hx W stb HS HG Hcl; simpl in Hx.
  - inversion Hx; subst. exists W, stb. split; [apply ext_refl|]. auto.
  - simpl in Hcl. apply andb_true_iff in Hcl. destruct Hcl as [Hc1 Hc2]. apply andb_true_iff in Hc1. destruct Hc1 as [Hy He].
    assert (Hyb : is_box_name y = false) by (destruct (is_box_name y); auto; discriminate).
    cbn [cdefs map brun_defs fst snd]. unfold assign_convert.
    destruct (seval n [] e st) as [[v st1|k]|] eqn:Hev; try discriminate;
      pose proof (conv_all n [] e st _ Hev W [] [] stb (E_nil W) (inv_nil e) He HS HG) as H1.
    + destruct H1 as (W1 & bv & stb1 & X1 & B1 & V1 & S1 & G1). rewrite B1.
      pose proof (IH (mkS (s_store st1) ((y, v) :: s_glob st1)) x Hx W1 (mkB (b_store stb1) ((y, bv) :: b_glob stb1)) S1
                   (GlobRel_cons _ _ _ _ _ _ G1 V1 Hyb) Hc2) as H2.
      destruct x as [st'|k]; [|exact H2].
      destruct H2 as (W' & stb' & X2 & R2). exists W', stb'. split; [eapply ext_trans; eauto|exact R2].
    + inversion Hx; subst x. simpl in H1. rewrite H1. reflexivity.
Qed.

Lemma V_canon : forall W v bv, V W v bv -> canon_sval v = canon_bval bv.
Proof.
  intros W. fix IH 3. intros v bv H. destruct H; simpl; auto.
  f_equal. f_equal. f_equal. induction H; simpl; auto. f_equal; auto.
Qed.

Lemma assign_convert_program : forall n ds main sres,
  srun_program n ds main = Some sres -> clean_prog ds main = true ->
  exists bres, brun_program (dbl n) (cdefs ds) (assign_convert main) = Some bres /\
               render_bresult (Some bres) = render_sresult (Some sres) /\
               match sres, bres with
               | SVal v _, BVal bv _ => exists W, V W v bv
               | SErr k, BErr k' => k = k'
               | _, _ => False
               end.
Proof.
  intros n ds main sres H Hcl. unfold clean_prog in Hcl. apply andb_true_iff in Hcl. destruct Hcl as [Hcd Hcm].
  unfold srun_program in H. unfold brun_program.
  destruct (srun_defs n (mkS [] sprim_globals) ds) as [[st'|k]|] eqn:Hd; try discriminate;
    pose proof (conv_defs_sim n ds _ _ Hd [] (mkB [] bprim_globals) StoreRel_nil GlobRel_init Hcd) as H1.
  - destruct H1 as (W1 & stb1 & X1 & B1 & S1 & G1). rewrite B1.
    pose proof (conv_all n [] main st' _ H W1 [] [] stb1 (E_nil W1) (inv_nil main) Hcm S1 G1) as H2.
    destruct sres as [v st2|k]; simpl in H2.
    + destruct H2 as (W2 & bv & stb2 & X2 & B2 & V2 & _). exists (BVal bv stb2).
      split; [exact B2|]. split; [simpl; rewrite (V_canon _ _ _ V2); auto|eauto].
    + exists (BErr k). auto.
  - inversion H; subst sres. rewrite H1. exists (BErr k). auto.
Qed.

(* the premise [clean_prog] of C01_end_to_end_set in executable form, for a Lang.v unit; nothing evaluates it *)
Definition unit_clean (forms : list Lang.expr) : string :=
  match ssplit_unit forms with
  | Some (ds, ms) => if clean_prog ds (sseq_of ms) then "CLEAN"%string else "NOT-CLEAN"%string
  | None => "UNSUPPORTED"%string
  end.
