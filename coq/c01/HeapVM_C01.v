(* C01, assignment layer — facts about the heap VM [S] of lib/BytecodeS.v alone, shared by the two
   simulations that run on it (Proofs_C01_set, Proofs_C01_setl).
   [frame_caps], [fall_state], [ret_state], [outcome] and [tail_ok] are written out with the same text in
   both of those files, whose theorems are stated with their own copies; the lemmas here apply to the copies
   by conversion.
   A lemma here has the name of its counterpart for the heap-free VM in Proofs_C01 ([step_PUSH], [call_step_closure],
   [run_return], [runs_to] ...): the two simulations import this file after Proofs_C01, so there the short name is
   this file's. *)
From Coq Require Import String.
From Coq Require Import List Bool Lia Arith.
From SV Require Import lib.Core lib.CoreS lib.Bytecode lib.BytecodeS c01.Proofs_C01.
Import ListNotations.
Open Scope list_scope.

Lemma s_unsnoc_app : forall A (l : list A) x, S.unsnoc (l ++ [x]) = Some (l, x).
Proof. exact unsnoc_app. Qed.

Lemma set_nth_app_plus : forall A i (v : A) a b, S.set_nth (length a + i) v (a ++ b) = a ++ S.set_nth i v b.
Proof. induction a; simpl; intros; auto. f_equal. auto. Qed.

Definition frame_caps (fs : list S.frame) (caps : list S.mval) : Prop :=
  match fs with
  | f :: _ => exists a rs b, S.f_fn f = S.MClo a rs b caps
  | [] => caps = []
  end.

Section HeapVM.
  Variable limit : nat.
  Notation star := (S.star limit).
  Notation vm_step := (S.vm_step limit).

  Lemma step_star : forall s s' s'', vm_step s = S.SNext s' -> star s' s'' -> star s s''.
  Proof. intros. econstructor; eauto. Qed.

  Lemma star_snoc : forall s s' s'', star s s' -> vm_step s' = S.SNext s'' -> star s s''.
  Proof. intros. eapply S.star_trans; eauto. apply S.star_one; auto. Qed.

  Definition fails (s : S.vmstate) (k : errk) : Prop := exists s', star s s' /\ vm_step s' = S.SErr k.

  Lemma fails_now : forall s k, vm_step s = S.SErr k -> fails s k.
  Proof. intros s k H. exists s. split; [apply S.star_refl|exact H]. Qed.

  Lemma fails_prefix : forall s0 s k, star s0 s -> fails s k -> fails s0 k.
  Proof. intros s0 s k Hs (s' & Hst & He). exists s'. split; [eapply S.star_trans; eauto|exact He]. Qed.

  Section Steps.
    Variables (C : list instr) (pc : nat) (fs : list S.frame) (MG : list (ident * S.mval)) (H : list S.mval).

    Lemma step_PUSHCONST : forall c st, nth_error C pc = Some (PUSHCONST c) ->
      vm_step (S.mkVM C pc st fs MG H) = S.SNext (S.mkVM C (S pc) (st ++ [S.const_mval c]) fs MG H).
    Proof. intros c st Hi. unfold S.vm_step. simpl. rewrite Hi. reflexivity. Qed.

    Lemma step_READLOCAL : forall i below slots v, nth_error C pc = Some (READLOCAL i) ->
      length below = S.cur_sp fs -> nth_error slots i = Some v ->
      vm_step (S.mkVM C pc (below ++ slots) fs MG H) = S.SNext (S.mkVM C (S pc) ((below ++ slots) ++ [v]) fs MG H).
    Proof.
      intros i below slots v Hi Hb Hv. unfold S.vm_step. simpl.
      rewrite Hi, <- Hb, nth_error_app_plus, Hv. reflexivity.
    Qed.

    Lemma step_READCAPTURED : forall j st caps v, nth_error C pc = Some (READCAPTURED j) ->
      frame_caps fs caps -> nth_error caps j = Some v ->
      vm_step (S.mkVM C pc st fs MG H) = S.SNext (S.mkVM C (S pc) (st ++ [v]) fs MG H).
    Proof.
      intros j st caps v Hi Hfc Hv. unfold S.vm_step. simpl. rewrite Hi.
      destruct fs as [|f fs0]; simpl in Hfc.
      - subst caps. destruct j; discriminate.
      - destruct Hfc as (a & rs & b & ->). rewrite Hv. reflexivity.
    Qed.

    Lemma step_PUSH : forall g st v, nth_error C pc = Some (PUSH g) -> Core.lookup g MG = Some v ->
      vm_step (S.mkVM C pc st fs MG H) = S.SNext (S.mkVM C (S pc) (st ++ [v]) fs MG H).
    Proof. intros g st v Hi Hg. unfold S.vm_step. simpl. rewrite Hi, Hg. reflexivity. Qed.

    Lemma step_PUSH_free : forall g st, nth_error C pc = Some (PUSH g) -> Core.lookup g MG = None ->
      vm_step (S.mkVM C pc st fs MG H) = S.SErr EFree.
    Proof. intros g st Hi Hg. unfold S.vm_step. simpl. rewrite Hi, Hg. reflexivity. Qed.

    Lemma step_MKCLOSURE : forall a rs srcs body st caps, nth_error C pc = Some (MKCLOSURE a rs srcs body) ->
      S.fetch_caps st fs srcs = Some caps ->
      vm_step (S.mkVM C pc st fs MG H) = S.SNext (S.mkVM C (S pc) (st ++ [S.MClo a rs body caps]) fs MG H).
    Proof. intros a rs srcs body st caps Hi Hf. unfold S.vm_step. simpl. rewrite Hi, Hf. reflexivity. Qed.

    Lemma step_IF : forall off st v, nth_error C pc = Some (IF off) ->
      vm_step (S.mkVM C pc (st ++ [v]) fs MG H) =
      S.SNext (S.mkVM C (if S.mtruthy v then S pc else pc + off) st fs MG H).
    Proof.
      intros off st v Hi. unfold S.vm_step. simpl. rewrite Hi, s_unsnoc_app. destruct (S.mtruthy v); reflexivity.
    Qed.

    Lemma step_JMP : forall off st, nth_error C pc = Some (JMP off) ->
      vm_step (S.mkVM C pc st fs MG H) = S.SNext (S.mkVM C (pc + off) st fs MG H).
    Proof. intros off st Hi. unfold S.vm_step. simpl. rewrite Hi. reflexivity. Qed.

    Lemma step_BEGINSCOPE : forall st, nth_error C pc = Some BEGINSCOPE ->
      vm_step (S.mkVM C pc st fs MG H) = S.SNext (S.mkVM C (S pc) st fs MG H).
    Proof. intros st Hi. unfold S.vm_step. simpl. rewrite Hi. reflexivity. Qed.

    Lemma step_LETENDSCOPE : forall d below slots extra v, nth_error C pc = Some (LETENDSCOPE d) ->
      length below = S.cur_sp fs -> length slots = d ->
      vm_step (S.mkVM C pc ((below ++ slots ++ extra) ++ [v]) fs MG H) =
      S.SNext (S.mkVM C (S pc) ((below ++ slots) ++ [v]) fs MG H).
    Proof.
      intros d below slots extra v Hi Hb <-. unfold S.vm_step. simpl. rewrite Hi, s_unsnoc_app, <- Hb.
      replace (Nat.leb (length below + length slots) (length (below ++ slots ++ extra))) with true
        by (symmetry; apply Nat.leb_le; rewrite !app_length; lia).
      unfold S.next_with. simpl. rewrite firstn_app_2, firstn_app_exact. reflexivity.
    Qed.

    Lemma step_POPSINGLE : forall st v, nth_error C pc = Some POPSINGLE ->
      vm_step (S.mkVM C pc (st ++ [v]) fs MG H) = S.SNext (S.mkVM C (S pc) st fs MG H).
    Proof. intros st v Hi. unfold S.vm_step. simpl. rewrite Hi, s_unsnoc_app. reflexivity. Qed.

    Lemma step_BIND : forall g st v, nth_error C pc = Some (BIND g) ->
      vm_step (S.mkVM C pc (st ++ [v]) fs MG H) = S.SNext (S.mkVM C (S pc) st fs ((g, v) :: MG) H).
    Proof. intros g st v Hi. unfold S.vm_step. simpl. rewrite Hi, s_unsnoc_app. reflexivity. Qed.

    Lemma step_SET : forall g st v old, nth_error C pc = Some (SET g) -> Core.lookup g MG = Some old ->
      vm_step (S.mkVM C pc (st ++ [v]) fs MG H) = S.SNext (S.mkVM C (S pc) (st ++ [old]) fs ((g, v) :: MG) H).
    Proof. intros g st v old Hi Hg. unfold S.vm_step. simpl. rewrite Hi, s_unsnoc_app, Hg. reflexivity. Qed.

    Lemma step_SET_free : forall g st v, nth_error C pc = Some (SET g) -> Core.lookup g MG = None ->
      vm_step (S.mkVM C pc (st ++ [v]) fs MG H) = S.SErr EFree.
    Proof. intros g st v Hi Hg. unfold S.vm_step. simpl. rewrite Hi, s_unsnoc_app, Hg. reflexivity. Qed.

    Lemma step_SETLOCAL : forall i below slots v old, nth_error C pc = Some (SETLOCAL i) ->
      length below = S.cur_sp fs -> nth_error slots i = Some old ->
      vm_step (S.mkVM C pc ((below ++ slots) ++ [v]) fs MG H) =
      S.SNext (S.mkVM C (S pc) ((below ++ S.set_nth i v slots) ++ [old]) fs MG H).
    Proof.
      intros i below slots v old Hi Hb Ho. unfold S.vm_step. simpl.
      rewrite Hi, s_unsnoc_app, <- Hb, nth_error_app_plus, Ho, set_nth_app_plus. reflexivity.
    Qed.
  End Steps.

  Lemma step_POPPURE : forall C pc below slots v f fs' MG H, nth_error C pc = Some POPPURE ->
    length below = S.f_sp f ->
    vm_step (S.mkVM C pc ((below ++ slots) ++ [v]) (f :: fs') MG H) =
    S.SNext (S.mkVM (S.f_ret_code f) (S.f_ret_ip f) (below ++ [v]) fs' MG H).
  Proof.
    intros C pc below slots v f fs' MG H Hi Hb. unfold S.vm_step. simpl. rewrite Hi, s_unsnoc_app.
    unfold S.do_return. simpl. rewrite <- Hb.
    replace (Nat.leb (length below) (length (below ++ slots))) with true
      by (symmetry; apply Nat.leb_le; rewrite app_length; lia).
    rewrite firstn_app_exact. reflexivity.
  Qed.

  Lemma step_POPPURE_top : forall C pc v MG H, nth_error C pc = Some POPPURE ->
    vm_step (S.mkVM C pc [v] [] MG H) = S.SDone v (S.mkVM C (S pc) [] [] MG H).
  Proof. intros C pc v MG H Hi. unfold S.vm_step. simpl. rewrite Hi. reflexivity. Qed.

  Lemma call_step_notproc : forall tail C pcC st mf n fs MG H,
    nth_error C pcC = Some (call_instr tail n) ->
    match mf with S.MClo _ _ _ _ | S.MPrim _ => False | _ => True end ->
    vm_step (S.mkVM C pcC (st ++ [mf]) fs MG H) = S.SErr ENotProc.
  Proof.
    intros tail C pcC st mf n fs MG H Hi Hmf. unfold S.vm_step. simpl. rewrite Hi. unfold call_instr.
    destruct tail; rewrite s_unsnoc_app; destruct mf; simpl in *; tauto.
  Qed.

  Lemma call_step_prim : forall tail C pcC st0 mvs p fs MG H,
    nth_error C pcC = Some (call_instr tail (length mvs)) ->
    vm_step (S.mkVM C pcC ((st0 ++ mvs) ++ [S.MPrim p]) fs MG H) =
    match S.mprim_apply p mvs H with
    | inl (v, H') => S.SNext (S.mkVM C (S pcC) (st0 ++ [v]) fs MG H')
    | inr k => S.SErr k
    end.
  Proof.
    intros tail C pcC st0 mvs p fs MG H Hi. unfold S.vm_step. simpl. rewrite Hi. unfold call_instr.
    destruct tail; rewrite s_unsnoc_app; simpl; unfold S.call_prim; simpl;
      (replace (Nat.leb (length mvs) (length (st0 ++ mvs))) with true
         by (symmetry; apply Nat.leb_le; rewrite app_length; lia));
      rewrite skipn_len_app, firstn_len_app; destruct (S.mprim_apply p mvs H) as [[v h]|k]; auto.
  Qed.

  Lemma call_step_arity : forall tail C pcC st arity rest body caps n fs MG H,
    nth_error C pcC = Some (call_instr tail n) -> S.adjust_arity arity rest n st = inr EArity ->
    vm_step (S.mkVM C pcC (st ++ [S.MClo arity rest body caps]) fs MG H) = S.SErr EArity.
  Proof.
    intros tail C pcC st arity rest body caps n fs MG H Hi Hadj. unfold S.vm_step. simpl. rewrite Hi. unfold call_instr.
    destruct tail; rewrite s_unsnoc_app; simpl; rewrite Hadj; auto.
  Qed.

  Lemma call_step_func : forall C pcC st0 mvs mws n arity rest body caps fs MG H,
    nth_error C pcC = Some (FUNC n) ->
    S.adjust_arity arity rest n (st0 ++ mvs) = inl (Some (st0 ++ mws)) -> arity = length mws ->
    S (length fs) < limit ->
    vm_step (S.mkVM C pcC ((st0 ++ mvs) ++ [S.MClo arity rest body caps]) fs MG H) =
    S.SNext (S.mkVM body 0 (st0 ++ mws)
                (S.mkFrame (length st0) (S.MClo arity rest body caps) (S pcC) C :: fs) MG H).
  Proof.
    intros C pcC st0 mvs mws n arity rest body caps fs MG H Hi Hadj -> Hl.
    unfold S.vm_step. simpl. rewrite Hi. rewrite s_unsnoc_app. simpl. rewrite Hadj.
    replace (Nat.leb (length mws) (length (st0 ++ mws))) with true
      by (symmetry; apply Nat.leb_le; rewrite app_length; lia).
    replace (Nat.leb limit (S (length fs))) with false by (symmetry; apply Nat.leb_gt; lia).
    rewrite app_length. replace (length st0 + length mws - length mws) with (length st0) by lia. auto.
  Qed.

  Lemma call_step_tail : forall C pcC below slots mvs mws n arity rest body caps f0 fs0 MG H,
    nth_error C pcC = Some (TAILCALL n) ->
    S.adjust_arity arity rest n ((below ++ slots) ++ mvs) = inl (Some ((below ++ slots) ++ mws)) ->
    arity = length mws -> length below = S.f_sp f0 ->
    vm_step (S.mkVM C pcC (((below ++ slots) ++ mvs) ++ [S.MClo arity rest body caps]) (f0 :: fs0) MG H) =
    S.SNext (S.mkVM body 0 (below ++ mws)
                (S.mkFrame (S.f_sp f0) (S.MClo arity rest body caps) (S.f_ret_ip f0) (S.f_ret_code f0) :: fs0) MG H).
  Proof.
    intros C pcC below slots mvs mws n arity rest body caps f0 fs0 MG H Hi Hadj -> Hb.
    unfold S.vm_step. simpl. rewrite Hi. rewrite s_unsnoc_app. simpl. rewrite Hadj. simpl.
    replace (Nat.leb (length mws) (length ((below ++ slots) ++ mws))) with true
      by (symmetry; apply Nat.leb_le; rewrite !app_length; lia).
    replace (Nat.leb (S.f_sp f0) (length ((below ++ slots) ++ mws) - length mws)) with true
      by (symmetry; apply Nat.leb_le; rewrite !app_length; lia).
    simpl. rewrite <- Hb. rewrite <- app_assoc. rewrite firstn_app_exact.
    rewrite app_assoc. rewrite skipn_len_app. auto.
  Qed.

  Lemma run_return : forall C pc d, returns_from C pc d ->
    forall below slots mv f fs' MG H, length below = S.f_sp f -> length slots = d ->
    star (S.mkVM C pc ((below ++ slots) ++ [mv]) (f :: fs') MG H)
         (S.mkVM (S.f_ret_code f) (S.f_ret_ip f) (below ++ [mv]) fs' MG H).
  Proof.
    induction 1; intros below slots mv f fs' MG Hh Hb Hs.
    - apply S.star_one, step_POPPURE; auto.
    - eapply step_star; [apply step_JMP; eauto|]. auto.
    - eapply step_star; [|apply (IHreturns_from below (firstn m slots) mv f fs' MG Hh Hb)].
      + rewrite <- (firstn_skipn m slots) at 1. eapply step_LETENDSCOPE; eauto.
        rewrite firstn_length. lia.
      + rewrite firstn_length. lia.
  Qed.

  Definition fall_state (C : list instr) (pc' : nat) (below slots : list S.mval) (fs : list S.frame)
             (mv : S.mval) MG H :=
    S.mkVM C pc' (below ++ slots ++ [mv]) fs MG H.

  Definition ret_state (f : S.frame) (below : list S.mval) (fs' : list S.frame) (mv : S.mval) MG H :=
    S.mkVM (S.f_ret_code f) (S.f_ret_ip f) (below ++ [mv]) fs' MG H.

  Definition outcome (tail : bool) (s : S.vmstate) C pc' below slots fs mv MG H : Prop :=
    if tail then exists f fs', fs = f :: fs' /\ star s (ret_state f below fs' mv MG H)
    else star s (fall_state C pc' below slots fs mv MG H).

  Definition tail_ok (tail : bool) (C : list instr) (pc' d : nat) (fs : list S.frame) : Prop :=
    tail = true -> fs <> [] /\ returns_from C pc' d.

  Lemma tail_ok_false : forall C pc' d fs, tail_ok false C pc' d fs.
  Proof. intros C pc' d fs H. discriminate. Qed.

  Lemma outcome_of_push : forall tail s C pc' below slots fs mv MG H,
    star s (S.mkVM C pc' ((below ++ slots) ++ [mv]) fs MG H) ->
    tail_ok tail C pc' (length slots) fs -> length below = S.cur_sp fs ->
    outcome tail s C pc' below slots fs mv MG H.
  Proof.
    intros tail s C pc' below slots fs mv MG Hh Hs Ht Hb. destruct tail; simpl.
    - destruct (Ht eq_refl) as [Hne Hr]. destruct fs as [|f fs']; [congruence|].
      exists f, fs'. split; auto. eapply S.star_trans; eauto. eapply run_return; eauto.
    - unfold fall_state. rewrite app_assoc. exact Hs.
  Qed.

  Lemma outcome_to_ret : forall tl s Cb pc' below' slots' f fs' mv MG H,
    outcome tl s Cb pc' below' slots' (f :: fs') mv MG H ->
    returns_from Cb pc' (length slots') -> length below' = S.f_sp f ->
    star s (ret_state f below' fs' mv MG H).
  Proof.
    intros tl s Cb pc' below' slots' f fs' mv MG Hh Ho Hr Hb. destruct tl; simpl in Ho.
    - destruct Ho as (f1 & fs1 & Heq & Hst). inversion Heq; subst. auto.
    - eapply S.star_trans; [exact Ho|]. unfold fall_state. rewrite app_assoc. eapply run_return; eauto.
  Qed.

  Lemma outcome_prefix : forall tail s0 s C pc' below slots fs mv MG H,
    star s0 s -> outcome tail s C pc' below slots fs mv MG H -> outcome tail s0 C pc' below slots fs mv MG H.
  Proof.
    intros [|] s0 s C pc' below slots fs mv MG H Hs Ho; simpl in *.
    - destruct Ho as (f & fs' & -> & Hst). exists f, fs'. split; auto. eapply S.star_trans; eauto.
    - eapply S.star_trans; eauto.
  Qed.

  Lemma outcome_step : forall tail s C pc1 pc2 below slots1 slots2 fs mv MG H,
    outcome tail s C pc1 below slots1 fs mv MG H ->
    vm_step (fall_state C pc1 below slots1 fs mv MG H) = S.SNext (fall_state C pc2 below slots2 fs mv MG H) ->
    outcome tail s C pc2 below slots2 fs mv MG H.
  Proof. intros [|] s C pc1 pc2 below slots1 slots2 fs mv MG H Ho Hs; [exact Ho|]. eapply star_snoc; eauto. Qed.

  Lemma call_step_closure : forall tail C pcC below slots mvs mws n arity rest body caps fs MG H,
    nth_error C pcC = Some (call_instr tail n) ->
    S.adjust_arity arity rest n ((below ++ slots) ++ mvs) = inl (Some ((below ++ slots) ++ mws)) ->
    arity = length mws -> length below = S.cur_sp fs ->
    tail_ok tail C (S pcC) (length slots) fs -> S (length fs) < limit ->
    exists below' f fs',
      vm_step (S.mkVM C pcC (((below ++ slots) ++ mvs) ++ [S.MClo arity rest body caps]) fs MG H) =
        S.SNext (S.mkVM body 0 (below' ++ mws) (f :: fs') MG H) /\
      length below' = S.f_sp f /\ S.f_fn f = S.MClo arity rest body caps /\ length fs' <= length fs /\
      forall s mv MG' H', star s (ret_state f below' fs' mv MG' H') ->
        outcome tail s C (S pcC) below slots fs mv MG' H'.
  Proof.
    intros tail C pcC below slots mvs mws n arity rest body caps fs MG H Hi Hadj Ha Hb Ht Hl.
    destruct tail; simpl in Hi.
    - destruct (Ht eq_refl) as [Hne _]. destruct fs as [|f0 fs0]; [congruence|]. simpl in Hb.
      exists below, (S.mkFrame (S.f_sp f0) (S.MClo arity rest body caps) (S.f_ret_ip f0) (S.f_ret_code f0)), fs0.
      split; [eapply call_step_tail; eauto|]. split; [exact Hb|]. split; [reflexivity|]. split; [simpl; lia|].
      intros s mv MG' H' Hs. exists f0, fs0. split; auto.
    - exists (below ++ slots), (S.mkFrame (length (below ++ slots)) (S.MClo arity rest body caps) (S pcC) C), fs.
      split; [eapply call_step_func; eauto|]. split; [reflexivity|]. split; [reflexivity|]. split; [lia|].
      intros s mv MG' H' Hs. unfold outcome, fall_state. rewrite app_assoc. exact Hs.
  Qed.

  Section Values.
    Context {V : Type}.
    Variable vrel : V -> S.mval -> Prop.

    Lemma read_loc : forall r ce below slots caps fs x lc C pc MG H,
      Rel.R1 vrel r ce slots caps -> frame_caps fs caps -> length below = S.cur_sp fs ->
      Core.lookup x ce = Some lc ->
      nth_error C pc = Some (match lc with Slot i => READLOCAL i | Cap j => READCAPTURED j end) ->
      exists v mv, Core.lookup x r = Some v /\ vrel v mv /\
        vm_step (S.mkVM C pc (below ++ slots) fs MG H) =
        S.SNext (S.mkVM C (S pc) ((below ++ slots) ++ [mv]) fs MG H).
    Proof.
      intros r ce below slots caps fs x lc C pc MG H HR1 Hfc Hb Hce Hi.
      destruct (HR1 x lc Hce) as (v & mv & Hv & Hf & Hrel). exists v, mv. split; auto. split; auto.
      destruct lc; simpl in Hf; [eapply step_READLOCAL|eapply step_READCAPTURED]; eauto.
    Qed.

    Lemma fetch_caps_ok : forall r ce below slots caps fs,
      Rel.R1 vrel r ce slots caps -> frame_caps fs caps -> length below = S.cur_sp fs ->
      forall l, (forall x, In x l -> In x (map fst ce)) ->
      exists caps', S.fetch_caps (below ++ slots) fs (map (capsrc_of ce) l) = Some caps' /\
        forall j x, nth_error l j = Some x ->
          exists v mv, Core.lookup x r = Some v /\ nth_error caps' j = Some mv /\ vrel v mv.
    Proof.
      intros r ce below slots caps fs HR1 Hfc Hb. induction l as [|x l IH]; intros Hin.
      - exists []. split; auto. intros [|j] y Hy; discriminate.
      - destruct IH as (caps' & Hf & Hall). { intros; apply Hin; simpl; auto. }
        destruct (lookup_in_fst _ x ce (Hin x (or_introl eq_refl))) as [lc Hlc].
        destruct (HR1 x lc Hlc) as (v & mv & Hv & Hfetch & Hrel).
        exists (mv :: caps'). split.
        + simpl. rewrite Hf. unfold capsrc_of. rewrite Hlc. destruct lc; simpl in *.
          * rewrite <- Hb, nth_error_app_plus, Hfetch. auto.
          * destruct fs as [|f fs0]; simpl in Hfc.
            -- subst caps. destruct n; discriminate.
            -- destruct Hfc as (a & rs & b & ->). rewrite Hfetch. auto.
        + intros [|j] y Hy; simpl in *.
          * inversion Hy; subst. eauto.
          * eauto.
    Qed.
  End Values.

  Lemma vm_run_mono : forall k s r, S.vm_run limit k s = r -> r <> S.RFuel ->
    forall k', k <= k' -> S.vm_run limit k' s = r.
  Proof.
    induction k; simpl; intros s r H Hr k' Hk.
    - congruence.
    - destruct k'; [lia|]. simpl. destruct (vm_step s); auto. apply IHk; auto. lia.
  Qed.

  Definition runs_to (s : S.vmstate) (r : S.run_result) : Prop :=
    exists k, forall k', k <= k' -> S.vm_run limit k' s = r.

  Lemma runs_now : forall k s r, S.vm_run limit k s = r -> r <> S.RFuel -> runs_to s r.
  Proof. intros k s r Hr Hne. exists k. intros. eapply vm_run_mono; eauto. Qed.

  Lemma runs_to_star : forall s s' r, star s s' -> runs_to s' r -> runs_to s r.
  Proof.
    induction 1; intros Hr; auto. destruct (IHstar Hr) as [k0 Hk0]. exists (S k0). intros [|k'] Hk'; [lia|].
    simpl. rewrite H. apply Hk0. lia.
  Qed.

  Lemma fails_run : forall s ek, fails s ek -> runs_to s (S.RErr ek).
  Proof.
    intros s ek (s' & Hst & He). eapply runs_to_star; [exact Hst|]. apply (runs_now 1); [|discriminate].
    simpl. rewrite He. auto.
  Qed.

  Lemma runs_to_top : forall c mv MG H,
    runs_to (S.mkVM (c ++ [POPPURE]) (length c) [mv] [] MG H)
            (S.RDone mv (S.mkVM (c ++ [POPPURE]) (S (length c)) [] [] MG H)).
  Proof. intros. apply (runs_now 1); [|discriminate]. simpl. rewrite step_POPPURE_top; auto. apply nth_error_mid. Qed.

  Lemma runs_to_define : forall c x mv MG H,
    runs_to (S.mkVM (c ++ [BIND x; PUSHCONST KVoid; POPPURE]) (length c) [mv] [] MG H)
            (S.RDone S.MVoid (S.mkVM (c ++ [BIND x; PUSHCONST KVoid; POPPURE]) (S (S (S (length c)))) [] [] ((x, mv) :: MG) H)).
  Proof.
    intros c x mv MG H. apply (runs_now 3); [|discriminate].
    assert (E : forall i, nth_error (c ++ [BIND x; PUSHCONST KVoid; POPPURE]) (length c + i) =
                          nth_error [BIND x; PUSHCONST KVoid; POPPURE] i) by (intros; apply nth_error_app_plus).
    cbn [S.vm_run]. rewrite (step_BIND _ _ _ _ _ x [] mv) by (rewrite <- (Nat.add_0_r (length c)); apply E).
    rewrite step_PUSHCONST with (c := KVoid) by (rewrite <- Nat.add_1_r; apply E). cbn [app].
    rewrite step_POPPURE_top by (rewrite <- (Nat.add_1_r (length c)), <- Nat.add_1_r, <- Nat.add_assoc; apply E).
    reflexivity.
  Qed.
End HeapVM.
