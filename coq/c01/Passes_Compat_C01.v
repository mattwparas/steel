(* C01 (passes) — what every simulation of this directory shares (Section Rel: one step of the evaluator, over an
   abstract relation between values), and the generic simulation: a rewrite rule R that (i) introduces no free variable and (ii) is sound
   at the root with the SAME fuel and IDENTICAL result, may be applied anywhere in a program, any number of
   times, also inside lambda bodies: related programs produce related results (closures related by their bodies).
   A rule Q, applied after the children were visited, must keep the free variables equal. *)
From Coq Require Import ZArith List Bool String Lia.
From SV Require Import c01.Passes_Model_C01 c01.Passes_Basics_C01.
Import ListNotations.
Open Scope string_scope.

Inductive orel (P : val -> val -> Prop) : option val -> option val -> Prop :=
| OR_none : orel P None None
| OR_some v v' : P v v' -> orel P (Some v) (Some v').

Section Rel.
  Variable V : val -> val -> Prop.

  Record first_order : Prop := {
    V_inv : forall v v', V v v' ->
      match v, v' with
      | VNum a, VNum b => a = b
      | VBool a, VBool b => a = b
      | VNil, VNil | VVoid, VVoid => True
      | VCons a d, VCons a' d' => V a a' /\ V d d'
      | VClo ps r _ _, VClo ps' r' _ _ => ps = ps' /\ r = r'
      | _, _ => False
      end;
    V_Num : forall z, V (VNum z) (VNum z);
    V_Bool : forall b, V (VBool b) (VBool b);
    V_Nil : V VNil VNil;
    V_Void : V VVoid VVoid;
    V_Cons : forall a a' d d', V a a' -> V d d' -> V (VCons a d) (VCons a' d')
  }.
  Hypothesis HV : first_order.

  Definition envR (xs : list string) (ρ ρ' : venv) : Prop :=
    forall x, In x xs -> orel V (lookup x ρ) (lookup x ρ').
  Definition stateR (s s' : state) : Prop :=
    (forall g, orel V (lookup g (fst s)) (lookup g (fst s'))) /\ Forall2 V (snd s) (snd s').
  Definition resR (r r' : res) : Prop :=
    match r, r' with Val v, Val v' => V v v' | Err, Err => True | _, _ => False end.
  Definition ressR (r r' : res + list val) : Prop :=
    match r, r' with inl x, inl x' => resR x x' | inr vs, inr vs' => Forall2 V vs vs' | _, _ => False end.

  Lemma envR_incl xs ys ρ ρ' : incl ys xs -> envR xs ρ ρ' -> envR ys ρ ρ'.
  Proof. intros I H x Hx. apply H, I, Hx. Qed.
  Lemma envR_app_l a b ρ ρ' : envR (a ++ b) ρ ρ' -> envR a ρ ρ'.
  Proof. apply envR_incl, incl_appl, incl_refl. Qed.
  Lemma envR_app_r a b ρ ρ' : envR (a ++ b) ρ ρ' -> envR b ρ ρ'.
  Proof. apply envR_incl, incl_appr, incl_refl. Qed.

  (* what a lambda captures of related environments, when the target body reads no more than the source body *)
  Lemma envR_capture X X' ρ ρ' : incl X' X -> envR X' ρ ρ' -> envR X' (capture ρ X) (capture ρ' X').
  Proof.
    intros I H x Hx. rewrite !lookup_capture, (proj2 (mem_In x X') Hx), (proj2 (mem_In x X) (I x Hx)). exact (H x Hx).
  Qed.

  Lemma truthy_rel v v' : V v v' -> truthy v = truthy v'.
  Proof. intros H. apply (V_inv HV) in H. destruct v, v'; try contradiction; subst; reflexivity. Qed.

  Lemma list_val_rel vs vs' : Forall2 V vs vs' -> V (list_val vs) (list_val vs').
  Proof. induction 1; cbn [list_val]; [apply (V_Nil HV)|apply (V_Cons HV); assumption]. Qed.

  Lemma last_val_rel vs vs' : Forall2 V vs vs' -> V (last_val vs) (last_val vs').
  Proof.
    induction 1 as [|v v' l l' Hv Hl IH]; cbn [last_val]; [apply (V_Void HV)|].
    destruct Hl; [exact Hv|exact IH].
  Qed.

  Lemma datum_rel d : V (val_of_datum d) (val_of_datum d).
  Proof. induction d; cbn [val_of_datum]; [apply V_Num|apply V_Bool|apply V_Nil|apply V_Cons]; assumption. Qed.

  Lemma val_str_rel : forall v v', V v v' -> val_str v = val_str v'.
  Proof.
    induction v; intros v' H; apply (V_inv HV) in H; destruct v'; try contradiction; cbn [val_str]; subst; try reflexivity.
    destruct H as [H1 H2]. rewrite (IHv1 _ H1), (IHv2 _ H2). reflexivity.
  Qed.

  (* what an observer sees of a result: the printed value or the error, and the output *)
  Lemma render_rel r r' s1 s1' : resR r r' -> stateR s1 s1' -> render_res (Some (r, s1)) = render_res (Some (r', s1')).
  Proof.
    intros Hr [_ HO].
    assert (Ho : map val_str (rev (snd s1)) = map val_str (rev (snd s1'))).
    { rewrite !map_rev. f_equal. induction HO; cbn [map]; [reflexivity|]. f_equal; [apply val_str_rel|]; assumption. }
    destruct r, r'; try contradiction; cbn [render_res]; rewrite Ho; [rewrite (val_str_rel _ _ Hr)|]; reflexivity.
  Qed.

  (* if one side fails, so does the other: [bind_fixed_none], [bind_params_none] *)
  Lemma bind_fixed_rel : forall xs vs vs' ρ ρ' ρ1 (keep : list string),
    Forall2 V vs vs' ->
    (forall x, In x keep -> ~ In x xs -> orel V (lookup x ρ) (lookup x ρ')) ->
    bind_fixed xs vs ρ = Some ρ1 -> exists ρ1', bind_fixed xs vs' ρ' = Some ρ1' /\ envR keep ρ1 ρ1'.
  Proof.
    induction xs as [|y xs IH]; intros vs vs' ρ ρ' ρ1 keep HF H B; destruct HF as [|v v' vs vs' Hv HF];
      cbn [bind_fixed] in *; try discriminate.
    - inversion B; subst. exists ρ'. split; [reflexivity|]. intros x Hx. apply H; [exact Hx|intros []].
    - eapply IH; [exact HF| |exact B]. intros x Hx Hn. cbn [lookup]. destruct (String.eqb x y) eqn:E; [constructor; exact Hv|].
      apply H; [exact Hx|]. intros [->|Hi]; [rewrite String.eqb_refl in E; discriminate|exact (Hn Hi)].
  Qed.

  Lemma pack_rel ps rest vs vs' ws : Forall2 V vs vs' -> pack ps rest vs = Some ws ->
    exists ws', pack ps rest vs' = Some ws' /\ Forall2 V ws ws'.
  Proof.
    intros HF. unfold pack. destruct rest; [|intros E; inversion E; subst; eauto]. rewrite <- (Forall2_length _ _ _ _ _ HF).
    destruct (Nat.ltb _ _); [discriminate|]. intros E; inversion E; subst. eexists; split; [reflexivity|].
    apply Forall2_app; [apply Forall2_firstn; exact HF|]. constructor; [|constructor]. apply list_val_rel, Forall2_skipn, HF.
  Qed.

  (* with rest = false this is the statement for [bind_fixed] *)
  Lemma bind_params_rel_some ps rest vs vs' ρ ρ' ρ1 keep :
    Forall2 V vs vs' -> envR (filter (fun y => negb (mem y ps)) keep) ρ ρ' ->
    bind_params ps rest vs ρ = Some ρ1 -> exists ρ1', bind_params ps rest vs' ρ' = Some ρ1' /\ envR keep ρ1 ρ1'.
  Proof.
    intros HF H. rewrite !bind_params_pack. destruct (pack ps rest vs) as [ws|] eqn:P; [|discriminate].
    destruct (pack_rel _ _ _ _ _ HF P) as (ws' & -> & HF'). apply bind_fixed_rel; [exact HF'|].
    intros x Hx Hn. apply H, in_filter_notin; assumption.
  Qed.

  Lemma update_rel g v v' G G' :
    (forall x, orel V (lookup x G) (lookup x G')) -> V v v' ->
    forall x, orel V (lookup x (update g v G)) (lookup x (update g v' G')).
  Proof.
    intros HG Hv x. rewrite !lookup_update. destruct (HG x) as [|a a' Ha]; constructor.
    destruct (String.eqb x g); assumption.
  Qed.

  Definition simO {A} (P : A -> A -> Prop) (o o' : option (A * state)) : Prop :=
    forall x s1, o = Some (x, s1) -> exists x' s1', o' = Some (x', s1') /\ P x x' /\ stateR s1 s1'.

  Lemma simO_ret {A} (P : A -> A -> Prop) x x' s s' : P x x' -> stateR s s' -> simO P (Some (x, s)) (Some (x', s')).
  Proof. intros Hx Hs y s1 E. inversion E; subst. exists x', s'. auto. Qed.

  (* the evaluator's own bind; k and k' are found by unification against its match *)
  Lemma simO_bind {A B} (P : A -> A -> Prop) (Q : B -> B -> Prop) o o' (k k' : A * state -> option (B * state)) :
    simO P o o' ->
    (forall x x' s1 s1', o' = Some (x', s1') -> P x x' -> stateR s1 s1' -> simO Q (k (x, s1)) (k' (x', s1'))) ->
    simO Q (match o with Some a => k a | None => None end) (match o' with Some a => k' a | None => None end).
  Proof.
    intros H Hk y s2 E. destruct o as [[x s1]|]; [|discriminate].
    destruct (H x s1 eq_refl) as (x' & s1' & E' & Hx & Hs1). rewrite E'. exact (Hk x x' s1 s1' E' Hx Hs1 y s2 E).
  Qed.

  Lemma apply_prim_rel op vs vs' s s' :
    Forall2 V vs vs' -> stateR s s' -> simO resR (Some (apply_prim op vs s)) (Some (apply_prim op vs' s')).
  Proof.
    intros HF Hs. pose proof (simO_ret resR Err Err s s' I Hs) as E.
    assert (Add : simO resR (Some (apply_prim PAdd vs s)) (Some (apply_prim PAdd vs' s'))).
    { destruct HF as [|a a' l l' Ha HF]; [exact E|].
      apply (V_inv HV) in Ha. destruct a, a'; try contradiction; try exact E. subst.
      destruct HF as [|b b' l l' Hb HF]; [exact E|].
      apply (V_inv HV) in Hb. destruct b, b'; try contradiction; try exact E. subst.
      destruct HF; [apply simO_ret; [apply (V_Num HV)|exact Hs]|exact E]. }
    destruct op; [exact Add| | |rewrite !apply_prim_AddC; exact Add].
    - apply simO_ret; [apply list_val_rel; exact HF|exact Hs].
    - destruct HF as [|a a' l l' Ha [|]]; try exact E.
      apply simO_ret; [apply (V_Void HV)|]. destruct Hs as [HG HO]. split; [exact HG|]. constructor; assumption.
  Qed.

  Definition simE (n : nat) (ρ ρ' : venv) (e e' : exp) : Prop :=
    forall s s', stateR s s' -> simO resR (eval n s ρ e) (eval n s' ρ' e').
  Definition simEs (n : nat) (ρ ρ' : venv) (l l' : exps) : Prop :=
    forall s s', stateR s s' -> simO ressR (evals n s ρ l) (evals n s' ρ' l').

  Lemma simE_O ρ ρ' e e' : simE 0 ρ ρ' e e'.
  Proof. intros s s' _ r s1 E. rewrite eval_O in E. discriminate. Qed.

  Lemma simE_Call_1 ρ ρ' f a e' : simE 1 ρ ρ' (Call f a) e'.
  Proof. intros s s' _ r s1 E. rewrite eval_Call_1 in E. discriminate. Qed.

  Lemma simE_const n ρ ρ' e v :
    (forall s ρ0, eval (S n) s ρ0 e = Some (Val v, s)) -> V v v -> simE (S n) ρ ρ' e e.
  Proof. intros H Hv s s' Hs. rewrite !H. exact (simO_ret resR (Val v) (Val v) _ _ Hv Hs). Qed.

  Lemma simE_Loc n ρ ρ' x : orel V (lookup x ρ) (lookup x ρ') -> simE (S n) ρ ρ' (Loc x) (Loc x).
  Proof.
    intros H s s' Hs. rewrite !eval_Loc.
    destruct H as [|v v' Hv]; [exact (simO_ret resR Err Err _ _ I Hs)|exact (simO_ret resR (Val v) (Val v') _ _ Hv Hs)].
  Qed.

  Lemma simE_Glob n ρ ρ' g : simE (S n) ρ ρ' (Glob g) (Glob g).
  Proof.
    intros s s' Hs. rewrite !eval_Glob.
    destruct (proj1 Hs g) as [|v v' Hv]; [exact (simO_ret resR Err Err _ _ I Hs)|exact (simO_ret resR (Val v) (Val v') _ _ Hv Hs)].
  Qed.

  Lemma simE_Lam n ρ ρ' ps r b b' :
    V (VClo ps r b (capture ρ (fv (Lam ps r b)))) (VClo ps r b' (capture ρ' (fv (Lam ps r b')))) ->
    simE (S n) ρ ρ' (Lam ps r b) (Lam ps r b').
  Proof. intros H s s' Hs. rewrite !eval_Lam. exact (simO_ret resR (Val _) (Val _) _ _ H Hs). Qed.

  Lemma simEs_Nil n ρ ρ' : simEs n ρ ρ' ENil ENil.
  Proof. intros s s' Hs. rewrite !evals_Nil. exact (simO_ret ressR (inr []) (inr []) _ _ (Forall2_nil V) Hs). Qed.

  Lemma simEs_Cons n ρ ρ' e e' l l' : simE n ρ ρ' e e' -> simEs n ρ ρ' l l' -> simEs n ρ ρ' (ECons e l) (ECons e' l').
  Proof.
    intros He Hl s s' Hs. rewrite !evals_Cons. apply (simO_bind resR ressR); [apply He, Hs|].
    intros [v|] [v'|] s1 s1' _ Hx Hs1; try contradiction; cbv beta iota; [|exact (simO_ret ressR (inl Err) (inl Err) _ _ I Hs1)].
    apply (simO_bind ressR ressR); [apply Hl, Hs1|].
    intros [y|vs] [y'|vs'] s2 s2' _ Hr Hs2; try contradiction; cbv beta iota.
    - exact (simO_ret ressR (inl y) (inl y') _ _ Hr Hs2).
    - exact (simO_ret ressR (inr (v :: vs)) (inr (v' :: vs')) _ _ (Forall2_cons v v' Hx Hr) Hs2).
  Qed.

  Lemma operands_then n ρ ρ' l l' (k k' : list val -> state -> option (res * state)) :
    simEs n ρ ρ' l l' ->
    (forall s0 vs vs' s2 s2', evals n s0 ρ' l' = Some (inr vs', s2') -> Forall2 V vs vs' -> stateR s2 s2' ->
       simO resR (k vs s2) (k' vs' s2')) ->
    forall s s', stateR s s' ->
      simO resR
        match evals n s ρ l with
        | None => None
        | Some (inl x, s2) => Some (x, s2)
        | Some (inr vs, s2) => k vs s2
        end
        match evals n s' ρ' l' with
        | None => None
        | Some (inl x, s2) => Some (x, s2)
        | Some (inr vs, s2) => k' vs s2
        end.
  Proof.
    intros Hl Hk s s' Hs. apply (simO_bind ressR resR); [apply Hl, Hs|].
    intros [x|vs] [x'|vs'] s2 s2' E' Hr Hs2; try contradiction; cbv beta iota;
      [exact (simO_ret resR x x' _ _ Hr Hs2)|eapply Hk; eassumption].
  Qed.

  Lemma simE_Begin n ρ ρ' l l' : simEs n ρ ρ' l l' -> simE (S n) ρ ρ' (Begin l) (Begin l').
  Proof.
    intros Hl s s'. rewrite !eval_Begin. apply operands_then; [exact Hl|].
    intros _ vs vs' s2 s2' _ HF Hs2. exact (simO_ret resR (Val _) (Val _) _ _ (last_val_rel _ _ HF) Hs2).
  Qed.

  Lemma simE_Prim n ρ ρ' op l l' : simEs n ρ ρ' l l' -> simE (S n) ρ ρ' (Prim op l) (Prim op l').
  Proof.
    intros Hl s s'. rewrite !eval_Prim. apply operands_then; [exact Hl|].
    intros _ vs vs' s2 s2' _ HF Hs2. exact (apply_prim_rel op vs vs' s2 s2' HF Hs2).
  Qed.

  (* the binder cases apply the binding lemma themselves: their users supply the body under the bound environments *)
  Lemma simE_Let n ρ ρ' xs l l' b b' :
    simEs n ρ ρ' l l' -> envR (filter (fun y => negb (mem y xs)) (fv b')) ρ ρ' ->
    (forall s0 s2 vs vs' ρ1 ρ1', evals n s0 ρ' l' = Some (inr vs', s2) -> Forall2 V vs vs' -> bind_fixed xs vs ρ = Some ρ1 ->
       envR (fv b') ρ1 ρ1' -> simE n ρ1 ρ1' b b') ->
    simE (S n) ρ ρ' (Let xs l b) (Let xs l' b').
  Proof.
    intros Hl Hρ Hb s s'. rewrite !eval_Let. apply operands_then; [exact Hl|].
    intros s0 vs vs' s2 s2' El HF Hs2. destruct (bind_fixed xs vs ρ) as [ρ1|] eqn:B.
    - destruct (bind_params_rel_some xs false _ _ _ _ _ _ HF Hρ B) as (ρ1' & B' & A). cbn [bind_params] in B'. rewrite B'.
      exact (Hb _ _ _ _ _ _ El HF B A _ _ Hs2).
    - rewrite (bind_fixed_none xs vs vs' ρ ρ' (Forall2_length _ _ _ _ _ HF) B). exact (simO_ret resR Err Err _ _ I Hs2).
  Qed.

  Lemma simE_If n ρ ρ' c c' t t' e e' :
    simE n ρ ρ' c c' -> simE n ρ ρ' t t' -> simE n ρ ρ' e e' -> simE (S n) ρ ρ' (If c t e) (If c' t' e').
  Proof.
    intros Hc Ht He s s' Hs. rewrite !eval_If. apply (simO_bind resR resR); [apply Hc, Hs|].
    intros [v|] [v'|] s2 s2' _ Hx Hs2; try contradiction; cbv beta iota; [|exact (simO_ret resR Err Err _ _ I Hs2)].
    rewrite <- (truthy_rel _ _ Hx). destruct (truthy v); [apply Ht|apply He]; exact Hs2.
  Qed.

  Lemma simE_SetG n ρ ρ' g e e' : simE n ρ ρ' e e' -> simE (S n) ρ ρ' (SetG g e) (SetG g e').
  Proof.
    intros He s s' Hs. rewrite !eval_SetG. apply (simO_bind resR resR); [apply He, Hs|].
    intros [v|] [v'|] s2 s2' _ Hx Hs2; try contradiction; cbv beta iota; [|exact (simO_ret resR Err Err _ _ I Hs2)].
    destruct (proj1 Hs2 g) as [|w w' _]; [exact (simO_ret resR Err Err _ _ I Hs2)|].
    apply (simO_ret resR (Val VVoid) (Val VVoid)); [apply (V_Void HV)|].
    split; [apply update_rel; [exact (proj1 Hs2)|exact Hx]|exact (proj2 Hs2)].
  Qed.

  Definition clo_sim (n : nat) : Prop :=
    forall ps rest b ρc b' ρc', V (VClo ps rest b ρc) (VClo ps rest b' ρc') ->
      envR (filter (fun y => negb (mem y ps)) (fv b')) ρc ρc' /\
      forall vs ρ1 ρ1', bind_params ps rest vs ρc = Some ρ1 -> envR (fv b') ρ1 ρ1' -> simE n ρ1 ρ1' b b'.

  Lemma simE_Call n ρ ρ' f f' a a' :
    clo_sim n -> simEs (Nat.pred n) ρ ρ' a a' -> simE n ρ ρ' f f' -> simE (S n) ρ ρ' (Call f a) (Call f' a').
  Proof.
    intros Hclo Ha Hf s s'. rewrite !eval_Call. apply operands_then; [exact Ha|].
    intros _ vs vs' s2 s2' _ HF Hs2. apply (simO_bind resR resR); [apply Hf, Hs2|].
    intros [v|] [v'|] s3 s3' _ Hx Hs3; try contradiction; cbv beta iota; [|exact (simO_ret resR Err Err _ _ I Hs3)].
    pose proof (V_inv HV _ _ Hx) as Hi.
    destruct v as [| | | | |ps rest b ρc], v' as [| | | | |ps' rest' b' ρc']; try contradiction;
      try exact (simO_ret resR Err Err _ _ I Hs3).
    destruct Hi as [<- <-]. destruct (Hclo _ _ _ _ _ _ Hx) as [Hc Hb].
    destruct (bind_params ps rest vs ρc) as [ρ1|] eqn:B.
    - destruct (bind_params_rel_some ps rest _ _ _ _ _ _ HF Hc B) as (ρ1' & -> & A). exact (Hb _ _ _ B A _ _ Hs3).
    - rewrite (bind_params_none ps rest vs vs' ρc ρc' (Forall2_length _ _ _ _ _ HF) B). exact (simO_ret resR Err Err _ _ I Hs3).
  Qed.
End Rel.

Section Compat.
  Variable R : exp -> exp -> Prop.    (* rules applied at a node BEFORE its result is visited further *)
  Variable Q : exp -> exp -> Prop.    (* rules applied at a node AFTER its children were visited (bottom-up passes) *)

  Inductive crel : exp -> exp -> Prop :=
  | C_step e e1 e2 : R e e1 -> crel e1 e2 -> crel e e2
  | C_post e e1 e2 : crel e e1 -> Q e1 e2 -> crel e e2
  | C_Num z : crel (Num z) (Num z)
  | C_Bool b : crel (Bool_ b) (Bool_ b)
  | C_Quote d : crel (Quote d) (Quote d)
  | C_Loc x : crel (Loc x) (Loc x)
  | C_Glob g : crel (Glob g) (Glob g)
  | C_Lam ps r b b' : crel b b' -> crel (Lam ps r b) (Lam ps r b')
  | C_Call f f' a a' : crel f f' -> crels a a' -> crel (Call f a) (Call f' a')
  | C_If c c' t t' e e' : crel c c' -> crel t t' -> crel e e' -> crel (If c t e) (If c' t' e')
  | C_Let xs r r' b b' : crels r r' -> crel b b' -> crel (Let xs r b) (Let xs r' b')
  | C_Begin es es' : crels es es' -> crel (Begin es) (Begin es')
  | C_Prim op a a' : crels a a' -> crel (Prim op a) (Prim op a')
  | C_SetG g e e' : crel e e' -> crel (SetG g e) (SetG g e')
  with crels : exps -> exps -> Prop :=
  | CS_Nil : crels ENil ENil
  | CS_Cons e e' r r' : crel e e' -> crels r r' -> crels (ECons e r) (ECons e' r').

  Scheme crel_mut := Induction for crel Sort Prop
    with crels_mut := Induction for crels Sort Prop.
  Combined Scheme crel_crels_ind from crel_mut, crels_mut.

  Lemma crel_refl_both : (forall e, crel e e) /\ (forall l, crels l l).
  Proof. apply exp_exps_ind; intros; constructor; assumption. Qed.
  Definition crel_refl := proj1 crel_refl_both.
  Definition crels_refl := proj2 crel_refl_both.

  Inductive vrel : val -> val -> Prop :=
  | VR_Num z : vrel (VNum z) (VNum z)
  | VR_Bool b : vrel (VBool b) (VBool b)
  | VR_Nil : vrel VNil VNil
  | VR_Void : vrel VVoid VVoid
  | VR_Cons a a' d d' : vrel a a' -> vrel d d' -> vrel (VCons a d) (VCons a' d')
  | VR_Clo ps rest b b' ρ ρ' :
      crel b b' ->
      (forall x, In x (fv (Lam ps rest b')) -> orel vrel (lookup x ρ) (lookup x ρ')) ->
      vrel (VClo ps rest b ρ) (VClo ps rest b' ρ').

  Definition envrel (xs : list string) (ρ ρ' : venv) : Prop :=
    forall x, In x xs -> orel vrel (lookup x ρ) (lookup x ρ').
  Definition grel (G G' : venv) : Prop := forall g, orel vrel (lookup g G) (lookup g G').
  Definition srel (s s' : state) : Prop := grel (fst s) (fst s') /\ Forall2 vrel (snd s) (snd s').
  Inductive rrel : res -> res -> Prop :=
  | RR_val v v' : vrel v v' -> rrel (Val v) (Val v')
  | RR_err : rrel Err Err.

  Lemma vrel_fo : first_order vrel.
  Proof. split; try (constructor; assumption). intros v v' H. destruct H; auto. Qed.

  Lemma rrel_resR r r' : resR vrel r r' -> rrel r r'.
  Proof. destruct r, r'; try contradiction; constructor; assumption. Qed.

  Hypothesis R_fv : forall e e1, R e e1 -> incl (fv e1) (fv e).
  Hypothesis R_sound : forall e e1, R e e1 ->
    forall n s ρ r, eval n s ρ e = Some r -> eval n s ρ e1 = Some r.
  Hypothesis Q_fv : forall e e1, Q e e1 -> incl (fv e1) (fv e) /\ incl (fv e) (fv e1).
  Hypothesis Q_sound : forall e e1, Q e e1 ->
    forall n s ρ r, eval n s ρ e = Some r -> eval n s ρ e1 = Some r.

  Lemma crel_fv_both :
    (forall e e', crel e e' -> incl (fv e') (fv e)) /\ (forall l l', crels l l' -> incl (fvs l') (fvs l)).
  Proof.
    apply crel_crels_ind; intros; cbn [fv fvs]; try apply incl_refl;
      repeat first [apply incl_app_app | apply filter_incl_mono | assumption].
    - (* C_step *) eapply incl_tran; [eassumption|]. apply R_fv; assumption.
    - (* C_post *) match goal with q : Q _ _ |- _ => eapply incl_tran; [apply (proj1 (Q_fv _ _ q))|eassumption] end.
  Qed.
  Definition crel_fv := proj1 crel_fv_both.

  Definition simP (n : nat) : Prop :=
    forall e e', crel e e' -> forall ρ ρ', envrel (fv e') ρ ρ' -> simE vrel n ρ ρ' e e'.
  Definition simsP (n : nat) : Prop :=
    forall l l', crels l l' -> forall ρ ρ', envrel (fvs l') ρ ρ' -> simEs vrel n ρ ρ' l l'.

  Lemma sims_from n : simP n -> simsP n.
  Proof.
    intros H l l' Hl. induction Hl as [|e e' l l' He Hl IH]; intros ρ ρ' Hρ; [apply simEs_Nil|]. cbn [fvs] in Hρ.
    apply simEs_Cons; [apply H; [exact He|]|apply IH]; [eapply envR_app_l|eapply envR_app_r]; exact Hρ.
  Qed.

  Lemma clo_sim_from n : simP n -> clo_sim vrel n.
  Proof.
    intros Sn ps rest b ρc b' ρc' Hv. inversion Hv as [| | | | |? ? ? ? ? ? Hb Hc]; subst.
    split; [exact Hc|]. intros vs ρ1 ρ1' _. apply Sn, Hb.
  Qed.

  Theorem crel_sim : forall n, simP n.
  Proof.
    induction n as [N IHN] using lt_wf_ind.
    intros e e' H.
    induction H as [e e1 e2 HR _ IH|e e1 e2 _ IH HQ|z|b|d|x|g|ps r b b' Hb _|f f' a a' Hf _ Ha|c c' t t' e e' Hc _ Ht _ He _
                   |xs r r' b b' Hr Hb _|es es' Hes|op a a' Ha|g e e' He _]; intros ρ ρ' Hρ.
    1:{ (* C_step *)
        intros s s' Hs r0 s1 E. eapply IH; [exact Hρ|exact Hs|]. eapply R_sound; eassumption. }
    1:{ (* C_post *)
        intros s s' Hs r0 s1 E.
        destruct (IH ρ ρ' (envR_incl _ _ _ _ _ (proj2 (Q_fv _ _ HQ)) Hρ) s s' Hs r0 s1 E) as (r' & s1' & E' & Hr).
        exists r', s1'. split; [eapply Q_sound; eassumption|exact Hr]. }
    (* the congruence rules: the subterms are related at smaller fuel *)
    all: destruct N as [|n]; [apply simE_O|]; cbn [fv] in Hρ.
    all: assert (Sn : simP n) by (apply IHN; lia).
    - eapply simE_const; [intros; apply eval_Num|constructor].
    - eapply simE_const; [intros; apply eval_Bool|constructor].
    - eapply simE_const; [intros; apply eval_Quote|apply (datum_rel vrel vrel_fo)].
    - apply simE_Loc. apply Hρ. left; reflexivity.
    - apply simE_Glob.
    - (* C_Lam *)
      apply simE_Lam. constructor; [exact Hb|].
      apply (envR_capture vrel); [apply (crel_fv (Lam ps r b) (Lam ps r b')); constructor; exact Hb|exact Hρ].
    - (* C_Call *)
      apply (simE_Call vrel vrel_fo); [apply clo_sim_from, Sn|apply (sims_from (Nat.pred n)); [apply IHN; lia|exact Ha|]|apply Sn; [exact Hf|]];
        [eapply envR_app_l|eapply envR_app_r]; exact Hρ.
    - (* C_If *)
      apply (simE_If vrel vrel_fo); (apply Sn; [assumption|]);
        [eapply envR_app_l|eapply envR_app_l, envR_app_r|eapply envR_app_r, envR_app_r]; exact Hρ.
    - (* C_Let *)
      apply (simE_Let vrel vrel_fo); [apply (sims_from n Sn); [exact Hr|eapply envR_app_l; exact Hρ]|eapply envR_app_r; exact Hρ|].
      intros _ _ _ _ ρ1 ρ1' _ _ _. apply Sn, Hb.
    - apply (simE_Begin vrel vrel_fo), (sims_from n Sn); assumption.
    - apply (simE_Prim vrel vrel_fo), (sims_from n Sn); assumption.
    - apply (simE_SetG vrel vrel_fo), Sn; assumption.
  Qed.

  Theorem crel_preserves e e' : crel e e' -> forall n s s' ρ ρ' r s1,
    srel s s' -> envrel (fv e') ρ ρ' -> eval n s ρ e = Some (r, s1) ->
    exists r' s1', eval n s' ρ' e' = Some (r', s1') /\ rrel r r' /\ srel s1 s1'.
  Proof.
    intros H n s s' ρ ρ' r s1 Hs Hρ E. destruct (crel_sim n e e' H ρ ρ' Hρ s s' Hs r s1 E) as (r' & s1' & E' & Hr & Hs1).
    exists r', s1'. split; [exact E'|]. split; [apply rrel_resR; exact Hr|exact Hs1].
  Qed.

  (* closed programs: the printed result and the output are identical *)
  Theorem crel_observable e e' : crel e e' -> forall n r, eval n (ENone, []) ENone e = Some r ->
    exists r', eval n (ENone, []) ENone e' = Some r' /\ render_res (Some r) = render_res (Some r').
  Proof.
    intros H n [r s1] E.
    destruct (crel_sim n e e' H ENone ENone (fun x _ => OR_none _) (ENone, []) (ENone, [])
                (conj (fun g => OR_none _) (Forall2_nil _)) r s1 E) as (r' & s1' & E' & Hr & Hs1).
    exists (r', s1'). split; [exact E'|]. eapply (render_rel vrel vrel_fo); eassumption.
  Qed.
End Compat.
