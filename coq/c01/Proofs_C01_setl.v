(* C01, assignment layer with in-place assignment of un-captured locals (SETLOCAL) — forward simulation
   between CoreL.leval (environment threaded: [LSetL] overwrites a binding) and the compiled bytecode on
   the heap VM.  Same structure as Proofs_C01_set.v; in addition the frame's variable slots evolve with
   the environment, temporaries are untouched ([frame_ok]), and the environment keeps its names ([sim_concl]). *)
From Coq Require Import String.
From Coq Require Import List Bool Lia Arith.
From SV Require Import lib.Core lib.CoreS lib.CoreL lib.Bytecode lib.BytecodeS lib.BytecodeL c01.Proofs_C01 c01.HeapVM_C01.
Import ListNotations.
Open Scope list_scope.

Lemma lfv_app_eq : forall x f args, L.lfv x (LApp f args) = L.lfv_list x args || L.lfv x f.
Proof. intros. simpl. f_equal. induction args; simpl; auto. rewrite IHargs. auto. Qed.

Lemma lfv_let_eq : forall x bs body,
  L.lfv x (LLet bs body) = L.lfv_list x (map snd bs) || (negb (memb x (map fst bs)) && L.lfv x body).
Proof. intros. simpl. f_equal. induction bs as [|[y a] bs]; simpl; auto. rewrite IHbs. auto. Qed.

Lemma lookup_env_set_same : forall x v (r : lenv) old, Core.lookup x r = Some old -> Core.lookup x (env_set x v r) = Some v.
Proof.
  induction r as [|[y w] r IH]; simpl; intros; [discriminate|].
  destruct (String.eqb x y) eqn:E; simpl; rewrite E; eauto.
Qed.

Lemma lookup_env_set_other : forall x y v (r : lenv), String.eqb y x = false -> Core.lookup y (env_set x v r) = Core.lookup y r.
Proof.
  induction r as [|[z w] r IH]; simpl; intros; auto.
  destruct (String.eqb x z) eqn:E; simpl.
  - apply String.eqb_eq in E; subst. rewrite H. auto.
  - destruct (String.eqb y z); auto.
Qed.

Lemma env_set_keys : forall x v (r : lenv), map fst (env_set x v r) = map fst r.
Proof. induction r as [|[z w] r IH]; simpl; auto. destruct (String.eqb x z); simpl; f_equal; auto. Qed.

Lemma set_nth_length : forall A i (v : A) l, length (S.set_nth i v l) = length l.
Proof. induction i; destruct l; simpl; auto. Qed.

Lemma set_nth_same : forall A i (v : A) l, i < length l -> nth_error (S.set_nth i v l) i = Some v.
Proof. induction i; destruct l; simpl; intros; try lia; auto. apply IHi. lia. Qed.

Lemma set_nth_other : forall A i j (v : A) l, i <> j -> nth_error (S.set_nth i v l) j = nth_error l j.
Proof. induction i; destruct l, j; simpl; intros; auto; try congruence. Qed.

Lemma set_nth_app : forall A i (v : A) a b, i < length a -> S.set_nth i v (a ++ b) = S.set_nth i v a ++ b.
Proof. induction i; destruct a; simpl; intros; try lia; auto. f_equal. apply IHi. lia. Qed.

Lemma nth_error_ext : forall A (a b : list A), (forall j, nth_error a j = nth_error b j) -> a = b.
Proof.
  induction a; destruct b; intros H; auto.
  - specialize (H 0). discriminate.
  - specialize (H 0). discriminate.
  - pose proof (H 0) as H0. simpl in H0. inversion H0; subst. f_equal. apply IHa. intros j. apply (H (S j)).
Qed.

Lemma nth_error_firstn_in : forall A n (l : list A) j, j < n -> nth_error (firstn n l) j = nth_error l j.
Proof. induction n; destruct l, j; simpl; intros; auto; try lia. apply IHn. lia. Qed.

Lemma nth_error_firstn_out : forall A n (l : list A) j, n <= j -> nth_error (firstn n l) j = None.
Proof. intros. apply nth_error_None. rewrite firstn_length. lia. Qed.

Lemma lookup_keys : forall A B x (l1 : list (ident * A)) (l2 : list (ident * B)), map fst l1 = map fst l2 ->
  (Core.lookup x l1 = None <-> Core.lookup x l2 = None).
Proof.
  induction l1 as [|[y a] l1 IH]; destruct l2 as [|[z b] l2]; simpl; intros; try discriminate; try tauto.
  inversion H; subst. destruct (String.eqb x z); [split; discriminate|auto].
Qed.

Lemma bind_keys : forall A xs (vs : list A) r, length xs = length vs -> map fst (bind xs vs r) = rev xs ++ map fst r.
Proof.
  induction xs; destruct vs; simpl; intros; try discriminate; auto.
  rewrite IHxs by lia. simpl. rewrite <- app_assoc. auto.
Qed.

Lemma lookup_skip_keys : forall A x n (r : list (ident * A)), ~ In x (firstn n (map fst r)) ->
  Core.lookup x (skipn n r) = Core.lookup x r.
Proof.
  induction n; intros; simpl; auto. destruct r as [|[y a] r]; simpl; auto.
  simpl in H. destruct (String.eqb x y) eqn:E.
  - apply String.eqb_eq in E. subst. tauto.
  - apply IHn. tauto.
Qed.

Lemma wf_app_eq : forall ce d f args, L.wf ce d (LApp f args) = L.wf_list ce d args && L.wf ce (d + length args) f.
Proof. intros. simpl. f_equal. revert d. induction args; simpl; intros; auto. rewrite IHargs. auto. Qed.

Lemma wf_let_eq : forall ce d bs body, L.wf ce d (LLet bs body) =
  L.wf_list ce d (map snd bs) && L.disjointb (map fst bs) ce && L.wf (bind_slots (map fst bs) d ce) (d + length bs) body.
Proof.
  intros. simpl. f_equal. f_equal. revert d. induction bs as [|[y a] bs]; simpl; intros; auto. rewrite IHbs. auto.
Qed.

Section SimS.
  Variable limit : nat.
  Variable tco : bool.
  Notation star := (S.star limit).
  Notation vm_step := (S.vm_step limit).

  Lemma compile_app_eq : forall ce d tail f args,
    L.compile tco ce d tail (LApp f args) =
    L.compile_list tco ce d args ++ L.compile tco ce (d + length args) false f
      ++ [if tail then TAILCALL (length args) else FUNC (length args)].
  Proof.
    intros. simpl. f_equal. revert d. induction args; simpl; intros; auto. rewrite IHargs. auto.
  Qed.

  Lemma compile_let_eq : forall ce d tail bs body,
    L.compile tco ce d tail (LLet bs body) =
    BEGINSCOPE :: L.compile_list tco ce d (map snd bs)
      ++ L.compile tco (bind_slots (map fst bs) d ce) (d + length bs) tail body ++ [LETENDSCOPE d].
  Proof.
    intros. simpl. f_equal. f_equal. revert d. induction bs as [|[y a] bs]; simpl; intros; auto.
    rewrite IHbs. auto.
  Qed.

  Inductive vrel : lval -> S.mval -> Prop :=
  | vr_int : forall z, vrel (LVInt z) (S.MInt z)
  | vr_bool : forall b, vrel (LVBool b) (S.MBool b)
  | vr_void : vrel LVVoid S.MVoid
  | vr_prim : forall p, vrel (LVPrim p) (S.MPrim p)
  | vr_clo : forall ps rest body r fvs caps,
      (forall j x, nth_error fvs j = Some x ->
         exists v mv, Core.lookup x r = Some v /\ nth_error caps j = Some mv /\ vrel v mv) ->
      (forall x, L.lfv x body = true -> memb x (params ps rest) = false -> ~ In x fvs -> Core.lookup x r = None) ->
      L.wf (body_cenv (params ps rest) fvs) (length (params ps rest)) body = true ->
      vrel (LVClo ps rest body r)
           (S.MClo (length (params ps rest)) (rest_flag rest)
                   (L.compile tco (body_cenv (params ps rest) fvs) (length (params ps rest)) tco body ++ [POPPURE]) caps)
  | vr_list : forall vs mvs, Forall2 vrel vs mvs -> vrel (LVList vs) (S.MList mvs)
  | vr_box : forall a, vrel (LVBox a) (S.MBox a).

  (* [fetch], [R1], [Grel]: the text of [Rel]'s at [vrel], as in Proofs_C01 *)
  Definition fetch (l : loc) (slots caps : list S.mval) : option S.mval :=
    match l with Slot i => nth_error slots i | Cap j => nth_error caps j end.

  Definition R1 (r : lenv) (ce : cenv) (slots caps : list S.mval) : Prop :=
    forall x l, Core.lookup x ce = Some l ->
      exists v mv, Core.lookup x r = Some v /\ fetch l slots caps = Some mv /\ vrel v mv.

  Definition R2 (e : lexpr) (r : lenv) (ce : cenv) : Prop :=
    forall x, L.lfv x e = true -> Core.lookup x ce = None -> Core.lookup x r = None.

  Definition R2l (es : list lexpr) (r : lenv) (ce : cenv) : Prop :=
    forall x, L.lfv_list x es = true -> Core.lookup x ce = None -> Core.lookup x r = None.

  Definition Grel (G : lenv) (MG : list (ident * S.mval)) : Prop :=
    forall g, match Core.lookup g G, Core.lookup g MG with
              | Some v, Some mv => vrel v mv
              | None, None => True
              | _, _ => False
              end.

  Definition Srel (st : list lval) (H : list S.mval) : Prop := Forall2 vrel st H.

  Definition frame_caps (fs : list S.frame) (caps : list S.mval) : Prop :=
    match fs with
    | f :: _ => exists a rs b, S.f_fn f = S.MClo a rs b caps
    | [] => caps = []
    end.

  Lemma R2_if : forall c t e r ce, R2 (LIf c t e) r ce -> R2 c r ce /\ R2 t r ce /\ R2 e r ce.
  Proof. intros c t e r ce H. repeat split; intros y Hy; apply H; simpl; rewrite Hy, ?orb_true_r; auto. Qed.

  Lemma R2_seq : forall a b r ce, R2 (LSeq a b) r ce -> R2 a r ce /\ R2 b r ce.
  Proof. intros a b r ce H. split; intros y Hy; apply H; simpl; rewrite Hy, ?orb_true_r; auto. Qed.

  Lemma R2_setg : forall g e r ce, R2 (LSetG g e) r ce -> R2 e r ce.
  Proof. intros g e r ce H y Hy. apply H. simpl. rewrite Hy, orb_true_r. auto. Qed.

  Lemma R2_setl : forall x e r ce, R2 (LSetL x e) r ce -> R2 e r ce.
  Proof. intros x e r ce H y Hy. apply H. simpl. rewrite Hy, orb_true_r. auto. Qed.

  Lemma R2_app : forall f args r ce, R2 (LApp f args) r ce -> R2l args r ce /\ R2 f r ce.
  Proof. intros f args r ce H. split; intros y Hy; apply H; rewrite lfv_app_eq, Hy, ?orb_true_r; auto. Qed.

  Lemma R2l_cons : forall e es r ce, R2l (e :: es) r ce -> R2 e r ce /\ R2l es r ce.
  Proof. intros e es r ce H. split; intros y Hy; apply H; simpl; rewrite Hy, ?orb_true_r; auto. Qed.

  Lemma R2_let : forall bs body r ce, R2 (LLet bs body) r ce ->
    R2l (map snd bs) r ce /\
    forall vs d, R2 body (bind (map fst bs) vs r) (bind_slots (map fst bs) d ce).
  Proof. intros bs body r ce. apply Rel.unbound_let. intros x. apply lfv_let_eq. Qed.

  (* [R2] only depends on the names the environment binds, which evaluation preserves *)
  Lemma R2_keys : forall e r r' ce, R2 e r ce -> map fst r' = map fst r -> R2 e r' ce.
  Proof. intros e r r' ce H K x Hx Hn. apply (lookup_keys _ _ x r' r K). apply H; auto. Qed.

  Lemma R2l_keys : forall es r r' ce, R2l es r ce -> map fst r' = map fst r -> R2l es r' ce.
  Proof. intros es r r' ce H K x Hx Hn. apply (lookup_keys _ _ x r' r K). apply H; auto. Qed.

  Lemma vrel_atom : forall v mv, vrel v mv -> lval_atom v = S.mval_atom mv.
  Proof. destruct 1; simpl; auto. Qed.

  Lemma vrel_atoms : forall vs mvs, Forall2 vrel vs mvs -> map lval_atom vs = map S.mval_atom mvs.
  Proof. induction 1; simpl; auto. f_equal; auto. apply vrel_atom; auto. Qed.

  Lemma vrel_of_atom : forall a, vrel (atom_lval a) (S.atom_mval a).
  Proof. destruct a; simpl; constructor. Qed.

  Lemma vrel_truthy : forall v mv, vrel v mv -> atom_truthy (lval_atom v) = S.mtruthy mv.
  Proof. intros. unfold S.mtruthy. erewrite vrel_atom; eauto. Qed.

  Lemma vrel_const : forall c, vrel (lconst c) (S.const_mval c).
  Proof. destruct c; simpl; constructor. Qed.

  Lemma mprim_rel : forall p vs mvs st G Hh, Forall2 vrel vs mvs -> Srel st Hh ->
    match lprim_apply p vs (mkL st G) with
    | PVal v st' => exists mv H', S.mprim_apply p mvs Hh = inl (mv, H') /\ vrel v mv /\
                                  Srel (l_store st') H' /\ l_glob st' = G
    | PErr k => S.mprim_apply p mvs Hh = inr k
    end.
  Proof.
    intros p vs mvs st G Hh HF HS. destruct p; simpl.
    - rewrite (vrel_atoms _ _ HF). destruct (prim_sem p (map S.mval_atom mvs)); auto.
      simpl. eexists. eexists. split; [reflexivity|]. split; [apply vrel_of_atom|]. auto.
    - (* #%box: the new box has the same address on both sides *)
      destruct HF as [|v mv vs' mvs' Hv [|]]; auto. simpl.
      eexists. eexists. split; [reflexivity|].
      rewrite (Forall2_length _ _ _ _ _ HS). split; [constructor|]. split; auto.
      apply Forall2_app; auto.
    - (* #%unbox *)
      destruct HF as [|v mv vs' mvs' Hv HF']; auto.
      destruct Hv; destruct HF'; simpl; auto.
      pose proof (Forall2_nth_error _ _ _ _ _ HS a) as Hn.
      destruct (nth_error st a), (nth_error Hh a); try tauto.
      simpl. eexists. eexists. split; [reflexivity|]. auto.
    - (* #%set-box! *)
      destruct HF as [|v mv vs' mvs' Hv [|v2 mv2 vs2 mvs2 Hv2 HF2]]; auto.
      { destruct Hv; auto. }
      destruct Hv; destruct HF2; simpl; auto.
      pose proof (Forall2_nth_error _ _ _ _ _ HS a) as Hn.
      destruct (nth_error st a), (nth_error Hh a); try tauto.
      simpl. eexists. eexists. split; [reflexivity|]. split; auto. split; auto.
      apply Forall2_upd_nth; auto.
  Qed.

  Definition fall_state (C : list instr) (pc' : nat) (below slots : list S.mval) (fs : list S.frame)
             (mv : S.mval) MG H :=
    S.mkVM C pc' (below ++ slots ++ [mv]) fs MG H.

  Definition ret_state (f : S.frame) (below : list S.mval) (fs' : list S.frame) (mv : S.mval) MG H :=
    S.mkVM (S.f_ret_code f) (S.f_ret_ip f) (below ++ [mv]) fs' MG H.

  Definition outcome (tail : bool) (s : S.vmstate) C pc' below slots fs mv MG H : Prop :=
    if tail then exists f fs', fs = f :: fs' /\ star s (ret_state f below fs' mv MG H)
    else star s (fall_state C pc' below slots fs mv MG H).

  Definition tail_ok (tail : bool) (C : list instr) (pc' d : nat) (fs : list S.frame) : Prop :=
    tail = true -> fs <> [] /\ returns_from C pc' d.

  Lemma outcome_of_fall : forall tail s C pc' below slots fs mv MG H,
    star s (fall_state C pc' below slots fs mv MG H) ->
    tail_ok tail C pc' (length slots) fs -> length below = S.cur_sp fs ->
    outcome tail s C pc' below slots fs mv MG H.
  Proof.
    intros tail s C pc' below slots fs mv MG H Hs. apply outcome_of_push.
    unfold fall_state in Hs. rewrite app_assoc in Hs. exact Hs.
  Qed.

  Lemma outcome_to_ret : forall tl s Cb pc' below' slots' f fs' mv MG H,
    outcome tl s Cb pc' below' slots' (f :: fs') mv MG H ->
    returns_from Cb pc' (length slots') -> length below' = S.f_sp f ->
    star s (ret_state f below' fs' mv MG H).
  Proof. exact (HeapVM_C01.outcome_to_ret limit). Qed.

  Definition is_slot (ce : cenv) (i : nat) : Prop := exists x, Core.lookup x ce = Some (Slot i).
  Definition frame_ok (ce : cenv) (slots slots' : list S.mval) : Prop :=
    forall i, ~ is_slot ce i -> nth_error slots' i = nth_error slots i.
  Definition ce_lt (ce : cenv) (d : nat) : Prop := forall x i, Core.lookup x ce = Some (Slot i) -> i < d.
  Definition slots_inj (ce : cenv) : Prop :=
    forall x y i, Core.lookup x ce = Some (Slot i) -> Core.lookup y ce = Some (Slot i) -> x = y.

  Lemma frame_ok_refl : forall ce sl, frame_ok ce sl sl.
  Proof. intros ce sl i _. auto. Qed.

  Lemma frame_ok_trans : forall ce a b c, frame_ok ce a b -> frame_ok ce b c -> frame_ok ce a c.
  Proof. intros ce a b c H1 H2 i Hi. rewrite H2, H1; auto. Qed.

  Lemma ce_lt_more : forall ce d d', ce_lt ce d -> d <= d' -> ce_lt ce d'.
  Proof. intros ce d d' H Hd x i Hx. apply H in Hx. lia. Qed.

  Lemma ce_bind : forall xs d ce, ce_lt ce d -> slots_inj ce ->
    ce_lt (bind_slots xs d ce) (d + length xs) /\ slots_inj (bind_slots xs d ce).
  Proof.
    induction xs as [|x0 xs IH]; intros d ce Hl Hi; simpl.
    - rewrite Nat.add_0_r. auto.
    - replace (d + S (length xs)) with (S d + length xs) by lia. apply IH.
      + intros y i Hy. simpl in Hy. destruct (String.eqb y x0); [inversion Hy; lia|]. apply Hl in Hy. lia.
      + intros y z i Hy Hz. simpl in Hy, Hz.
        destruct (String.eqb y x0) eqn:E1, (String.eqb z x0) eqn:E2.
        * apply String.eqb_eq in E1, E2. congruence.
        * inversion Hy; subst. apply Hl in Hz. lia.
        * inversion Hz; subst. apply Hl in Hy. lia.
        * eapply Hi; eauto.
  Qed.

  Lemma ce_body : forall xs fvs, ce_lt (body_cenv xs fvs) (length xs) /\ slots_inj (body_cenv xs fvs).
  Proof.
    intros. unfold body_cenv. change (length xs) with (0 + length xs). apply ce_bind.
    - intros y i Hy. unfold caps_cenv in Hy. apply lookup_caps_cenv in Hy. destruct Hy as (j & Hj & _). discriminate.
    - intros y z i Hy. unfold caps_cenv in Hy. apply lookup_caps_cenv in Hy. destruct Hy as (j & Hj & _). discriminate.
  Qed.

  Lemma bind_slots_low : forall xs d ce x i, Core.lookup x (bind_slots xs d ce) = Some (Slot i) -> i < d ->
    Core.lookup x ce = Some (Slot i).
  Proof.
    induction xs as [|x0 xs IH]; intros d ce x i H Hi; simpl in H; auto.
    apply IH in H; [|lia]. simpl in H. destruct (String.eqb x x0); auto. inversion H. lia.
  Qed.

  Lemma bind_slots_notin : forall xs d ce x, ~ In x xs -> Core.lookup x (bind_slots xs d ce) = Core.lookup x ce.
  Proof.
    induction xs as [|x0 xs IH]; intros d ce x H; simpl; auto.
    rewrite IH by (simpl in H; tauto). simpl. destruct (String.eqb x x0) eqn:E; auto.
    apply String.eqb_eq in E. subst. simpl in H. tauto.
  Qed.

  Lemma disjointb_notin : forall xs ce x l, L.disjointb xs ce = true -> Core.lookup x ce = Some l -> ~ In x xs.
  Proof.
    unfold L.disjointb. intros xs ce x l H Hl Hin. rewrite forallb_forall in H. apply H in Hin. rewrite Hl in Hin. discriminate.
  Qed.

  (* what an evaluation over [slots ++ temps] returns splits again: the temporaries are untouched *)
  Lemma split_temps : forall r ce caps slots temps S',
    ce_lt ce (length slots) -> length S' = length (slots ++ temps) ->
    frame_ok ce (slots ++ temps) S' -> R1 r ce S' caps ->
    exists slots', S' = slots' ++ temps /\ length slots' = length slots /\ R1 r ce slots' caps /\ frame_ok ce slots slots'.
  Proof.
    intros r ce caps slots temps S' Hlt Hlen Hf HR. rewrite app_length in Hlen.
    exists (firstn (length slots) S').
    assert (Hsk : skipn (length slots) S' = temps).
    { apply nth_error_ext. intros j. rewrite nth_error_skipn. rewrite Hf.
      - apply nth_error_app_plus.
      - intros [x Hx]. apply Hlt in Hx. lia. }
    split. { rewrite <- Hsk. symmetry. apply firstn_skipn. }
    split. { rewrite firstn_length. lia. }
    split.
    - intros x l Hl. destruct (HR x l Hl) as (v & mv & A & B & Cc). exists v, mv. split; auto. split; auto.
      destruct l; simpl in *; auto. rewrite nth_error_firstn_in; auto. eapply Hlt; eauto.
    - intros i Hi. destruct (Nat.lt_ge_cases i (length slots)).
      + rewrite nth_error_firstn_in; auto. rewrite Hf; auto. rewrite nth_error_app1; auto.
      + rewrite nth_error_firstn_out by lia. symmetry. apply nth_error_None. auto.
  Qed.

  Definition post (tail : bool) (r' : lenv) ce caps (s : S.vmstate) C pc' below slots fs mv MG' H' : Prop :=
    if tail then exists f fs', fs = f :: fs' /\ star s (ret_state f below fs' mv MG' H')
    else exists slots', length slots' = length slots /\ R1 r' ce slots' caps /\ frame_ok ce slots slots' /\
                        star s (fall_state C pc' below slots' fs mv MG' H').

  (* [map fst r' = map fst r]: evaluation keeps the names the environment binds, in their order; this is what carries
     [R2], which speaks of unbound names only, from r to r' *)
  Definition sim_concl (res : lresult) (r : lenv) ce caps (tail : bool) (s : S.vmstate) C pc' below slots fs : Prop :=
    match res with
    | LVal v r' st' => map fst r' = map fst r /\
        exists mv MG' H', vrel v mv /\ Srel (l_store st') H' /\ Grel (l_glob st') MG' /\
                          post tail r' ce caps s C pc' below slots fs mv MG' H'
    | LErr k => fails limit s k
    end.

  Lemma post_of_outcome : forall tail r' ce caps s C pc' below slots slots' fs mv MG H,
    outcome tail s C pc' below slots' fs mv MG H ->
    length slots' = length slots -> R1 r' ce slots' caps -> frame_ok ce slots slots' ->
    post tail r' ce caps s C pc' below slots fs mv MG H.
  Proof. intros [|] r' ce caps s C pc' below slots slots' fs mv MG H Ho Hl HR Hf; simpl in *; eauto. Qed.

  Lemma post_of_push : forall tail r' ce caps s C pc' below slots slots' fs mv MG H,
    length slots' = length slots -> R1 r' ce slots' caps -> frame_ok ce slots slots' ->
    star s (S.mkVM C pc' ((below ++ slots') ++ [mv]) fs MG H) ->
    tail_ok tail C pc' (length slots) fs -> length below = S.cur_sp fs ->
    post tail r' ce caps s C pc' below slots fs mv MG H.
  Proof.
    intros tail r' ce caps s C pc' below slots slots' fs mv MG Hh Hl HR Hf Hs Ht Hb.
    apply post_of_outcome with slots'; auto. apply outcome_of_push; auto. rewrite Hl. exact Ht.
  Qed.

  Lemma post_to_ret : forall tl r' ce caps s Cb pc' below' slots' f fs' mv MG H,
    post tl r' ce caps s Cb pc' below' slots' (f :: fs') mv MG H ->
    returns_from Cb pc' (length slots') -> length below' = S.f_sp f ->
    star s (ret_state f below' fs' mv MG H).
  Proof.
    intros tl r' ce caps s Cb pc' below' slots' f fs' mv MG Hh Ho Hr Hb. destruct tl; simpl in Ho.
    - destruct Ho as (f1 & fs1 & Heq & Hst). inversion Heq; subst. auto.
    - destruct Ho as (sl & A & B & Cc & D). eapply (HeapVM_C01.outcome_to_ret limit false); eauto. rewrite A. exact Hr.
  Qed.

  Definition sim_at (n : nat) : Prop :=
    forall r e st res, leval n r e st = Some res ->
    forall ce tail C pc pc' below slots d caps fs MG H,
      code_seg C pc (L.compile tco ce d tail e) pc' -> length slots = d ->
      length below = S.cur_sp fs -> frame_caps fs caps ->
      R1 r ce slots caps -> R2 e r ce ->
      L.wf ce d e = true -> ce_lt ce d -> slots_inj ce ->
      Srel (l_store st) H -> Grel (l_glob st) MG ->
      length fs + n <= limit ->
      tail_ok tail C pc' d fs ->
      sim_concl res r ce caps tail (S.mkVM C pc (below ++ slots) fs MG H) C pc' below slots fs.

  Lemma sim_concl_prefix : forall res r ce caps tail s0 s C pc' below slots fs,
    star s0 s -> sim_concl res r ce caps tail s C pc' below slots fs -> sim_concl res r ce caps tail s0 C pc' below slots fs.
  Proof.
    intros res r ce caps tail s0 s C pc' below slots fs Hs H. destruct res; simpl in *.
    - destruct H as (K & mv & MG' & H' & Hv & HS & HG & Ho). split; auto. exists mv, MG', H'. repeat split; auto.
      destruct tail; [exact (outcome_prefix limit true _ _ C pc' below slots _ _ _ _ Hs Ho)|].
      destruct Ho as (sl & A & B & Cc & D). exists sl. repeat split; auto. eapply S.star_trans; eauto.
    - eapply fails_prefix; eauto.
  Qed.

  (* a conclusion about the environment [r1] and the slots [slots1] that [r] and [slots] have become is a conclusion
     about [r] and [slots] *)
  Lemma sim_concl_evolve : forall res r r1 ce caps tail s C pc' below slots slots1 fs,
    map fst r1 = map fst r -> length slots1 = length slots -> frame_ok ce slots slots1 ->
    sim_concl res r1 ce caps tail s C pc' below slots1 fs -> sim_concl res r ce caps tail s C pc' below slots fs.
  Proof.
    intros [v r' st'|k] r r1 ce caps tail s C pc' below slots slots1 fs K1 Hl Hf H; [|exact H].
    destruct H as (K & mv & MG' & H' & Hv & HS & HG & Ho). split; [congruence|]. exists mv, MG', H'. repeat split; auto.
    destruct tail; [exact Ho|]. destruct Ho as (sl & A & B & Cc & D). exists sl. repeat split; auto.
    - lia.
    - eapply frame_ok_trans; eauto.
  Qed.

  (* one more instruction after the value was pushed, whatever the frame's slots have become *)
  Lemma sim_concl_step : forall res r ce caps tail s C pc1 pc2 below slots fs,
    sim_concl res r ce caps tail s C pc1 below slots fs ->
    (forall slots' mv MG H, vm_step (fall_state C pc1 below slots' fs mv MG H) =
                            S.SNext (fall_state C pc2 below slots' fs mv MG H)) ->
    sim_concl res r ce caps tail s C pc2 below slots fs.
  Proof.
    intros [v r' st'|k] r ce caps tail s C pc1 pc2 below slots fs H Hs; [|exact H].
    destruct H as (K & mv & MG' & H' & Hv & HS & HG & Ho). split; auto. exists mv, MG', H'. repeat split; auto.
    destruct tail; [exact Ho|]. destruct Ho as (sl & A & B & Cc & D). exists sl. repeat split; auto.
    eapply star_snoc; eauto.
  Qed.

  (* LETENDSCOPE after the body of a let: the outer variables keep their slots, the slots of the binders are
     dropped together with their bindings *)
  Lemma sim_concl_let_exit : forall xs (vs : list lval) r1 ce caps tail s C pc' below slots1 d mvs fs v r2 st2,
    sim_concl (LVal v r2 st2) (bind xs vs r1) (bind_slots xs d ce) caps tail s C pc' below (slots1 ++ mvs) fs ->
    length slots1 = d -> ce_lt ce d -> L.disjointb xs ce = true -> length xs = length vs ->
    nth_error C pc' = Some (LETENDSCOPE d) -> length below = S.cur_sp fs ->
    sim_concl (LVal v (skipn (length xs) r2) st2) r1 ce caps tail s C (S pc') below slots1 fs.
  Proof.
    intros xs vs r1 ce caps tail s C pc' below slots1 d mvs fs v r2 st2
           (K2 & mv & MG2 & H2' & Hrel & HS2 & HG2 & Ho) <- Hlt Hdis Hxl HiL Hb.
    rewrite bind_keys in K2 by auto. split.
    { rewrite <- skipn_map, K2, <- (rev_length xs). apply skipn_app_exact. }
    exists mv, MG2, H2'. repeat split; auto.
    destruct tail; [exact Ho|]. destruct Ho as (Sb & B1 & B2 & B3 & B4).
    assert (HSbl : length slots1 <= length Sb) by (rewrite B1, app_length; lia).
    exists (firstn (length slots1) Sb). split; [rewrite firstn_length; lia|]. split; [|split].
    - intros y l Hy.
      assert (Hnin : ~ In y xs) by (eapply disjointb_notin; eauto).
      destruct (B2 y l) as (w & mw & A & Bq & Cc). { rewrite bind_slots_notin; auto. }
      exists w, mw. split; [|split; auto].
      + rewrite lookup_skip_keys; auto. rewrite K2, <- (rev_length xs), firstn_app_exact. intros Hin. apply in_rev in Hin. tauto.
      + destruct l as [i|j]; simpl in *; auto. rewrite nth_error_firstn_in; auto. eapply Hlt; eauto.
    - intros i Hi. destruct (Nat.lt_ge_cases i (length slots1)).
      + rewrite nth_error_firstn_in; auto. rewrite B3.
        * rewrite nth_error_app1; auto.
        * intros [y Hy]. apply Hi. exists y. eapply bind_slots_low; eauto.
      + rewrite nth_error_firstn_out by lia. symmetry. apply nth_error_None. auto.
    - eapply star_snoc; [exact B4|]. unfold fall_state.
      rewrite <- (firstn_skipn (length slots1) Sb) at 1. rewrite !app_assoc, <- (app_assoc below).
      eapply step_LETENDSCOPE; eauto. rewrite firstn_length. lia.
  Qed.

  Lemma sim_err_now : forall k r ce caps tail s C pc' below slots fs,
    vm_step s = S.SErr k -> sim_concl (LErr k) r ce caps tail s C pc' below slots fs.
  Proof. intros. apply fails_now. auto. Qed.

  Lemma sim_push : forall tail s C pc' below slots fs r ce caps st v mv MG H,
    vm_step s = S.SNext (S.mkVM C pc' ((below ++ slots) ++ [mv]) fs MG H) ->
    vrel v mv -> R1 r ce slots caps -> Srel (l_store st) H -> Grel (l_glob st) MG ->
    tail_ok tail C pc' (length slots) fs -> length below = S.cur_sp fs ->
    sim_concl (LVal v r st) r ce caps tail s C pc' below slots fs.
  Proof.
    intros tail s C pc' below slots fs r ce caps st v mv MG H Hs Hv HR HS HG Ht Hb. split; auto. exists mv, MG, H. repeat split; auto.
    apply post_of_push with slots; auto using frame_ok_refl. apply S.star_one; auto.
  Qed.

  (* As Proofs_C01.sim_sub, for leval: K also takes environment and state; the caller receives what environment and
     slots have become (r1, slots1: same names, same length, R1 again) and the temporaries [temps], the operands already
     pushed, where they were. *)
  Lemma sim_sub : forall n, sim_at n -> forall r e st ce C pc p1 below slots temps d caps fs MG H,
    code_seg C pc (L.compile tco ce d false e) p1 -> length (slots ++ temps) = d ->
    length below = S.cur_sp fs -> frame_caps fs caps -> R1 r ce slots caps -> R2 e r ce ->
    L.wf ce d e = true -> ce_lt ce (length slots) -> slots_inj ce ->
    Srel (l_store st) H -> Grel (l_glob st) MG -> length fs + n <= limit ->
    forall res tail pc' (K : lval -> lenv -> lstate -> option lresult),
    match leval n r e st with Some (LVal v r1 st1) => K v r1 st1 | Some (LErr k) => Some (LErr k) | None => None end = Some res ->
    (forall v r1 st1 mv MG1 H1 slots1, K v r1 st1 = Some res -> vrel v mv -> Srel (l_store st1) H1 -> Grel (l_glob st1) MG1 ->
       map fst r1 = map fst r -> length slots1 = length slots -> R1 r1 ce slots1 caps ->
       sim_concl res r1 ce caps tail (S.mkVM C p1 (((below ++ slots1) ++ temps) ++ [mv]) fs MG1 H1) C pc' below slots1 fs) ->
    sim_concl res r ce caps tail (S.mkVM C pc ((below ++ slots) ++ temps) fs MG H) C pc' below slots fs.
  Proof.
    intros n IH r e st ce C pc p1 below slots temps d caps fs MG H Hc Hd Hb Hfc HR1 HR2 Hwf Hlt Hinj HS HG Hl res tail pc' K Hev Hk.
    destruct (leval n r e st) as [res1|] eqn:Hev1; [|discriminate].
    assert (Hlt' : ce_lt ce d). { eapply ce_lt_more; eauto. rewrite <- Hd, app_length. lia. }
    specialize (IH r e st res1 Hev1 ce false C pc p1 below (slots ++ temps) d caps fs MG H Hc Hd Hb Hfc
                   (Rel.R1_more_slots _ _ _ _ _ _ HR1) HR2 Hwf Hlt' Hinj HS HG Hl (tail_ok_false _ _ _ _)).
    rewrite <- app_assoc. destruct res1 as [v r' st'|k]; [|injection Hev as <-; exact IH].
    destruct IH as (K1 & mv & MG' & H' & Hr & HS' & HG' & S' & Hl' & HR' & Hf' & Hst).
    destruct (split_temps r' ce caps slots temps S' Hlt Hl' Hf' HR') as (slots' & -> & Hl2 & HR2' & Hf2).
    unfold fall_state in Hst. rewrite (app_assoc below _ [mv]), (app_assoc below slots') in Hst.
    eapply sim_concl_prefix; [exact Hst|]. eapply sim_concl_evolve; [exact K1|exact Hl2|exact Hf2|]. apply (Hk v r' st'); auto.
  Qed.

  Lemma sim_subs : forall n, sim_at n -> forall es r st ce C pc p1 below slots temps d caps fs MG H,
    code_seg C pc (L.compile_list tco ce d es) p1 -> length (slots ++ temps) = d ->
    length below = S.cur_sp fs -> frame_caps fs caps -> R1 r ce slots caps -> R2l es r ce ->
    L.wf_list ce d es = true -> ce_lt ce (length slots) -> slots_inj ce ->
    Srel (l_store st) H -> Grel (l_glob st) MG -> length fs + n <= limit ->
    forall res tail pc' (K : list lval -> lenv -> lstate -> option lresult),
    match levals (leval n) es r st with Some (inl (vs, r1, st1)) => K vs r1 st1 | Some (inr k) => Some (LErr k) | None => None end
      = Some res ->
    (forall vs r1 st1 mvs MG1 H1 slots1, K vs r1 st1 = Some res -> Forall2 vrel vs mvs -> length mvs = length es ->
       Srel (l_store st1) H1 -> Grel (l_glob st1) MG1 ->
       map fst r1 = map fst r -> length slots1 = length slots -> R1 r1 ce slots1 caps ->
       sim_concl res r1 ce caps tail (S.mkVM C p1 (((below ++ slots1) ++ temps) ++ mvs) fs MG1 H1) C pc' below slots1 fs) ->
    sim_concl res r ce caps tail (S.mkVM C pc ((below ++ slots) ++ temps) fs MG H) C pc' below slots fs.
  Proof.
    intros n IH es. induction es as [|e es IHes];
      intros r st ce C pc p1 below slots temps d caps fs MG H Hc Hd Hb Hfc HR1 HR2 Hwf Hlt Hinj HS HG Hlim res tail pc' K Hev Hk.
    - destruct Hc as [_ ->]. specialize (Hk [] r st [] MG H slots Hev (Forall2_nil _) eq_refl HS HG eq_refl eq_refl HR1).
      rewrite Nat.add_0_r, app_nil_r in Hk. exact Hk.
    - simpl in Hc, Hwf, Hev. apply code_seg_app in Hc as (p0 & Hc1 & Hc2). apply andb_true_iff in Hwf as [Hwf1 Hwf2].
      apply R2l_cons in HR2 as [HR2e HR2r].
      eapply (sim_sub n IH r e st) with (K := fun v r1 st1 =>
        match levals (leval n) es r1 st1 with Some (inl (vs, r2, st2)) => K (v :: vs) r2 st2 | Some (inr k) => Some (LErr k) | None => None end); eauto.
      { destruct (leval n r e st) as [[v r1 st1|k]|]; auto. destruct (levals (leval n) es r1 st1) as [[[[vs r2] st2]|k]|]; auto. }
      intros v r1 st1 mv MG1 H1 slots1 Hev1 Hv HS1 HG1 K1 Hl1 HR11. rewrite <- (app_assoc _ temps).
      eapply (IHes r1 st1 ce C p0 p1 below slots1 (temps ++ [mv])) with (K := fun vs => K (v :: vs)); eauto.
      { rewrite !app_length in *. simpl. lia. }
      { eapply R2l_keys; eauto. }
      { rewrite Hl1. exact Hlt. }
      intros vs r2 st2 mvs MG2 H2 slots2 Hev2 HF Hlm HS2 HG2 K2 Hl2 HR12. rewrite (app_assoc _ temps), <- (app_assoc _ [mv]).
      apply (Hk (v :: vs) r2 st2 (mv :: mvs)); simpl; auto; congruence.
  Qed.

  Lemma sim_call_closure : forall n, sim_at n -> forall ps rest body r0 clo vs mvs r ce caps st res tail C pcC below slots fs MG H,
    vrel (LVClo ps rest body r0) clo -> Forall2 vrel vs mvs ->
    match lcall_args ps rest vs with
    | Some (xs, ws) => match leval n (bind xs ws r0) body st with
                       | Some (LVal v _ st') => Some (LVal v r st')
                       | Some (LErr k) => Some (LErr k)
                       | None => None
                       end
    | None => Some (LErr EArity)
    end = Some res ->
    nth_error C pcC = Some (call_instr tail (length mvs)) -> length below = S.cur_sp fs ->
    R1 r ce slots caps -> Srel (l_store st) H -> Grel (l_glob st) MG ->
    length fs + S n <= limit -> tail_ok tail C (S pcC) (length slots) fs ->
    sim_concl res r ce caps tail (S.mkVM C pcC (((below ++ slots) ++ mvs) ++ [clo]) fs MG H) C (S pcC) below slots fs.
  Proof.
    intros n IH ps rest body r0 clo vs mvs r ce caps st res tail C pcC below slots fs MG H Hclo HF Hev HiC Hb HR HS HG Hlim Htail.
    inversion Hclo as [| | | |ps' rest' body' r' fvs caps0 Hcaps Hfree Hwfb| |]; subst.
    set (bodyc := L.compile tco (body_cenv (params ps rest) fvs) (length (params ps rest)) tco body) in *.
    destruct (lcall_args ps rest vs) as [[xs ws]|] eqn:Hcargs.
    2:{ injection Hev as <-. apply sim_err_now. eapply call_step_arity; eauto.
        eapply (Rel.adjust_err LVList S.MList); eauto. eapply Forall2_length; eauto. }
    destruct (leval n (bind xs ws r0) body st) as [res1|] eqn:Hev1; [|discriminate].
    destruct (Rel.adjust_ok vrel LVList S.MList vr_list ps rest vs xs ws mvs (below ++ slots) Hcargs HF) as (mws & Hadj & HFw & -> & Hlw & _).
    assert (Hpm : length mws = length (params ps rest)) by (rewrite Hlw; symmetry; eapply Forall2_length; eauto).
    destruct (ce_body (params ps rest) fvs) as [Hblt Hbinj].
    destruct (call_step_closure limit tail C pcC below slots mvs mws _ _ _ (bodyc ++ [POPPURE]) caps0 fs MG H HiC Hadj (eq_sym Hpm) Hb Htail)
      as (below' & f & fs' & Hstep & Hb' & Hfn & Hfs & Hout).
    { destruct n; [discriminate|lia]. }
    eapply sim_concl_prefix; [apply S.star_one, Hstep|].
    assert (Hrf : returns_from (bodyc ++ [POPPURE]) (length bodyc) (length (params ps rest))) by apply rf_pop, nth_error_mid.
    assert (Htk : tail_ok tco (bodyc ++ [POPPURE]) (length bodyc) (length (params ps rest)) (f :: fs'))
      by (intros _; split; [discriminate|exact Hrf]).
    pose proof (IH _ body st res1 Hev1 (body_cenv (params ps rest) fvs) tco (bodyc ++ [POPPURE]) 0 _ below' mws _ caps0 (f :: fs') MG H
                   (code_seg_zero _ _) Hpm Hb' (ex_intro _ _ (ex_intro _ _ (ex_intro _ _ Hfn)))
                   (Rel.entry_R1 vrel _ _ _ _ _ _ Hcaps HFw Hlw) (Rel.entry_R2 (fun x => L.lfv x body) _ _ _ _ Hfree)
                   Hwfb Hblt Hbinj HS HG ltac:(simpl; lia) Htk) as H3.
    destruct res1 as [v r3 st'|k]; injection Hev as <-; [|exact H3].
    destruct H3 as (_ & mv & MG' & H' & Hrel & HS' & HG' & Ho). split; auto. exists mv, MG', H'. repeat split; auto.
    apply post_of_outcome with slots; auto using frame_ok_refl.
    apply Hout. eapply post_to_ret; eauto. rewrite Hpm. exact Hrf.
  Qed.

  Lemma sim_all : forall n, sim_at n.
  Proof.
    induction n as [|n IH]; intros r e st res Hev; [discriminate|].
    intros ce tail C pc pc' below slots d caps fs MG H Hc Hd Hb Hfc HR1 HR2 Hwf Hlt Hinj HS HG Hlim Htail.
    assert (Hlim' : length fs + n <= limit) by lia.
    assert (Hd0 : length (slots ++ []) = d) by (rewrite app_nil_r; exact Hd).
    assert (Hlts : ce_lt ce (length slots)) by (rewrite Hd; exact Hlt).
    destruct e as [c|x|ps rest e|fe args|e1 e2 e3|bs e|e1 e2|g e|x e]; simpl in Hev.
    - (* LConst *)
      injection Hev as <-. apply code_seg_one in Hc as [Hi ->]. subst d.
      eapply sim_push; eauto using vrel_const, step_PUSHCONST.
    - (* LVar *)
      apply code_seg_one in Hc as [Hi ->]. subst d.
      destruct (Core.lookup x ce) as [lc|] eqn:Hce.
      + destruct (read_loc limit vrel _ _ _ _ _ _ x lc C pc MG H HR1 Hfc Hb Hce Hi) as (v & mv & Hv & Hrel & Hstep).
        rewrite Hv in Hev. injection Hev as <-. eapply sim_push; eauto.
      + rewrite (HR2 x) in Hev by (simpl; auto using String.eqb_refl).
        destruct (Core.lookup x (l_glob st)) as [v|] eqn:HxG; injection Hev as <-.
        * destruct (Rel.Grel_some _ _ _ _ _ HG HxG) as (mv & HxM & Hrel).
          eapply sim_push; eauto using step_PUSH.
        * apply sim_err_now. eapply step_PUSH_free; eauto. eapply Rel.Grel_none; eauto.
    - (* LLam *)
      injection Hev as <-. apply code_seg_one in Hc as [Hi ->]. subst d.
      destruct (fetch_caps_ok vrel r ce below slots caps fs HR1 Hfc Hb (L.lcaptured ce (params ps rest) e))
        as (caps' & Hfetch & Hall).
      { intros y Hy. apply filter_In in Hy. apply in_rev, Hy. }
      eapply sim_push; [eapply step_MKCLOSURE; eauto| |auto|auto|auto|auto|auto].
      constructor; auto.
      exact (Rel.uncaptured_unbound (fun x => L.lfv x e) _ _ _ HR2).
    - (* LApp *)
      rewrite compile_app_eq in Hc. fold (call_instr tail (length args)) in Hc.
      rewrite wf_app_eq in Hwf. apply andb_true_iff in Hwf as [Hwa Hwfe].
      apply code_seg_app in Hc as (p1 & Hca & Hc). apply code_seg_app in Hc as (p2 & Hcf & Hc).
      apply code_seg_one in Hc as [HiC ->]. apply R2_app in HR2 as [HRl HRf].
      rewrite <- (app_nil_r (below ++ slots)).
      eapply (sim_subs n IH args r st ce C pc p1 below slots []); eauto; [exact Hev|]. clear Hev.
      intros vs r1 st1 mvs MG1 H1' slots1 Hev HF Hlen HS1 HG1 K1 Hl1 HR11. rewrite app_nil_r.
      eapply (sim_sub n IH r1 fe st1 ce C p1 p2 below slots1 mvs); eauto using R2_keys.
      { rewrite app_length. lia. }
      { rewrite Hl1. exact Hlts. }
      { exact Hev. }
      clear Hev. intros fv0 r2 st2 mf MG2 H2' slots2 Hev Hrelf HS2 HG2 K2 Hl2 HR12. cbv beta in Hev.
      rewrite <- Hlen in HiC.
      assert (Htail2 : tail_ok tail C (S p2) (length slots2) fs) by (rewrite Hl2, Hl1, Hd; exact Htail).
      destruct Hrelf as [z|b| |p|ps rest body r0 fvs caps0 Hcaps Hfree Hwfb|l ml Hl|a];
        try (injection Hev as <-; apply sim_err_now; eapply call_step_notproc; eauto; exact I).
      + (* primitive (the box primitives included) *)
        pose proof (call_step_prim limit tail C _ (below ++ slots2) mvs p fs MG2 H2' HiC) as Hp.
        destruct st2 as [sg2 gg2]. simpl in HS2, HG2.
        pose proof (mprim_rel p vs mvs sg2 gg2 H2' HF HS2) as Hpr.
        destruct (lprim_apply p vs (mkL sg2 gg2)) as [v st3|k]; injection Hev as <-.
        * destruct Hpr as (mv & H3 & Hma & Hrv & HS3 & Hg3). rewrite Hma in Hp.
          eapply sim_push; eauto. rewrite Hg3. exact HG2.
        * rewrite Hpr in Hp. apply sim_err_now. exact Hp.
      + (* closure *)
        eapply sim_call_closure; eauto using vr_clo.
    - (* LIf *)
      cbn [L.compile] in Hc. apply code_seg_if in Hc as (p1 & p2 & Hcc & HiI & Hct & HiJ & Hcf & Ei & Ej).
      apply R2_if in HR2 as (HRc & HRt & HRf).
      simpl in Hwf. apply andb_true_iff in Hwf as [Hwf Hw3]. apply andb_true_iff in Hwf as [Hw1 Hw2].
      rewrite <- (app_nil_r (below ++ slots)).
      eapply (sim_sub n IH r e1 st ce C pc p1 below slots []); eauto; [exact Hev|]. clear Hev.
      intros vc r1 st1 mvc MG1 H1' slots1 Hev Hrelc HS1 HG1 K1 Hl1 HR11. cbv beta in Hev. rewrite app_nil_r.
      rewrite (vrel_truthy _ _ Hrelc) in Hev.
      eapply sim_concl_prefix; [apply S.star_one, step_IF, HiI|]. rewrite Hd in Hl1.
      rewrite Ei. destruct (S.mtruthy mvc).
      + (* then branch: its value is pushed before the JMP over the else branch *)
        assert (Htk : tail_ok tail C p2 d fs).
        { intros Ht. destruct (Htail Ht) as [Hne Hrf]. split; auto. eapply rf_jmp; [exact HiJ|]. rewrite Ej. exact Hrf. }
        eapply sim_concl_step; [eapply IH; eauto using R2_keys|].
        intros sl mv MG' H'. unfold fall_state. rewrite (step_JMP _ _ _ _ _ _ _ _ HiJ), Ej. reflexivity.
      + eapply IH; eauto using R2_keys.
    - (* LLet *)
      rewrite compile_let_eq in Hc. rewrite wf_let_eq in Hwf.
      apply andb_true_iff in Hwf as [Hwf Hwb]. apply andb_true_iff in Hwf as [Hwl Hdis].
      set (xs := map fst bs) in *. set (ce' := bind_slots xs d ce) in *.
      apply code_seg_cons in Hc as [HiB Hc]. apply code_seg_app in Hc as (p1 & Hcl & Hc).
      apply code_seg_app in Hc as (p2 & Hcb & Hc). apply code_seg_one in Hc as [HiL ->].
      apply R2_let in HR2 as [HRl HR2']. fold xs in HR2'.
      eapply sim_concl_prefix; [apply S.star_one, step_BEGINSCOPE, HiB|].
      rewrite <- (app_nil_r (below ++ slots)).
      eapply (sim_subs n IH (map snd bs) r st ce C (S pc) p1 below slots []); eauto; [exact Hev|]. clear Hev.
      intros vs r1 st1 mvs MG1 H1' slots1 Hev HF Hlenm HS1 HG1 K1 Hl1 HR11. cbv beta in Hev.
      rewrite app_nil_r, <- app_assoc. rewrite map_length in Hlenm.
      assert (Hxs : length xs = length bs) by apply map_length.
      assert (Hlv : length vs = length bs) by (rewrite <- Hlenm; eapply Forall2_length; eauto).
      rewrite Hd in Hl1. destruct (ce_bind xs d ce Hlt Hinj) as [Hlt' Hinj']. fold ce' in Hlt', Hinj'. rewrite Hxs in Hlt'.
      assert (Htk : tail_ok tail C p2 (d + length bs) fs).
      { intros Ht. destruct (Htail Ht) as [Hne Hrf]. split; auto. eapply rf_let; [exact HiL|lia|exact Hrf]. }
      assert (Hls : length (slots1 ++ mvs) = d + length bs) by (rewrite app_length; lia).
      assert (HR1' : R1 (bind xs vs r1) ce' (slots1 ++ mvs) caps).
      { unfold ce'. rewrite <- Hl1. apply Rel.R1_bind; auto. congruence. }
      assert (HR2b : R2 e (bind xs vs r1) ce').
      { eapply R2_keys; [apply (HR2' vs)|]. rewrite !bind_keys by congruence. congruence. }
      pose proof (IH (bind xs vs r1) e st1) as H2.
      destruct (leval n (bind xs vs r1) e st1) as [[v2 r2 st2|k]|] eqn:Heb; try discriminate; injection Hev as <-;
        specialize (H2 _ eq_refl ce' tail C p1 p2 below (slots1 ++ mvs) (d + length bs) caps fs MG1 H1'
                       Hcb Hls Hb Hfc HR1' HR2b Hwb Hlt' Hinj' HS1 HG1 Hlim' Htk); [|exact H2].
      rewrite <- Hxs. eapply sim_concl_let_exit; eauto. congruence.
    - (* LSeq *)
      cbn [L.compile] in Hc.
      apply code_seg_app in Hc as (p1 & Hc1 & Hc). apply code_seg_cons in Hc as [Hi Hc2].
      apply R2_seq in HR2 as [HRa HRb].
      simpl in Hwf. apply andb_true_iff in Hwf as [Hw1 Hw2].
      rewrite <- (app_nil_r (below ++ slots)).
      eapply (sim_sub n IH r e1 st ce C pc p1 below slots []); eauto; [exact Hev|]. clear Hev.
      intros v1 r1 st1 mv1 MG1 H1' slots1 Hev _ HS1 HG1 K1 Hl1 HR11. cbv beta in Hev. rewrite app_nil_r.
      eapply sim_concl_prefix; [apply S.star_one, step_POPSINGLE, Hi|]. rewrite Hd in Hl1.
      eapply IH; eauto using R2_keys.
    - (* LSetG *)
      cbn [L.compile] in Hc.
      apply code_seg_app in Hc as (p1 & Hc1 & Hc). apply code_seg_one in Hc as [Hi ->]. apply R2_setg in HR2. simpl in Hwf.
      rewrite <- (app_nil_r (below ++ slots)).
      eapply (sim_sub n IH r e st ce C pc p1 below slots []); eauto; [exact Hev|]. clear Hev.
      intros v1 r1 st1 mv1 MG1 H1' slots1 Hev Hrel1 HS1 HG1 K1 Hl1 HR11. cbv beta in Hev. rewrite app_nil_r. subst d.
      destruct (Core.lookup g (l_glob st1)) as [old|] eqn:Hold; injection Hev as <-.
      + destruct (Rel.Grel_some _ _ _ _ _ HG1 Hold) as (mold & Hmold & Hrelo).
        eapply sim_push; eauto using step_SET; [apply Rel.Grel_cons; auto|rewrite Hl1; exact Htail].
      + apply sim_err_now. eapply step_SET_free; eauto. eapply Rel.Grel_none; eauto.
    - (* LSetL *)
      simpl in Hwf. apply andb_true_iff in Hwf as [Hwx Hwf].
      destruct (Core.lookup x ce) as [[i|j]|] eqn:Hxce; try discriminate.
      cbn [L.compile] in Hc. rewrite Hxce in Hc.
      apply code_seg_app in Hc as (p1 & Hc1 & Hc). apply code_seg_one in Hc as [Hi ->]. apply R2_setl in HR2.
      rewrite <- (app_nil_r (below ++ slots)).
      eapply (sim_sub n IH r e st ce C pc p1 below slots []); eauto; [exact Hev|]. clear Hev.
      intros v1 r1 st1 mv1 MG1 H1' slots1 Hev Hrel1 HS1 HG1 K1 Hl1 HR11. cbv beta in Hev. rewrite app_nil_r. subst d.
      destruct (HR11 x (Slot i) Hxce) as (oldv & moldv & Hxo & Hfo & Hrelo). simpl in Hfo.
      rewrite Hxo in Hev. injection Hev as <-.
      assert (Hil : i < length slots1). { rewrite Hl1. eapply Hlt; eauto. }
      split; [rewrite env_set_keys; auto|]. exists moldv, MG1, H1'. split; auto. split; auto. split; auto.
      apply post_of_push with (S.set_nth i mv1 slots1); auto.
      + rewrite set_nth_length. auto.
      + (* the environment and the slots after the assignment *)
        intros y l Hy. destruct (String.eqb y x) eqn:Eyx.
        * apply String.eqb_eq in Eyx. subst y. rewrite Hxce in Hy. inversion Hy; subst l.
          exists v1, mv1. split; [eapply lookup_env_set_same; eauto|]. split; auto.
          simpl. apply set_nth_same. auto.
        * destruct (HR11 y l Hy) as (v & mv & A & B & Cc). exists v, mv.
          split; [rewrite lookup_env_set_other; auto|]. split; auto.
          destruct l as [i'|j']; simpl in *; auto.
          rewrite set_nth_other; auto. intros Heq. subst i'.
          assert (x = y) by (eapply Hinj; eauto). subst. rewrite String.eqb_refl in Eyx. discriminate.
      + intros i' Hi'. apply set_nth_other.
        intros Heq. subst i'. apply Hi'. exists x. auto.
      + apply S.star_one. apply step_SETLOCAL; auto.
      + rewrite Hl1. exact Htail.
  Qed.
End SimS.

Lemma ce_lt_nil : ce_lt [] 0.
Proof. intros x i H. discriminate. Qed.
Lemma slots_inj_nil : slots_inj [].
Proof. intros x y i H. discriminate. Qed.

Lemma s_Grel_prims : forall tco, Grel tco lprim_globals S.prim_globals.
Proof.
  intros tco g. unfold lprim_globals, S.prim_globals. induction bprim_table as [|[x p] t]; simpl; auto.
  destruct (String.eqb g x); auto. constructor.
Qed.

Lemma s_R2_empty : forall e ce, R2 e [] ce.
Proof. intros e ce x _ _. auto. Qed.

Lemma s_sim_unit : forall limit tco st MG H, Srel tco (l_store st) H -> Grel tco (l_glob st) MG ->
  forall n e res post rr, leval n [] e st = Some res -> n <= limit -> L.wf [] 0 e = true ->
  let c := L.compile tco [] 0 false e in
  (forall mv MG' H', runs_to limit (S.mkVM (c ++ post) (length c) [mv] [] MG' H') (rr mv MG' H')) ->
  match res with
  | LVal v _ st' => exists mv MG' H', vrel tco v mv /\ Srel tco (l_store st') H' /\ Grel tco (l_glob st') MG' /\
      runs_to limit (S.init_vm (c ++ post) MG H) (rr mv MG' H')
  | LErr ek => runs_to limit (S.init_vm (c ++ post) MG H) (S.RErr ek)
  end.
Proof.
  intros limit tco st MG H HS HG n e res post rr Hev Hn Hwf c Hpost.
  pose proof (sim_all limit tco n [] e st res Hev [] false (c ++ post) 0 _ [] [] 0 [] [] MG H (code_seg_zero _ _)
                eq_refl eq_refl eq_refl (Rel.R1_empty _ _) (s_R2_empty _ _) Hwf ce_lt_nil slots_inj_nil HS HG Hn
                (tail_ok_false _ _ _ _)) as Hs.
  destruct res as [v r' st'|ek]; [|apply fails_run, Hs].
  destruct Hs as (_ & mv & MG' & H' & Hrel & HS' & HG' & sl & Hsl & _ & _ & Hst). destruct sl; [|discriminate].
  exists mv, MG', H'. repeat split; auto. eapply runs_to_star; [exact Hst|apply Hpost].
Qed.

Lemma s_sim_defs : forall limit tco n ds st MG H, Srel tco (l_store st) H -> Grel tco (l_glob st) MG -> n <= limit ->
  forallb (fun d => L.wf [] 0 (snd d)) ds = true ->
  forall x, lrun_defs n st ds = Some x ->
  match x with
  | inl st' => exists k MG' H', Srel tco (l_store st') H' /\ Grel tco (l_glob st') MG' /\
                 forall k', k <= k' -> L.vm_defs limit tco false k' MG H ds = inr (MG', H')
  | inr ek => exists k, forall k', k <= k' -> L.vm_defs limit tco false k' MG H ds = inl (S.RErr ek)
  end.
Proof.
  intros limit tco n ds. induction ds as [|[y e] ds IH]; intros st MG H HS HG Hn Hwfs x Hx; simpl in Hx.
  - inversion Hx; subst. exists 0, MG, H. repeat split; auto.
  - simpl in Hwfs. apply andb_true_iff in Hwfs. destruct Hwfs as [Hw1 Hw2].
    pose proof (fun res He => s_sim_unit limit tco st MG H HS HG n e res _ _ He Hn Hw1 (runs_to_define limit _ y)) as Hu.
    destruct (leval n [] e st) as [[v r1 st1|ek]|]; try discriminate.
    + destruct (Hu _ eq_refl) as (mv & MG1 & H1 & Hrel & HS1 & HG1 & k1 & Hrun).
      specialize (IH (mkL (l_store st1) ((y, v) :: l_glob st1)) ((y, mv) :: MG1) H1 HS1
                     (Rel.Grel_cons _ _ _ _ _ _ HG1 Hrel) Hn Hw2 x Hx).
      destruct x as [st'|ek].
      * destruct IH as (k2 & MG' & H' & HS' & HG' & Hk2). exists (Nat.max k1 k2), MG', H'. repeat split; auto.
        intros k' Hk'. simpl. unfold L.finish. rewrite Hrun by lia. apply Hk2. lia.
      * destruct IH as (k2 & Hk2). exists (Nat.max k1 k2).
        intros k' Hk'. simpl. unfold L.finish. rewrite Hrun by lia. apply Hk2. lia.
    + inversion Hx; subst x. destruct (Hu _ eq_refl) as (k1 & Hrun).
      exists k1. intros k' Hk'. simpl. unfold L.finish. rewrite Hrun; auto.
Qed.

Lemma s_vrel_canon : forall tco v mv, vrel tco v mv -> canon_lval v = S.canon_mval mv.
Proof.
  intros tco. fix IH 3. intros v mv H. destruct H; simpl; auto.
  f_equal. f_equal. f_equal. induction H; simpl; auto. f_equal; auto.
Qed.

