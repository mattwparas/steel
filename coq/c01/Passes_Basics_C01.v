(* C01 (passes) — basic facts about the reference evaluator of Passes_Model_C01.v: unfolding equations, fuel
   monotonicity; evaluation depends on the environment only through the free variables of the expression (closures are
   canonical, so the results are EQUAL, not just related); a rest lambda binds like a fixed one once its operands are
   packed ([bind_params_pack]), so an applied lambda is a let over the packed operands and its captured environment
   never shows ([eval_beta]). *)
From Coq Require Import ZArith List Bool String Lia.
From SV Require Import c01.Passes_Model_C01.
From SV Require Export lib.ListFacts.
Import ListNotations.
Open Scope string_scope.

Ltac andb_split := repeat match goal with H : (_ && _)%bool = true |- _ => apply andb_prop in H; destruct H end.

Lemma eval_O s ρ e : eval 0 s ρ e = None. Proof. reflexivity. Qed.
Lemma eval_Num n s ρ z : eval (S n) s ρ (Num z) = Some (Val (VNum z), s). Proof. reflexivity. Qed.
Lemma eval_Bool n s ρ b : eval (S n) s ρ (Bool_ b) = Some (Val (VBool b), s). Proof. reflexivity. Qed.
Lemma eval_Quote n s ρ d : eval (S n) s ρ (Quote d) = Some (Val (val_of_datum d), s). Proof. reflexivity. Qed.
Lemma eval_Loc n s ρ x : eval (S n) s ρ (Loc x) =
  match lookup x ρ with Some v => Some (Val v, s) | None => Some (Err, s) end. Proof. reflexivity. Qed.
Lemma eval_Glob n s ρ g : eval (S n) s ρ (Glob g) =
  match lookup g (fst s) with Some v => Some (Val v, s) | None => Some (Err, s) end. Proof. reflexivity. Qed.
Lemma eval_Lam n s ρ ps r b : eval (S n) s ρ (Lam ps r b) =
  Some (Val (VClo ps r b (capture ρ (fv (Lam ps r b)))), s). Proof. reflexivity. Qed.
Lemma eval_Call n s ρ f args : eval (S n) s ρ (Call f args) =
  match evals (Nat.pred n) s ρ args with
  | None => None
  | Some (inl x, s1) => Some (x, s1)
  | Some (inr vs, s1) =>
    match eval n s1 ρ f with
    | None => None
    | Some (Val (VClo ps rest b ρc), s2) =>
        match bind_params ps rest vs ρc with
        | Some ρ' => eval n s2 ρ' b
        | None => Some (Err, s2)
        end
    | Some (Val _, s2) => Some (Err, s2)
    | Some (Err, s2) => Some (Err, s2)
    end
  end. Proof. reflexivity. Qed.
Lemma eval_If n s ρ c t e : eval (S n) s ρ (If c t e) =
  match eval n s ρ c with
  | None => None
  | Some (Val v, s1) => eval n s1 ρ (if truthy v then t else e)
  | Some (Err, s1) => Some (Err, s1)
  end. Proof. reflexivity. Qed.
Lemma eval_Let n s ρ xs rhs b : eval (S n) s ρ (Let xs rhs b) =
  match evals n s ρ rhs with
  | None => None
  | Some (inl x, s1) => Some (x, s1)
  | Some (inr vs, s1) =>
      match bind_fixed xs vs ρ with
      | Some ρ' => eval n s1 ρ' b
      | None => Some (Err, s1)
      end
  end. Proof. reflexivity. Qed.
Lemma eval_Begin n s ρ es : eval (S n) s ρ (Begin es) =
  match evals n s ρ es with
  | None => None
  | Some (inl x, s1) => Some (x, s1)
  | Some (inr vs, s1) => Some (Val (last_val vs), s1)
  end. Proof. reflexivity. Qed.
Lemma eval_Prim n s ρ op args : eval (S n) s ρ (Prim op args) =
  match evals n s ρ args with
  | None => None
  | Some (inl x, s1) => Some (x, s1)
  | Some (inr vs, s1) => Some (apply_prim op vs s1)
  end. Proof. reflexivity. Qed.
Lemma eval_SetG n s ρ g e : eval (S n) s ρ (SetG g e) =
  match eval n s ρ e with
  | None => None
  | Some (Val v, s1) =>
      match lookup g (fst s1) with
      | Some _ => Some (Val VVoid, (update g v (fst s1), snd s1))
      | None => Some (Err, s1)
      end
  | Some (Err, s1) => Some (Err, s1)
  end. Proof. reflexivity. Qed.
Lemma evals_Nil n s ρ : evals n s ρ ENil = Some (inr [], s). Proof. reflexivity. Qed.
Lemma evals_Cons n s ρ a r : evals n s ρ (ECons a r) =
  match eval n s ρ a with
  | None => None
  | Some (Val v, s1) =>
      match evals n s1 ρ r with
      | None => None
      | Some (inr vs, s2) => Some (inr (v :: vs), s2)
      | Some (inl x, s2) => Some (inl x, s2)
      end
  | Some (Err, s1) => Some (inl Err, s1)
  end.
Proof. unfold evals. cbn [evals_with]. destruct (eval n s ρ a) as [[[v|] s1]|]; reflexivity. Qed.

#[global] Opaque eval evals.

Lemma mem_In x l : mem x l = true <-> In x l.
Proof. exact (existsb_eqb_In _ String.eqb_eq x l). Qed.

Lemma mem_false x l : mem x l = false <-> ~ In x l.
Proof. exact (existsb_eqb_notIn _ String.eqb_eq x l). Qed.

Lemma lookup_capture ρ xs x : lookup x (capture ρ xs) = if mem x xs then lookup x ρ else None.
Proof.
  induction xs as [|y xs IH]; [reflexivity|].
  cbn [capture]. unfold mem in *. cbn [existsb].
  destruct (String.eqb x y) eqn:E.
  - apply String.eqb_eq in E. subst y. cbn [orb].
    destruct (lookup x ρ) eqn:L.
    + cbn [lookup]. rewrite String.eqb_refl. reflexivity.
    + rewrite IH. destruct (existsb (String.eqb x) xs); reflexivity.
  - cbn [orb]. destruct (lookup y ρ).
    + cbn [lookup]. rewrite E. exact IH.
    + exact IH.
Qed.

Lemma capture_ext ρ1 ρ2 xs :
  (forall x, In x xs -> lookup x ρ1 = lookup x ρ2) -> capture ρ1 xs = capture ρ2 xs.
Proof.
  induction xs as [|y xs IH]; intros H; [reflexivity|].
  cbn [capture]. rewrite <- (H y) by (left; reflexivity).
  rewrite IH by (intros; apply H; right; assumption). reflexivity.
Qed.

Definition agree (xs : list string) (ρ1 ρ2 : venv) : Prop :=
  forall x, In x xs -> lookup x ρ1 = lookup x ρ2.

Lemma agree_app_l a b ρ1 ρ2 : agree (a ++ b) ρ1 ρ2 -> agree a ρ1 ρ2.
Proof. intros H x Hx. apply H. apply in_or_app. left; exact Hx. Qed.
Lemma agree_app_r a b ρ1 ρ2 : agree (a ++ b) ρ1 ρ2 -> agree b ρ1 ρ2.
Proof. intros H x Hx. apply H. apply in_or_app. right; exact Hx. Qed.

Lemma in_filter_notin (ps : list string) l x : In x l -> ~ In x ps -> In x (filter (fun y => negb (mem y ps)) l).
Proof. intros Hx Hn. apply filter_In. split; [exact Hx|]. apply mem_false in Hn. rewrite Hn. reflexivity. Qed.

Lemma in_filter_inv (ps : list string) l x : In x (filter (fun y => negb (mem y ps)) l) -> In x l /\ ~ In x ps.
Proof.
  intros H. apply filter_In in H. destruct H as [H1 H2]. split; [exact H1|].
  apply mem_false. destruct (mem x ps); [discriminate|reflexivity].
Qed.

Lemma select_incl {A} keep : forall l : list A, incl (select keep l) l.
Proof.
  induction keep as [|[|] keep IH]; intros [|a l]; cbn [select]; try apply incl_nil_l.
  - apply incl_cons; [left; reflexivity|apply incl_tl, IH].
  - apply incl_tl, IH.
Qed.


Lemma forallb_incl {A} (f : A -> bool) l l' : incl l l' -> forallb f l' = true -> forallb f l = true.
Proof. rewrite !forallb_forall. intros H H' x Hx. apply H', H, Hx. Qed.

Lemma lookup_capture_lam ρ ps r b x :
  In x (fv b) -> ~ In x ps -> lookup x (capture ρ (fv (Lam ps r b))) = lookup x ρ.
Proof.
  intros Hx Hn. rewrite lookup_capture.
  replace (mem x (fv (Lam ps r b))) with true; [reflexivity|].
  symmetry. apply mem_In. cbn [fv]. apply in_filter_notin; assumption.
Qed.

Lemma lookup_update x g w : forall H,
  lookup x (update g w H) = match lookup x H with Some a => Some (if String.eqb x g then w else a) | None => None end.
Proof.
  induction H as [|y a H IH]; cbn [update lookup]; [reflexivity|].
  destruct (String.eqb g y) eqn:E1; cbn [lookup].
  - apply String.eqb_eq in E1. subst y. destruct (String.eqb x g); [reflexivity|].
    destruct (lookup x H); reflexivity.
  - destruct (String.eqb x y) eqn:E2; [|exact IH].
    apply String.eqb_eq in E2. subst y. rewrite String.eqb_sym, E1. reflexivity.
Qed.

Lemma lookup_bind_fixed_notin : forall xs vs ρ ρ' x,
  bind_fixed xs vs ρ = Some ρ' -> ~ In x xs -> lookup x ρ' = lookup x ρ.
Proof.
  induction xs as [|y xs IH]; intros [|v vs] ρ ρ' x B Hn; cbn [bind_fixed] in B; try discriminate.
  - inversion B; reflexivity.
  - rewrite (IH _ _ _ _ B) by (intros H; apply Hn; right; exact H).
    cbn [lookup]. destruct (String.eqb x y) eqn:E; [|reflexivity].
    apply String.eqb_eq in E. subst. exfalso. apply Hn. left; reflexivity.
Qed.

Lemma bind_fixed_length : forall xs vs ρ ρ', bind_fixed xs vs ρ = Some ρ' -> List.length xs = List.length vs.
Proof.
  induction xs as [|y xs IH]; intros [|v vs] ρ ρ' B; cbn [bind_fixed] in B; try discriminate; [reflexivity|].
  cbn [List.length]. f_equal. eapply IH; eassumption.
Qed.

Lemma bind_fixed_total : forall xs vs ρ, List.length xs = List.length vs -> exists ρ', bind_fixed xs vs ρ = Some ρ'.
Proof.
  induction xs as [|y xs IH]; intros [|v vs] ρ L; cbn [List.length] in L; try discriminate; cbn [bind_fixed].
  - eexists; reflexivity.
  - apply IH. lia.
Qed.

Lemma bind_fixed_none xs vs vs' ρ ρ' :
  List.length vs = List.length vs' -> bind_fixed xs vs ρ = None -> bind_fixed xs vs' ρ' = None.
Proof.
  intros L B. destruct (bind_fixed xs vs' ρ') eqn:B'; [|reflexivity].
  apply bind_fixed_length in B'. destruct (bind_fixed_total xs vs ρ) as (? & ?); congruence.
Qed.

Lemma bind_fixed_app : forall a b v w ρ,
  List.length a = List.length v ->
  bind_fixed (a ++ b) (v ++ w) ρ =
  match bind_fixed a v ρ with Some ρ1 => bind_fixed b w ρ1 | None => None end.
Proof.
  induction a as [|x a IH]; intros b [|y v] w ρ L; cbn [List.length] in L; try discriminate; cbn [app bind_fixed].
  - reflexivity.
  - apply IH. lia.
Qed.

(* if one side fails, so does the other: [bind_fixed_none] *)
Lemma bind_fixed_agree : forall xs vs ρ1 ρ2 ρ1' (keep : list string),
  bind_fixed xs vs ρ1 = Some ρ1' ->
  (forall x, In x keep -> ~ In x xs -> lookup x ρ1 = lookup x ρ2) ->
  exists ρ2', bind_fixed xs vs ρ2 = Some ρ2' /\ agree keep ρ1' ρ2'.
Proof.
  induction xs as [|y xs IH]; intros [|v vs] ρ1 ρ2 ρ1' keep B H; cbn [bind_fixed] in *; try discriminate.
  - inversion B; subst. exists ρ2. split; [reflexivity|]. intros x Hx. apply H; [exact Hx|intros []].
  - eapply IH; [exact B|]. intros x Hx Hn. cbn [lookup]. destruct (String.eqb x y) eqn:E; [reflexivity|].
    apply H; [exact Hx|]. intros [->|Hi]; [rewrite String.eqb_refl in E; discriminate|exact (Hn Hi)].
Qed.

(* rest parameters: the operands are packed, then bound
   like fixed parameters ([plain_let] writes exactly this packing into the program: the #%const-list operand) *)
Definition pack (ps : list string) (rest : bool) (vs : list val) : option (list val) :=
  if rest then
    let k := Nat.pred (List.length ps) in
    if Nat.ltb (List.length vs) k then None else Some (firstn k vs ++ [list_val (skipn k vs)])%list
  else Some vs.

Lemma rev_split_last (ps : list string) r l :
  rev ps = r :: l -> ps = (firstn (Nat.pred (List.length ps)) ps ++ [r])%list.
Proof.
  intros Er. assert (E : ps = (rev l ++ [r])%list) by (rewrite <- (rev_involutive ps), Er; reflexivity).
  rewrite E at 2 3. rewrite app_length. cbn [List.length].
  replace (Nat.pred (List.length (rev l) + 1)) with (List.length (rev l) + 0) by lia.
  rewrite firstn_app_2. cbn [firstn]. rewrite app_nil_r. exact E.
Qed.

Lemma bind_params_pack ps rest vs ρ :
  bind_params ps rest vs ρ = match pack ps rest vs with Some ws => bind_fixed ps ws ρ | None => None end.
Proof.
  unfold bind_params, pack. destruct rest; [|reflexivity].
  destruct (rev ps) as [|r l] eqn:Er.
  - assert (ps = []) by (rewrite <- (rev_involutive ps), Er; reflexivity). subst. reflexivity.
  - destruct (Nat.ltb (List.length vs) (Nat.pred (List.length ps))) eqn:Hlt; [reflexivity|].
    apply Nat.ltb_ge in Hlt. set (k := Nat.pred (List.length ps)) in *.
    rewrite (rev_split_last _ _ _ Er) at 2. fold k.
    rewrite bind_fixed_app by (rewrite !firstn_length; lia).
    destruct (bind_fixed _ _ ρ); reflexivity.
Qed.

Lemma bind_params_none ps rest vs vs' ρ ρ' :
  List.length vs = List.length vs' -> bind_params ps rest vs ρ = None -> bind_params ps rest vs' ρ' = None.
Proof.
  intros L. rewrite !bind_params_pack. unfold pack. destruct rest; [|apply bind_fixed_none; exact L].
  rewrite <- L. destruct (Nat.ltb _ _); [reflexivity|].
  apply bind_fixed_none. rewrite !app_length, !firstn_length, L. reflexivity.
Qed.

Lemma lookup_bind_params_notin ps r vs ρ ρ' x :
  bind_params ps r vs ρ = Some ρ' -> ~ In x ps -> lookup x ρ' = lookup x ρ.
Proof. rewrite bind_params_pack. destruct (pack ps r vs); [apply lookup_bind_fixed_notin|discriminate]. Qed.

Lemma bind_params_agree ps rest vs ρ1 ρ2 ρ1' keep :
  bind_params ps rest vs ρ1 = Some ρ1' ->
  (forall x, In x keep -> ~ In x ps -> lookup x ρ1 = lookup x ρ2) ->
  exists ρ2', bind_params ps rest vs ρ2 = Some ρ2' /\ agree keep ρ1' ρ2'.
Proof.
  intros B H. rewrite bind_params_pack in *. destruct (pack ps rest vs); [|discriminate]. eapply bind_fixed_agree; eassumption.
Qed.

(* one induction for fuel monotonicity and for independence from the variables not free in e, stated over [le_opt]
   (left defined => right has the same value), under which the evaluator's match is monotone ([le_bind]): one [le_bind]
   per sub-evaluation. *)
Definition le_opt {T} (o o' : option T) : Prop := forall r, o = Some r -> o' = Some r.
Lemma le_refl {T} (o : option T) : le_opt o o.
Proof. intros r E; exact E. Qed.
(* the evaluator's own bind; k and k' are found by unification against its match *)
Lemma le_bind {A T} (o o' : option A) (k k' : A -> option T) :
  le_opt o o' -> (forall a, le_opt (k a) (k' a)) ->
  le_opt (match o with Some a => k a | None => None end) (match o' with Some a => k' a | None => None end).
Proof. intros H Hk r. destruct o as [a|]; [|discriminate]. rewrite (H a eq_refl). apply Hk. Qed.

Lemma evals_le_from n m ρ1 ρ2 :
  (forall s e, agree (fv e) ρ1 ρ2 -> le_opt (eval n s ρ1 e) (eval m s ρ2 e)) ->
  forall l s, agree (fvs l) ρ1 ρ2 -> le_opt (evals n s ρ1 l) (evals m s ρ2 l).
Proof.
  intros H l. induction l as [|a l IH]; intros s A; [rewrite !evals_Nil; apply le_refl|].
  rewrite !evals_Cons. cbn [fvs] in A. apply le_bind; [apply H; eapply agree_app_l; exact A|].
  intros [[v|] s1]; [|apply le_refl]. apply le_bind; [apply IH; eapply agree_app_r; exact A|]. intros ?; apply le_refl.
Qed.

Lemma eval_mono_ext : forall n m s ρ1 ρ2 e, n <= m -> agree (fv e) ρ1 ρ2 -> le_opt (eval n s ρ1 e) (eval m s ρ2 e).
Proof.
  induction n as [n IH] using lt_wf_ind. intros m s ρ1 ρ2 e Hle A.
  destruct n as [|n]; [intros r E; rewrite eval_O in E; discriminate|].
  destruct m as [|m]; [lia|].
  assert (Hm : forall s ρ1 ρ2 e, agree (fv e) ρ1 ρ2 -> le_opt (eval n s ρ1 e) (eval m s ρ2 e))
    by (intros; apply (IH n); [lia|lia|assumption]).
  assert (Hms : forall l s, agree (fvs l) ρ1 ρ2 -> le_opt (evals n s ρ1 l) (evals m s ρ2 l))
    by (apply evals_le_from; intros; apply Hm; assumption).
  destruct e as [z|b|d|x|g|ps rest b|f args|c t e|xs rhs b|es|op args|g e]; cbn [fv] in A.
  - rewrite !eval_Num. apply le_refl.
  - rewrite !eval_Bool. apply le_refl.
  - rewrite !eval_Quote. apply le_refl.
  - rewrite !eval_Loc, (A x) by (left; reflexivity). apply le_refl.
  - rewrite !eval_Glob. apply le_refl.
  - rewrite !eval_Lam, (capture_ext ρ1 ρ2 (fv (Lam ps rest b)) A). apply le_refl.
  - (* Call: the body of the closure runs in the same environment on both sides *)
    rewrite !eval_Call. apply le_bind.
    { apply evals_le_from; [|eapply agree_app_l; exact A]. intros; apply (IH (Nat.pred n)); [lia|lia|assumption]. }
    intros [[x|vs] s1]; [apply le_refl|]. apply le_bind; [apply Hm; eapply agree_app_r; exact A|].
    intros [[[| | | | |ps rest b ρc]|] s2]; try apply le_refl.
    destruct (bind_params ps rest vs ρc); [|apply le_refl]. apply Hm. intros y _; reflexivity.
  - rewrite !eval_If. apply le_bind; [apply Hm; eapply agree_app_l; exact A|].
    intros [[v|] s1]; [|apply le_refl]. apply Hm.
    destruct (truthy v); [eapply agree_app_l, agree_app_r|eapply agree_app_r, agree_app_r]; exact A.
  - rewrite !eval_Let. apply le_bind; [apply Hms; eapply agree_app_l; exact A|].
    intros [[x|vs] s1]; [apply le_refl|].
    destruct (bind_fixed xs vs ρ1) as [ρ1'|] eqn:B; [|rewrite (bind_fixed_none xs vs vs ρ1 ρ2 eq_refl B); apply le_refl].
    destruct (bind_fixed_agree _ _ _ ρ2 _ (fv b) B) as (ρ2' & -> & A2); [|apply Hm, A2].
    intros x Hx Hn. apply (agree_app_r _ _ _ _ A), in_filter_notin; assumption.
  - rewrite !eval_Begin. apply le_bind; [apply Hms, A|]. intros ?; apply le_refl.
  - rewrite !eval_Prim. apply le_bind; [apply Hms, A|]. intros ?; apply le_refl.
  - rewrite !eval_SetG. apply le_bind; [apply Hm, A|]. intros ?; apply le_refl.
Qed.

Lemma evals_mono_ext n m l s ρ1 ρ2 r : n <= m -> agree (fvs l) ρ1 ρ2 -> evals n s ρ1 l = Some r -> evals m s ρ2 l = Some r.
Proof. intros Hle A. apply evals_le_from; [|exact A]. intros. apply eval_mono_ext; assumption. Qed.

Lemma eval_mono n m s ρ e r : n <= m -> eval n s ρ e = Some r -> eval m s ρ e = Some r.
Proof. intros Hle. apply eval_mono_ext; [exact Hle|]. intros x _; reflexivity. Qed.
Lemma evals_mono n m l s ρ r : n <= m -> evals n s ρ l = Some r -> evals m s ρ l = Some r.
Proof. intros Hle. apply evals_mono_ext; [exact Hle|]. intros x _; reflexivity. Qed.

Lemma le_opt_eq {T} (o o' : option T) : le_opt o o' -> le_opt o' o -> o = o'.
Proof.
  intros H H'. destruct o as [r|]; [symmetry; apply H; reflexivity|].
  destruct o' as [r|]; [apply H'; reflexivity|reflexivity].
Qed.

Lemma agree_sym xs ρ1 ρ2 : agree xs ρ1 ρ2 -> agree xs ρ2 ρ1.
Proof. intros A x Hx. symmetry. apply A, Hx. Qed.

Lemma eval_env_ext n s ρ1 ρ2 e : agree (fv e) ρ1 ρ2 -> eval n s ρ1 e = eval n s ρ2 e.
Proof. intros A. apply le_opt_eq; apply eval_mono_ext; [apply le_n|exact A|apply le_n|apply agree_sym, A]. Qed.

Lemma evals_env_ext n l s ρ1 ρ2 : agree (fvs l) ρ1 ρ2 -> evals n s ρ1 l = evals n s ρ2 l.
Proof. intros A. apply le_opt_eq; intros r; apply evals_mono_ext; [apply le_n|exact A|apply le_n|apply agree_sym, A]. Qed.

Lemma apply_prim_AddC vs s : apply_prim PAddC vs s = apply_prim PAdd vs s.
Proof. destruct vs as [|[] [|[] [|]]]; reflexivity. Qed.

Lemma eval_Call_1 s ρ f args : eval 1 s ρ (Call f args) = None.
Proof.
  rewrite eval_Call. cbn [Nat.pred]. destruct args; [rewrite evals_Nil|rewrite evals_Cons]; rewrite eval_O; reflexivity.
Qed.

Lemma eval_beta n s ρ ps r b args :
  eval (S (S n)) s ρ (Call (Lam ps r b) args) =
  match evals n s ρ args with
  | None => None
  | Some (inl x, s1) => Some (x, s1)
  | Some (inr vs, s1) =>
      match bind_params ps r vs ρ with Some ρ' => eval (S n) s1 ρ' b | None => Some (Err, s1) end
  end.
Proof.
  rewrite eval_Call. cbn [Nat.pred]. destruct (evals n s ρ args) as [[[x|vs] s1]|]; try reflexivity.
  rewrite eval_Lam.
  destruct (bind_params ps r vs (capture ρ (fv (Lam ps r b)))) as [ρ1|] eqn:B.
  - destruct (bind_params_agree _ _ _ _ ρ _ (fv b) B (lookup_capture_lam ρ ps r b)) as (ρ2 & -> & A). apply eval_env_ext, A.
  - rewrite (bind_params_none ps r vs vs _ ρ eq_refl B). reflexivity.
Qed.
