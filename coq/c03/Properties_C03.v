(* C03 — the property theorems (Pins_C03.v checks each statement). *)
From Coq Require Import List Arith Bool PeanoNat.
From SV Require Import c03.Model_C03 c03.Proofs_C03 gen.Gen_C03.
Import ListNotations.

(* Every state reachable by ANY sequence of alloc / clone / move / drop / update operations (any
   aliasing pattern, any subset of uses being last uses, in-place or copying path) is persistent:
   each live reference denotes the value it denoted when it was created.  The only assumption on the
   uniqueness oracle is C05's: a `unique` answer implies a sole reference. *)
Theorem C03_invariant : forall V dflt upd upd2 (uniq : state V -> cid -> bool),
  (forall s c, uniq s c = true -> refcount V s c = 1) ->
  forall ops, Persistent V dflt (run V dflt upd upd2 uniq ops init).
Proof. intros. apply run_persistent; [assumption|apply init_persistent]. Qed.

(* temporal form: a reference created at some point keeps denoting its creation value across every
   later operation sequence for as long as it is alive *)
Theorem C03_persistent : forall V dflt upd upd2 (uniq : state V -> cid -> bool),
  (forall s c, uniq s c = true -> refcount V s c = 1) ->
  forall ops1 ops2 k r,
    nth_error (refs (run V dflt upd upd2 uniq ops1 init)) k = Some r ->
    forall r', nth_error (refs (run V dflt upd upd2 uniq (ops1 ++ ops2) init)) k = Some r' -> live r' = true ->
      ghost r' = ghost r /\ cell_val V dflt (run V dflt upd upd2 uniq (ops1 ++ ops2) init) (target r') = ghost r.
Proof.
  intros V dflt upd upd2 uniq Hu ops1 ops2 k r Hk r' Hk' Hl.
  assert (HP : Persistent V dflt (run V dflt upd upd2 uniq (ops1 ++ ops2) init))
    by (apply run_persistent; [exact Hu | apply init_persistent]).
  unfold run in *. rewrite fold_left_app in *.
  destruct (run_ref_stable V dflt upd upd2 uniq ops2 _ k r Hk) as [r2 [H2 G2]].
  unfold run in H2. rewrite H2 in Hk'. inversion Hk'; subst r2.
  split; [exact G2|]. destruct (HP k r' H2 Hl) as [_ Hv]. rewrite Hv. exact G2.
Qed.

(* a functional update returns the update of (a fresh copy of) the value its argument denoted *)
Theorem C03_update_eq_fresh : forall V dflt upd upd2 (uniq : state V -> cid -> bool),
  (forall s c, uniq s c = true -> refcount V s c = 1) ->
  forall s u i r, Persistent V dflt s -> live_ref V s i = Some r ->
    exists r', nth_error (refs (step V dflt upd upd2 uniq s (OUpdate u i))) (length (refs s)) = Some r' /\
               live r' = true /\
               cell_val V dflt (step V dflt upd upd2 uniq s (OUpdate u i)) (target r') = upd u (ghost r) /\
               ghost r' = upd u (ghost r).
Proof.
  intros V dflt upd upd2 uniq _ s u i r HP Hl. simpl. unfold update_with. rewrite Hl.
  apply live_ref_some in Hl as [Hi Li]. pose proof (proj1 (denotes_iff V dflt s r) (HP i r Hi Li)) as Hd.
  unfold cell_val. rewrite (nth_error_nth _ _ dflt Hd).
  destruct (uniq s (target r)); simpl; eexists.
  - split; [rewrite <- (map_nth_length (kill V) (refs s) i); apply nth_error_snoc_last|]. simpl. repeat split.
    apply nth_error_nth. rewrite nth_error_set_nth, Nat.eqb_refl, Hd. reflexivity.
  - rewrite nth_error_snoc_last. repeat split. apply nth_error_nth, nth_error_snoc_last.
Qed.

(* one run showing the assumption on the oracle cannot be dropped: with an oracle that always answers `unique`, an
   update through one of two references to the same cell (in place) changes what the other denotes *)
Theorem C03_inplace_needs_unique :
  ~ Persistent nat 0 (run nat 0 (fun _ v => S v) (fun _ v _ => v) uniq_always bad_ops init).
Proof.
  intros H. specialize (H 1 (mkref 0 0 true HSlot) eq_refl eq_refl). destruct H as [_ H].
  vm_compute in H. discriminate.
Qed.

(* the exact reference count satisfies the hypothesis (non-vacuity) *)
Theorem C03_exact_count_suffices : forall V (s : state V) c, uniq_exact s c = true -> refcount V s c = 1.
Proof. exact uniq_exact_sound. Qed.

(* last-use analysis: slot code accepted by [check] never reads a slot vacated by a MOVE, on any path *)
Theorem C03_last_use_sound : forall c m', check c [] = Some m' -> forall ch, exec c [] ch <> None.
Proof.
  intros c m' H ch. destruct (check_sound_all c [] m' H [] ch (incl_refl _)) as [v [h [E _]]]. congruence.
Qed.

Theorem C03_checker_nontrivial :
  check [IRead 0; IIf [IMove 0] [IRead 0; IMove 0]; IEnd 0; IMove 0] [] <> None /\
  check [IMove 0; IRead 0] [] = None /\ exec [IMove 0; IRead 0] [] [] = None /\
  check [IIf [IMove 1] []; IRead 1] [] = None.
Proof. repeat split; vm_compute; congruence. Qed.

(* generated facts (coq/gen/Gen_C03.v, rewritten from /repo on every run): the primitives that receive
   their arguments by `&mut` and the in-place call sites are exactly the ones the model accounts for *)
Theorem C03_inplace_prims_covered :
  subset inplace_prims known_inplace && subset known_inplace inplace_prims = true.
Proof. vm_compute. reflexivity. Qed.

Theorem C03_inplace_sites_covered : sites_eqb inplace_sites known_sites = true.
Proof. vm_compute. reflexivity. Qed.
