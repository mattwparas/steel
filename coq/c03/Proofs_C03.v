From Coq Require Import List Arith Bool PeanoNat Lia.
From SV Require Import c03.Model_C03 lib.ListFacts.
Import ListNotations.

Lemma set_nth_length {A} (l : list A) n x : length (set_nth l n x) = length l.
Proof. revert n. induction l as [|y l IH]; intros [|n]; simpl; try reflexivity. rewrite IH. reflexivity. Qed.
(* writing at [n] changes what is read at [n], where the list reaches it, and nothing else *)
Lemma nth_error_set_nth {A} (l : list A) n x m :
  nth_error (set_nth l n x) m = if n =? m then option_map (fun _ => x) (nth_error l m) else nth_error l m.
Proof.
  revert n m. induction l as [|y l IH]; intros [|n] [|m]; simpl; try apply IH; try reflexivity.
  destruct (n =? m); reflexivity.
Qed.

Lemma map_nth_length {A} (f : A -> A) l i : length (map_nth f l i) = length l.
Proof. unfold map_nth. destruct (nth_error l i); [apply set_nth_length|reflexivity]. Qed.
Lemma nth_error_map_nth {A} (f : A -> A) l i k :
  nth_error (map_nth f l i) k = if i =? k then option_map f (nth_error l k) else nth_error l k.
Proof.
  unfold map_nth. destruct (Nat.eqb_spec i k) as [->|H].
  - destruct (nth_error l k) eqn:E; [rewrite nth_error_set_nth, Nat.eqb_refl|]; rewrite E; reflexivity.
  - destruct (nth_error l i); [rewrite nth_error_set_nth, (proj2 (Nat.eqb_neq i k) H)|]; reflexivity.
Qed.

Lemma nth_error_snoc {A} (l : list A) x j r :
  nth_error (l ++ [x]) j = Some r -> nth_error l j = Some r \/ (j = length l /\ r = x).
Proof.
  intros H. destruct (Nat.lt_ge_cases j (length l)) as [Hl|Hl].
  - left. rewrite nth_error_app1 in H by exact Hl. exact H.
  - right. rewrite nth_error_app2 in H by exact Hl. destruct (j - length l) as [|k] eqn:E; simpl in H.
    + inversion H. split; [lia|reflexivity].
    + destruct k; discriminate.
Qed.
Lemma nth_error_snoc_last {A} (l : list A) x : nth_error (l ++ [x]) (length l) = Some x.
Proof. rewrite nth_error_app2 by lia. rewrite Nat.sub_diag. reflexivity. Qed.

Lemma filter_two {A} (p : A -> bool) l i j a b :
  i < j -> nth_error l i = Some a -> nth_error l j = Some b -> p a = true -> p b = true ->
  2 <= length (filter p l).
Proof.
  revert i j. induction l as [|x l IH]; intros [|i] [|j] Hij Ha Hb Pa Pb; simpl in *; try discriminate; try lia.
  - inversion Ha; subst. rewrite Pa. simpl. pose proof (proj2 (filter_nonempty p l) (ex_intro _ b (conj (nth_error_In l j Hb) Pb))). lia.
  - assert (2 <= length (filter p l)) by (eapply (IH i j); eauto; lia). destruct (p x); simpl; lia.
Qed.

Section P.
  Variable V : Type.
  Variable dflt : V.
  Variable upd : nat -> V -> V.
  Variable upd2 : nat -> V -> V -> V.
  Variable uniq : state V -> cid -> bool.
  (* C05 (steel-rc exclusive_sound): a `unique` answer implies a sole reference *)
  Hypothesis uniq_sound : forall s c, uniq s c = true -> refcount V s c = 1.

  Notation step := (step V dflt upd upd2 uniq).
  Notation run := (run V dflt upd upd2 uniq).
  Notation Persistent := (Persistent V dflt).
  Notation denotes_ok := (denotes_ok V dflt).
  Notation live_ref := (live_ref V).
  Notation cell_val := (cell_val V dflt).

  Lemma live_ref_some s i r : live_ref s i = Some r -> nth_error (refs s) i = Some r /\ live r = true.
  Proof.
    unfold Model_C03.live_ref. destruct (nth_error (refs s) i) as [r'|]; [|discriminate].
    destruct (live r') eqn:L; [|discriminate]. intros H; inversion H; subst. auto.
  Qed.

  Lemma sole s c i j r r' :
    refcount V s c = 1 ->
    nth_error (refs s) i = Some r -> live r = true -> target r = c ->
    nth_error (refs s) j = Some r' -> live r' = true -> target r' = c -> i = j.
  Proof.
    intros Hc Hi Li Ti Hj Lj Tj. unfold refcount in Hc.
    assert (Pi : points V c r = true) by (unfold points; rewrite Li, Ti, Nat.eqb_refl; reflexivity).
    assert (Pj : points V c r' = true) by (unfold points; rewrite Lj, Tj, Nat.eqb_refl; reflexivity).
    destruct (Nat.lt_trichotomy i j) as [H|[H|H]]; [|exact H|].
    - pose proof (filter_two (points V c) (refs s) i j r r' H Hi Hj Pi Pj). lia.
    - pose proof (filter_two (points V c) (refs s) j i r' r H Hj Hi Pj Pi). lia.
  Qed.

  (* what a step may do to a reference it keeps: cell and creation value stay, it can only die *)
  Definition refmod (f : ref V -> ref V) : Prop :=
    forall r, target (f r) = target r /\ ghost (f r) = ghost r /\ (live (f r) = true -> live r = true).

  Lemma kill_mod : refmod (kill V).
  Proof. intros r. split; [reflexivity|]. split; [reflexivity | discriminate]. Qed.
  Lemma rehold_mod h : refmod (rehold V h).
  Proof. intros r. repeat split; auto. Qed.

  Lemma denotes_iff s r : denotes_ok s r <-> nth_error (cells s) (target r) = Some (ghost r).
  Proof.
    unfold Model_C03.denotes_ok, Model_C03.cell_val. split.
    - intros [H <-]. apply nth_error_nth', H.
    - intros H. split; [apply nth_error_Some; congruence | apply nth_error_nth, H].
  Qed.

  Lemma Persistent_map_nth s f i : refmod f -> Persistent s -> Persistent (mkst (cells s) (map_nth f (refs s) i)).
  Proof.
    intros Hf HP k r' Hk Lk. simpl in Hk. rewrite nth_error_map_nth in Hk.
    destruct (i =? k); [|exact (HP k r' Hk Lk)].
    destruct (nth_error (refs s) k) as [r|] eqn:Hr; [|discriminate]. injection Hk as <-.
    destruct (Hf r) as [T [G L]]. destruct (HP k r Hr (L Lk)) as [A B].
    unfold Model_C03.denotes_ok. rewrite T, G. split; assumption.
  Qed.

  Lemma Persistent_snoc s x : Persistent s -> denotes_ok s x -> Persistent (mkst (cells s) (refs s ++ [x])).
  Proof. intros HP Hx k r Hk Lk. apply nth_error_snoc in Hk as [Hk|[_ ->]]; [exact (HP k r Hk Lk) | exact Hx]. Qed.

  Lemma Persistent_alloc s v h :
    Persistent s -> Persistent (mkst (cells s ++ [v]) (refs s ++ [mkref (length (cells s)) v true h])).
  Proof.
    intros HP. apply (Persistent_snoc (mkst (cells s ++ [v]) (refs s))).
    - intros k r Hk Lk. apply denotes_iff. pose proof (proj1 (denotes_iff s r) (HP k r Hk Lk)) as H. simpl.
      rewrite nth_error_app1; [exact H | apply nth_error_Some; congruence].
    - apply denotes_iff, nth_error_snoc_last.
  Qed.

  Lemma update_with_persistent s i f : Persistent s -> Persistent (update_with V dflt uniq s i f).
  Proof.
    intros HP. unfold update_with. destruct (live_ref s i) as [r|] eqn:Hl; [|exact HP].
    apply live_ref_some in Hl as [Hi Li]. pose proof (proj1 (denotes_iff s r) (HP i r Hi Li)) as Hd.
    destruct (uniq s (target r)) eqn:Hu; [|apply Persistent_alloc, HP].
    (* in place: the sole live reference to the cell is i, which dies *)
    apply uniq_sound in Hu. intros j r' Hj Lj. apply denotes_iff. simpl in *. rewrite nth_error_set_nth.
    apply nth_error_snoc in Hj as [Hj|[_ ->]]; [|simpl; rewrite Nat.eqb_refl, Hd; reflexivity].
    rewrite nth_error_map_nth in Hj. destruct (Nat.eqb_spec i j) as [->|Hne].
    - destruct (nth_error (refs s) j); [injection Hj as <-|]; discriminate.
    - destruct (Nat.eqb_spec (target r) (target r')) as [E|_]; [|apply denotes_iff, (HP j r' Hj Lj)].
      destruct Hne. eapply (sole s (target r) i j r r'); eauto.
  Qed.

  Lemma step_persistent s o : Persistent s -> Persistent (step s o).
  Proof.
    intros HP. destruct o as [v|i h|i h|i|u i|u i j]; simpl.
    - apply Persistent_alloc, HP.
    - destruct (live_ref s i) as [r|] eqn:Hl; [|exact HP]. apply live_ref_some in Hl as [Hi Li].
      apply Persistent_snoc; [exact HP|]. split; [apply (HP i r Hi Li) | reflexivity].
    - destruct (live_ref s i); [apply Persistent_map_nth; [apply rehold_mod | exact HP] | exact HP].
    - apply Persistent_map_nth; [apply kill_mod | exact HP].
    - apply update_with_persistent. exact HP.
    - destruct (live_ref s j); [apply update_with_persistent|]; exact HP.
  Qed.

  Lemma run_persistent : forall ops s, Persistent s -> Persistent (run ops s).
  Proof. induction ops as [|o ops IH]; intros s H; simpl; [exact H|]. apply IH. apply step_persistent. exact H. Qed.

  Lemma init_persistent : Persistent init.
  Proof. intros i r H. destruct i; discriminate. Qed.

  (* a reference keeps its place and its creation value *)
  Definition stable (l l' : list (ref V)) : Prop :=
    forall k r, nth_error l k = Some r -> exists r', nth_error l' k = Some r' /\ ghost r' = ghost r.

  Lemma stable_refl l : stable l l.
  Proof. intros k r Hk. exists r. split; [exact Hk | reflexivity]. Qed.

  Lemma stable_trans l1 l2 l3 : stable l1 l2 -> stable l2 l3 -> stable l1 l3.
  Proof.
    intros H1 H2 k r Hk. destruct (H1 k r Hk) as [r1 [K1 G1]]. destruct (H2 k r1 K1) as [r2 [K2 G2]].
    exists r2. split; [exact K2 | congruence].
  Qed.

  Lemma stable_app l tl : stable l (l ++ tl).
  Proof.
    intros k r Hk. exists r. split; [|reflexivity].
    rewrite nth_error_app1; [exact Hk | apply nth_error_Some; congruence].
  Qed.

  Lemma stable_map_nth f l i : refmod f -> stable l (map_nth f l i).
  Proof.
    intros Hf k r Hk. rewrite nth_error_map_nth, Hk.
    destruct (i =? k); eexists; (split; [reflexivity|]); [apply Hf | reflexivity].
  Qed.

  Lemma update_with_ref_stable s i f : stable (refs s) (refs (update_with V dflt uniq s i f)).
  Proof.
    unfold update_with. destruct (live_ref s i) as [ri|]; [|apply stable_refl].
    destruct (uniq s (target ri)); simpl; [|apply stable_app].
    eapply stable_trans; [apply stable_map_nth, kill_mod | apply stable_app].
  Qed.

  Lemma step_ref_stable s o : stable (refs s) (refs (step s o)).
  Proof.
    destruct o as [v|i h|i h|i|u i|u i j]; simpl.
    - apply stable_app.
    - destruct (live_ref s i); [apply stable_app | apply stable_refl].
    - destruct (live_ref s i); [apply stable_map_nth, rehold_mod | apply stable_refl].
    - apply stable_map_nth, kill_mod.
    - apply update_with_ref_stable.
    - destruct (live_ref s j); [apply update_with_ref_stable | apply stable_refl].
  Qed.

  Lemma run_ref_stable : forall ops s, stable (refs s) (refs (run ops s)).
  Proof.
    induction ops as [|o ops IH]; intros s; simpl; [apply stable_refl|].
    eapply stable_trans; [apply step_ref_stable | apply IH].
  Qed.

End P.

Lemma uniq_exact_sound V : forall (s : state V) c, uniq_exact s c = true -> refcount V s c = 1.
Proof. intros s c H. apply Nat.eqb_eq. exact H. Qed.

Definition bad_ops : list (op nat) := [OAlloc 0; OClone 0 HSlot; OUpdate 0 0].
Lemma inplace_with_exact_ok :
  Persistent nat 0 (run nat 0 (fun _ v => S v) (fun _ v _ => v) uniq_exact bad_ops init).
Proof. apply run_persistent; [apply uniq_exact_sound|apply init_persistent]. Qed.

Lemma exec_if t e vac ch :
  exec_i (IIf t e) vac ch = exec (if hd false ch then t else e) vac (tl ch).
Proof.
  simpl. change (match ch with b :: _ => b | [] => false end) with (hd false ch).
  generalize (if hd false ch then t else e) as c. intros c. generalize vac (tl ch).
  induction c as [|j c IH]; intros v h; simpl; [reflexivity|].
  destruct (exec_i j v h) as [[v' h']|]; [apply IH|reflexivity].
Qed.
Lemma check_go c : forall m,
  (fix go (c : list instr) (m : list nat) : option (list nat) :=
     match c with
     | [] => Some m
     | j :: c' => match check_i j m with Some m' => go c' m' | None => None end
     end) c m = check c m.
Proof. induction c as [|j c IH]; intros m; simpl; [reflexivity|]. destruct (check_i j m); [apply IH|reflexivity]. Qed.
Lemma check_if t e m :
  check_i (IIf t e) m = match check t m, check e m with Some a, Some b => Some (a ++ b) | _, _ => None end.
Proof. simpl. rewrite !check_go. reflexivity. Qed.

Lemma memb_In k l : memb k l = true <-> In k l.
Proof. exact (existsb_eqb_In _ Nat.eqb_eq k l). Qed.
Lemma memb_false_incl k vac m : incl vac m -> memb k m = false -> memb k vac = false.
Proof.
  intros Hi Hm. destruct (memb k vac) eqn:E; [|reflexivity]. apply memb_In in E. apply Hi in E.
  apply memb_In in E. congruence.
Qed.

(* whatever [chk] accepts from [m] runs, from any vacated set inside [m], to a vacated set inside the answer *)
Definition sound {X} (chk : X -> list nat -> option (list nat))
    (ex : X -> list nat -> list bool -> option (list nat * list bool)) (x : X) : Prop :=
  forall m m', chk x m = Some m' ->
  forall vac ch, incl vac m -> exists vac' ch', ex x vac ch = Some (vac', ch') /\ incl vac' m'.

Lemma sound_seq c : Forall (sound check_i exec_i) c -> sound check exec c.
Proof.
  unfold sound. induction 1 as [|i c IHi _ IHc]; intros m m' H vac ch Hi; simpl in *.
  - injection H as <-. eauto.
  - destruct (check_i i m) as [m1|] eqn:Ci; [|discriminate].
    destruct (IHi m m1 Ci vac ch Hi) as [v1 [h1 [E1 I1]]]. rewrite E1.
    apply (IHc m1 m' H v1 h1 I1).
Qed.

Lemma check_sound_i : forall i, sound check_i exec_i i.
Proof.
  (* structural: under IIf the hypothesis is used on the members of the two branches only *)
  fix IH 1. intros [k|k|k|n|t e]; unfold sound.
  (* IWrite, IEnd: both sides filter with the same test *)
  3-4: (intros m m' H vac ch Hi; simpl in *; injection H as <-; eexists _, _;
        split; [reflexivity | apply filter_incl_mono, Hi]).
  - intros m m' H vac ch Hi. simpl in *. destruct (memb k m) eqn:E; [discriminate|]. injection H as <-.
    rewrite (memb_false_incl k vac m Hi E). eauto.
  - intros m m' H vac ch Hi. simpl in *. destruct (memb k m) eqn:E; [discriminate|]. injection H as <-.
    rewrite (memb_false_incl k vac m Hi E). eexists _, _. split; [reflexivity|].
    intros x [->|Hx]; [left; reflexivity|right; apply Hi; exact Hx].
  - assert (IHt : sound check exec t) by (apply sound_seq; induction t; constructor; [apply IH | assumption]).
    assert (IHe : sound check exec e) by (apply sound_seq; induction e; constructor; [apply IH | assumption]).
    intros m m' H vac ch Hi. rewrite check_if in H. rewrite exec_if.
    destruct (check t m) as [a|] eqn:Ct; [|discriminate]. destruct (check e m) as [b|] eqn:Ce; [|discriminate].
    injection H as <-. destruct (hd false ch).
    + destruct (IHt m a Ct vac (tl ch) Hi) as [v' [h' [E I]]]. exists v', h'. split; [exact E|apply incl_appl, I].
    + destruct (IHe m b Ce vac (tl ch) Hi) as [v' [h' [E I]]]. exists v', h'. split; [exact E|apply incl_appr, I].
Qed.

Lemma check_sound_all : forall c, sound check exec c.
Proof. intros c. apply sound_seq, Forall_forall. intros i _. apply check_sound_i. Qed.
