(* C16: no runtime deadlock in the repaired handshake: while some live thread is not blocked by its script, some
   thread has an enabled step.  [blocked] lists the ways a thread can be without a step ([step_or_blocked]); each
   theorem says which of them [Inv] leaves possible under its hypotheses. *)
From Coq Require Import List Arith Lia Bool.
Import ListNotations.
From SV Require Import c15.Conc c15.Model_C15 c15.Proofs_C15_Base c15.Proofs_C15_Inv c15.Proofs_C15 c16.Model_C16.

Lemma holds_tmx_heap : forall x, holds_tmx x = true -> holds_heap x = true.
Proof. intros x. unfold holds_tmx, holds_heap. destruct (pc x); try discriminate. auto. Qed.

Lemma tmx_owner_holds_heap : forall w u, Inv w -> tmx w = Some u -> heap w = Some u.
Proof. intros w u HI E. apply (I_heap w HI u), holds_tmx_heap, (I_tmx w HI u E). Qed.

Lemma tmx_free_unless : forall w h, Inv w -> heap w = Some h -> holds_tmx (th w h) = false -> tmx w = None.
Proof.
  intros w h HI Hh Hn. destruct (tmx w) as [u|] eqn:E; auto.
  pose proof (tmx_owner_holds_heap w u HI E) as Hu. pose proof (I_tmx w HI u E). congruence.
Qed.

Lemma tmx_free_noheap : forall w, Inv w -> heap w = None -> tmx w = None.
Proof.
  intros w HI Hh. destruct (tmx w) as [u|] eqn:E; auto. pose proof (tmx_owner_holds_heap w u HI E). congruence.
Qed.

Lemma not_paused_unless_stw : forall w u, Inv w ->
  (forall h s, heap w = Some h -> pc (th w h) = Stw s -> False) -> paused (th w u) = false.
Proof.
  intros w u HI Hn. destruct (paused (th w u)) eqn:E; auto.
  destruct (paused_only_during_stw_inv w u HI E) as (h & s & Ep & Hh). exfalso. eapply Hn; eauto.
Qed.

Lemma in_range_of_pc : forall w u, pc (th w u) <> Done -> u < nthreads w.
Proof.
  intros w u H. destruct (lt_dec u (nthreads w)); auto.
  rewrite th_out_of_range in H by lia. now elim H.
Qed.

(* splits a goal [(exists w', <body of wstep> = Some w') \/ B] along the matches and tests of the body *)
Ltac enabled_cases :=
  repeat match goal with
         | |- (exists _, Some _ = Some _) \/ _ => left; eexists; reflexivity
         | |- (exists _, None = Some _) \/ _ => right
         | |- (exists _, (match ?x with _ => _ end) = Some _) \/ _ => destruct x eqn:?
         | |- (exists _, (if ?x then _ else _) = Some _) \/ _ => destruct x eqn:?
         end.

Definition blocked_on (w : world) (h : tid) (s : spc) (k : tid) : Prop :=
  (exists p, s = SWait p k) /\ k < nthreads w /\ reg (th w k) = true /\ k <> h /\
  is_done (pc (th w k)) = false /\ published (pc (th w k)) = false.

(* every way in which a thread inside the table can be without an enabled step *)
Definition blocked (w : world) (t : tid) : Prop :=
  match pc (th w t) with
  | NotStarted | Done => True
  | PollParked | SpParked => paused (th w t) = true
  | LockUnpub => heap w <> None
  | SpPub => script_blocked w t = true \/ heap_act (head (th w t)) = true /\ heap w <> None
  | SpJoin => script_blocked w t = true
  | SpReg | Stw SStopLock | Stw (SWaitLock _) | Stw SResumeLock => tmx w <> None
  | Stw (SWait p k) => blocked_on w t (SWait p k) k
  | _ => False
  end.

Lemma step_or_blocked : forall w t, t < nthreads w -> (exists w', wstep cfg_fixed t w = Some w') \/ blocked w t.
Proof.
  intros w t Hlt. apply Nat.ltb_lt in Hlt. unfold wstep, blocked, script_blocked. rewrite Hlt. cbv zeta.
  simpl jit_box_safepoint. simpl keep_guard. simpl spawn_locked.
  destruct (pc (th w t)) eqn:E; try (unfold sp_closure, stw_step; cbv zeta; simpl spawn_locked); enabled_cases.
  all: cbn [heap_act negb]; auto; try congruence; try (right; split; congruence).
  match goal with Hs : _ || _ || _ = false |- _ =>
    apply orb_false_iff in Hs; destruct Hs as [Hs Hd]; apply orb_false_iff in Hs; destruct Hs as [Hr Hk] end.
  match goal with Hlk : (_ <? _) = true |- _ => apply Nat.ltb_lt in Hlk end.
  apply negb_false_iff in Hr. apply Nat.eqb_neq in Hk. unfold blocked_on. eauto 8.
Qed.

Lemma unpublished_enabled : forall w k h, Inv w -> heap w = Some h -> k <> h ->
  reg (th w k) = true -> is_done (pc (th w k)) = false -> published (pc (th w k)) = false ->
  exists w', wstep cfg_fixed k w = Some w'.
Proof.
  intros w k h HI Hh Hk Hr Hd Hp.
  assert (Hlt : k < nthreads w) by (apply in_range_of_pc; intro E; rewrite E in Hd; discriminate).
  destruct (step_or_blocked w k Hlt) as [|B]; [assumption|]. exfalso.
  pose proof (I_reg w HI k Hr) as Hns. pose proof (I_nolock w HI k) as Hnl. pose proof (I_heap w HI k) as Hhk.
  unfold blocked, holds_heap in *. destruct (pc (th w k)) eqn:E; try discriminate; try congruence.
  apply Hk. assert (heap w = Some k) by (apply Hhk; reflexivity). congruence.
Qed.

Lemma stopper_progress : forall w h s, Inv w -> pc (th w h) = Stw s ->
  (exists w', wstep cfg_fixed h w = Some w') \/ (exists k, blocked_on w h s k).
Proof.
  intros w h s HI E.
  assert (Hh : heap w = Some h) by (eapply stw_holds_heap; eauto).
  assert (Hlt : h < nthreads w) by (apply in_range_of_pc; rewrite E; discriminate).
  destruct (step_or_blocked w h Hlt) as [|B]; [auto|]. right.
  pose proof (tmx_free_unless w h HI Hh) as Htmx. unfold blocked, holds_tmx in *. rewrite E in *.
  destruct s; try contradiction; eauto; now elim B; apply Htmx.
Qed.

Lemma holder_or_waited_enabled : forall w h, Inv w -> heap w = Some h ->
  exists t w', wstep cfg_fixed t w = Some w'.
Proof.
  intros w h HI Hh.
  pose proof (proj2 (I_heap w HI h) Hh) as Hhold.
  assert (Hlt : h < nthreads w).
  { apply in_range_of_pc. intro E. unfold holds_heap in Hhold. rewrite E in Hhold. discriminate. }
  destruct (step_or_blocked w h Hlt) as [|B]; [eauto|].
  unfold blocked, holds_heap in *. destruct (pc (th w h)) eqn:E; try discriminate; try contradiction.
  - now elim B; apply (tmx_free_unless w h HI Hh); unfold holds_tmx; rewrite E.
  - rewrite (not_paused_unless_stw w h HI) in B; [discriminate|]. intros h' s' H1 H2. congruence.
  - (* the stopper itself, or the thread it waits for *)
    destruct (stopper_progress w h s HI E) as [He | [k ([p ->] & Hk & Hr & Hne & Hd & Hp)]]; [eauto|].
    exists k. eapply unpublished_enabled; eauto.
Qed.

Lemma free_heap_enabled : forall w i, Inv w -> heap w = None ->
  live (th w i) = true -> script_blocked w i = false ->
  exists w', wstep cfg_fixed i w = Some w'.
Proof.
  intros w i HI Hh Hl Hb.
  assert (Hlt : i < nthreads w).
  { apply in_range_of_pc. intro E. unfold live in Hl. rewrite E in Hl. discriminate. }
  destruct (step_or_blocked w i Hlt) as [|B]; [assumption|]. exfalso.
  assert (Hnp : paused (th w i) = false).
  { apply not_paused_unless_stw; auto. intros h s H1. congruence. }
  pose proof (I_heap w HI i) as Hhi. pose proof (tmx_free_noheap w HI Hh) as Htm.
  unfold blocked, live, holds_heap in *. destruct (pc (th w i)) eqn:E; try discriminate; try congruence.
  all: try (now destruct B as [B|[_ B]]; congruence).
  all: assert (heap w = Some i) by (apply Hhi; reflexivity); congruence.
Qed.

Lemma enabled_if_live : forall w, Inv w ->
  (exists i, live (th w i) = true /\ script_blocked w i = false) ->
  exists t w', wstep cfg_fixed t w = Some w'.
Proof.
  intros w HI [i [Hl Hb]]. destruct (heap w) as [h|] eqn:Hh.
  - eapply holder_or_waited_enabled; eauto.
  - exists i. eapply free_heap_enabled; eauto.
Qed.
