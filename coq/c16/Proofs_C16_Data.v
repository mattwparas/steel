(* C16: the invariants behind C16_join_once ([JInv]) and C16_channel_fifo_per_sender ([fifo_inv]). *)
From Coq Require Import List Arith Lia Bool.
Import ListNotations.
From SV Require Import lib.ListFacts c15.Conc c15.Model_C15 c15.Proofs_C15_Base c15.Proofs_C15_Step c15.Proofs_C15_Inv c16.Model_C16.

Definition pend (w : world) (u j : tid) : Prop := pc (th w u) = SpJoin /\ head (th w u) = AJoin j.

Lemma mem_false_notin : forall j l, mem j l = false -> ~ In j l.
Proof. intros j l. apply (existsb_eqb_notIn _ Nat.eqb_eq). Qed.

(* What a step of t does to the shared logs and whether it leaves t waiting for a join: the shape read off each case of
   [wstep] (the one case analysis of this file); both invariants follow from the shapes. *)
Inductive sh_step (t : tid) (w : world) : shared -> thd -> Prop :=
| ss_same x : pc x <> SpJoin -> sh_step t w (sh w) x
| ss_send c v x : pc x <> SpJoin ->
    sh_step t w {| chans := chan_upd c (chans (sh w) c ++ [(t, v)]) (chans (sh w)); sent := (c, t, v) :: sent (sh w);
                   recvd := recvd (sh w); taken := taken (sh w); deliv := deliv (sh w) |} x
| ss_recv c from v q x : pc x <> SpJoin -> chans (sh w) c = (from, v) :: q ->
    sh_step t w {| chans := chan_upd c q (chans (sh w)); sent := sent (sh w); recvd := (c, from, v, t) :: recvd (sh w);
                   taken := taken (sh w); deliv := deliv (sh w) |} x
| ss_take j : head (th w t) = AJoin j -> mem j (taken (sh w)) = false ->
    sh_step t w {| chans := chans (sh w); sent := sent (sh w); recvd := recvd (sh w);
                   taken := j :: taken (sh w); deliv := deliv (sh w) |} (with_pc SpJoin (th w t))
| ss_deliver j x : pc x <> SpJoin -> pend w t j -> is_done (pc (th w j)) = true ->
    sh_step t w {| chans := chans (sh w); sent := sent (sh w); recvd := recvd (sh w);
                   taken := taken (sh w); deliv := (t, j) :: deliv (sh w) |} x.

Lemma step_sh : forall cfg t w w', wstep cfg t w = Some w' -> sh_step t w (sh w') (th w' t).
Proof.
  intros cfg t w w' H. step_cases H.
  all: unfold goto; apply (self_at (fun x w' => sh_step t w (sh w') x)); [unfold set_paused; rewrite ?nthreads_set_th; assumption|].
  all: cbn [sh set_th set_heap set_tmx set_gen set_sh set_paused].
  all: try (constructor; solve [discriminate | assumption | split; assumption]).
  rewrite th_set_sh. constructor; assumption.
Qed.

Record JInv (w : world) : Prop := {
  J_nodup : NoDup (map snd (deliv (sh w)));
  J_taken : forall p, In p (deliv (sh w)) -> In (snd p) (taken (sh w));
  J_done : forall p, In p (deliv (sh w)) -> pc (th w (snd p)) = Done;
  J_pend : forall u j, pend w u j ->
      In j (taken (sh w)) /\ ~ In j (map snd (deliv (sh w))) /\
      (forall u', pend w u' j -> u' = u)
}.

Lemma pend_step : forall cfg t w w' u j, wstep cfg t w = Some w' -> pend w' u j -> u = t \/ pend w u j.
Proof.
  intros cfg t w w' u j H [E1 E2]. destruct (Nat.eq_dec u t) as [|Hne]; [now left | right].
  destruct (step_other _ _ _ _ u H Hne) as (f & T & E). rewrite E in *.
  destruct (touch_frame _ _ _ _ _ T) as (Ep & [Epc|[_ Epc]] & _); rewrite Epc in E1; [|discriminate].
  split; auto. unfold head in *. now rewrite <- Ep.
Qed.

Lemma JInv_step : forall cfg t w w', JInv w -> wstep cfg t w = Some w' -> JInv w'.
Proof.
  intros cfg t w w' [Hnd Htk Hdn Hpd] H.
  pose proof (done_stable cfg t w w') as Hst. pose proof (fun u j => pend_step cfg t w w' u j H) as Hoth.
  assert (Hno : pc (th w' t) <> SpJoin -> forall u j, pend w' u j -> u <> t /\ pend w u j).
  { intros Hx u j Hp. destruct (Hoth u j Hp) as [->|]; [now destruct Hp|]. split; [intros ->; now destruct Hp|assumption]. }
  assert (Hnone : pc (th w' t) <> SpJoin -> taken (sh w') = taken (sh w) -> deliv (sh w') = deliv (sh w) -> JInv w').
  { intros Hx Et Ed. constructor; rewrite ?Et, ?Ed; auto.
    intros u j Hpu. destruct (Hpd u j (proj2 (Hno Hx u j Hpu))) as (A & B & C). split; [|split]; auto.
    intros u' Hpu'. apply C, (Hno Hx u' j Hpu'). }
  pose proof (step_sh _ _ _ _ H) as Hc.
  inversion Hc as [x Hx Es|c v x Hx Es|c from v q x Hx Hq Es|j Hh Hm Es Ex|j x Hx Hpj Hdj Es];
    try (apply Hnone; rewrite <- ?Es; auto; fail); constructor; rewrite <- Es; cbn [taken deliv].
  - exact Hnd.
  - intros p Hin. right. auto.
  - intros p Hin. eapply Hst; eauto.
  - assert (Hp : forall u j', pend w' u j' -> u = t /\ j' = j \/ pend w u j').
    { intros u j' Hu; destruct (Hoth u j' Hu) as [->|]; auto.
      destruct Hu as [_ E]; rewrite <- Ex, head_with_pc in E; left; split; congruence. }
    intros u j0 Hpu. destruct (Hp u j0 Hpu) as [[-> ->] | Hold].
    + split; [left; reflexivity|]. split.
      * intros Hin. apply in_map_iff in Hin. destruct Hin as [p [<- Hin]].
        apply (mem_false_notin _ _ Hm). auto.
      * intros u' Hpu'. destruct (Hp u' j Hpu') as [[-> _] | Hold']; auto.
        exfalso. apply (mem_false_notin _ _ Hm). apply (Hpd u' j Hold').
    + destruct (Hpd u j0 Hold) as (A & B & C). split; [right; auto|]. split; auto.
      intros u' Hpu'. destruct (Hp u' j0 Hpu') as [[-> ->] | Hold']; auto.
      exfalso. apply (mem_false_notin _ _ Hm). exact A.
  - destruct (Hpd t j Hpj) as (A & B & C). simpl. constructor; auto.
  - intros p [<- | Hin]; simpl; auto. apply (Hpd t j Hpj).
  - intros p [<- | Hin]; simpl.
    + eapply Hst; eauto. destruct (pc (th w j)); try discriminate; reflexivity.
    + eapply Hst; eauto.
  - intros u j0 Hpu. destruct (Hno Hx u j0 Hpu) as [Hne Hold].
    destruct (Hpd u j0 Hold) as (A' & B' & C'). split; auto. split.
    + simpl. intros [E | Hin]; auto. subst j0. apply Hne. symmetry. apply C'. exact Hpj.
    + intros u' Hpu'. destruct (Hno Hx u' j0 Hpu') as [_ Hold']. auto.
Qed.

Lemma JInv_init : forall progs, JInv (init progs).
Proof.
  intros progs. constructor.
  - simpl. constructor.
  - simpl. tauto.
  - simpl. tauto.
  - intros u j [Hp _]. destruct (init_thd_pc _ (init_threads progs u)) as [E|[E|E]]; congruence.
Qed.

Lemma JInv_run : forall cfg sched w, JInv w -> JInv (run cfg sched w).
Proof.
  intros cfg sched w H. unfold run. apply (invariant_run world (wstep cfg) JInv); auto.
  intros. eapply JInv_step; eauto.
Qed.

Definition fifo_inv (s : shared) : Prop :=
  forall c from, sent_seq s c from = recv_seq s c from ++ queue_seq s c from.

Lemma fifo_step : forall t w s' x, fifo_inv (sh w) -> sh_step t w s' x -> fifo_inv s'.
Proof.
  intros t w s' x HI Hc c0 from0. specialize (HI c0 from0).
  destruct Hc as [x _ | c v x _ | c from v q x _ Hq | |]; try exact HI.
  - unfold sent_seq, recv_seq, queue_seq in *. cbn [sent recvd chans fst snd filter].
    unfold chan_upd. destruct (Nat.eqb_spec c0 c) as [->|Hne].
    + rewrite Nat.eqb_refl. cbn [andb]. rewrite filter_app, map_app. cbn [filter fst].
      destruct (Nat.eqb_spec t from0) as [->|Hnf].
      * cbn [map rev snd]. rewrite HI. rewrite app_assoc. reflexivity.
      * cbn [map]. rewrite app_nil_r. exact HI.
    + assert (Hb : Nat.eqb c c0 = false) by (apply Nat.eqb_neq; congruence).
      rewrite Hb. cbn [andb]. exact HI.
  - unfold sent_seq, recv_seq, queue_seq in *. cbn [sent recvd chans fst snd filter].
    unfold chan_upd. destruct (Nat.eqb_spec c0 c) as [->|Hne].
    + rewrite Nat.eqb_refl. cbn [andb]. rewrite Hq in HI. cbn [filter fst] in HI.
      destruct (Nat.eqb_spec from from0) as [->|Hnf].
      * cbn [map rev snd fst]. cbn [map snd] in HI. rewrite HI. rewrite <- app_assoc. reflexivity.
      * exact HI.
    + assert (Hb : Nat.eqb c c0 = false) by (apply Nat.eqb_neq; congruence).
      rewrite Hb. cbn [andb]. exact HI.
Qed.

Lemma fifo_sh0 : fifo_inv sh0.
Proof. intros c from. reflexivity. Qed.

Lemma fifo_run : forall cfg sched w, fifo_inv (sh w) -> fifo_inv (sh (run cfg sched w)).
Proof.
  intros cfg sched w H. unfold run.
  apply (invariant_run world (wstep cfg) (fun w => fifo_inv (sh w))); auto.
  intros t s s' Hs Hstep. eapply fifo_step; eauto. eapply step_sh; eauto.
Qed.

