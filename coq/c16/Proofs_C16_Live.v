(* C16: under weak fairness every stop-the-world section of the repaired handshake ends (scripts that spawn included:
   threads are started and registered under the heap guard, which a section holds).  The stopper waits in one place
   only, for the thread under its index to publish itself.  Variant: (D+1) * (stopper's remaining protocol steps) + (steps
   that thread, registered and hence flagged, has left before it is parked / blocked published; at most D). *)
From Coq Require Import List Arith Lia Bool.
Import ListNotations.
From SV Require Import c15.Conc c15.Model_C15 c15.Proofs_C15_Base c15.Proofs_C15_Step c15.Proofs_C15_Inv c15.Proofs_C15_Excl
  c16.Model_C16 c16.Proofs_C16.

Definition no_spawn (w : world) : Prop := forall t, existsb is_spawn (prog (th w t)) = false.

Lemma existsb_tl : forall (l : list act), existsb is_spawn l = false -> existsb is_spawn (tl l) = false.
Proof. intros [|a r] H; simpl in *; auto. apply orb_false_iff in H. tauto. Qed.

Lemma no_spawn_step : forall t w w', no_spawn w -> wstep cfg_fixed t w = Some w' -> no_spawn w'.
Proof.
  intros t w w' Hns H u. specialize (Hns u). destruct (Nat.eq_dec u t) as [->|Hne].
  - destruct (own_step t w w' H) as (_ & [->|[_ ->]] & _); auto using existsb_tl.
  - destruct (step_other _ _ _ _ u H Hne) as (f & T & ->). now rewrite (proj1 (touch_frame _ _ _ _ _ T)).
Qed.

Lemma frame_step : forall t w w' u h, Inv w -> heap w = Some h -> t <> h -> wstep cfg_fixed t w = Some w' ->
  u <> t -> th w' u = th w u.
Proof.
  exact guarded_frame.
Qed.

Lemma step_in_range : forall cfg t w w', wstep cfg t w = Some w' -> t < nthreads w.
Proof.
  exact wstep_lt.
Qed.

Lemma nonstw_step_keeps : forall t w w' h, Inv w -> heap w = Some h -> t <> h -> wstep cfg_fixed t w = Some w' ->
  paused (th w' t) = paused (th w t) /\ reg (th w' t) = reg (th w t).
Proof.
  exact guarded_keeps.
Qed.

Definition D : nat := 6.
(* upper bound on the number of own steps a thread whose pause flag is set can still take before it is
   parked / blocked inside a primitive / finished *)
Definition dist (x : thd) : nat :=
  match pc x with
  | Run => 2 | PollSeenPaused => 1 | PollExitChecked => 6 | Exec => 5
  | SpPub => 4 | SpJoin => 3 | SpExitChecked => 3 | _ => 0
  end.
(* an upper bound on the stopper's own steps from position s to the end of the section with n threads
   (base1, base2: the bound at the start of the first, the second pass) *)
Definition rank (n : nat) (s : spc) : nat :=
  let base2 := n + 3 in
  let base1 := base2 + 2 * n + 4 in
  match s with
  | SResume k => n - k + 1
  | SResumeLock => n + 2
  | SOwnResume => base2
  | SWait p k => (if p =? 1 then base1 else base2) + 2 * (n - k) + 2
  | SAccess p k => (if p =? 1 then base1 else base2) + 2 * (n - S k) + 3
  | SWaitLock p => (if p =? 1 then base1 else base2) + 2 * n + 3
  | SThunk => base1
  | SSetFlag k => base1 + 2 * n + 4 + (n - k)
  | SStopLock => base1 + 3 * n + 5
  | SOwnFlag => base1 + 3 * n + 6
  end.

Definition rk (h : tid) (w : world) : nat :=
  match pc (th w h) with Stw s => rank (nthreads w) s | _ => 0 end.
(* is u the registered thread the stopper is looking at in one of its passes? *)
Definition waits (h : tid) (w : world) (u : tid) : bool :=
  match pc (th w h) with Stw (SWait _ k) => (k =? u) && reg (th w u) | _ => false end.
(* the steps that thread still has to take before it is parked or blocked inside a primitive *)
Definition waited (h : tid) (w : world) : nat :=
  match pc (th w h) with Stw (SWait _ k) => if reg (th w k) then dist (th w k) else 0 | _ => 0 end.
Definition M (h : tid) (w : world) : nat := (D + 1) * rk h w + waited h w.

Lemma waited_le : forall h w, waited h w <= D.
Proof.
  intros h w. unfold waited, dist, D. destruct (pc (th w h)); try lia. destruct s; try lia.
  destruct (reg (th w k)); [destruct (pc (th w k)); lia | lia].
Qed.

Lemma stopper_step_rank : forall h w w' s s', pc (th w h) = Stw s -> wstep cfg_fixed h w = Some w' ->
  pc (th w' h) = Stw s' -> rank (nthreads w) s' < rank (nthreads w) s.
Proof.
  intros h w w' s s' Ept H Hpc. destruct (stw_step_spec _ _ _ _ _ Ept H) as (Hn & _). rewrite Hn in Hpc.
  destruct s; cbn [stw_next] in Hpc;
    repeat match type of Hpc with context [if ?b then _ else _] => destruct b eqn:? end;
    try discriminate Hpc; injection Hpc as <-.
  all: repeat match goal with E : (_ <? _) = true |- _ => apply Nat.ltb_lt in E | E : (_ <? _) = false |- _ => apply Nat.ltb_ge in E end.
  all: unfold rank; cbv zeta; cbn [Nat.eqb]; repeat match goal with |- context [if ?b then _ else _] => destruct b end; lia.
Qed.

Lemma is_stw_inv : forall p, is_stw p = true -> exists s, p = Stw s.
Proof. intros [] H; try discriminate. eauto. Qed.

Lemma M_stopper_step : forall h w w',
  is_stw (pc (th w h)) = true -> wstep cfg_fixed h w = Some w' -> is_stw (pc (th w' h)) = true ->
  M h w' < M h w.
Proof.
  intros h w w' Ha H Ha'.
  destruct (is_stw_inv _ Ha) as [s Es]. destruct (is_stw_inv _ Ha') as [s' Es'].
  pose proof (stopper_step_rank h w w' s s' Es H Es') as Hr. pose proof (waited_le h w').
  unfold M, rk. rewrite Es, Es', (nthreads_step _ _ _ _ H). unfold D in *. lia.
Qed.

Lemma dist_step : forall u h w w', Inv w -> heap w = Some h -> u <> h ->
  paused (th w u) = true -> wstep cfg_fixed u w = Some w' -> dist (th w' u) < dist (th w u).
Proof.
  intros u h w w' HI Hh Hne Hp H.
  pose proof (I_nolock w HI u) as Hnl. pose proof (not_holder w u h HI Hh Hne) as Hnh. unfold holds_heap in Hnh.
  destruct (own_step u w w' H) as (He & _ & _ & _ & Hen). destruct (Hen Hp) as (H1 & H2 & H3).
  unfold dist. destruct (pc (th w u)); try discriminate; try congruence.
  all: destruct (pc (th w' u)); try discriminate He; try (now elim H3); cbn; try lia.
  all: destruct (head (th w u)); discriminate.
Qed.

(* a step of another thread: the stopper stays where it is; the thread it is looking at - flagged, since the flag pass
   is over - comes closer to its safepoint, any other leaves the measure as it was *)
Lemma M_other_step : forall u h w w', Inv w -> Flagged w -> is_stw (pc (th w h)) = true -> u <> h ->
  wstep cfg_fixed u w = Some w' ->
  th w' h = th w h /\ (forall t, t <> u -> th w' t = th w t) /\ reg (th w' u) = reg (th w u) /\
  (if waits h w u then M h w' < M h w else M h w' = M h w).
Proof.
  intros u h w w' HI HF Ha Hne H.
  destruct (is_stw_inv _ Ha) as [s Es].
  assert (Hh : heap w = Some h) by (eapply stw_holds_heap; eauto).
  assert (Hfr : forall t, t <> u -> th w' t = th w t) by (intros; eapply (frame_step u w w' t h); eauto).
  destruct (nonstw_step_keeps u w w' h HI Hh Hne H) as [_ Hr].
  assert (Ehh : th w' h = th w h) by (apply Hfr; auto).
  split; [exact Ehh|]. split; [exact Hfr|]. split; [exact Hr|].
  unfold M, rk, waits, waited. rewrite Ehh, (nthreads_step _ _ _ _ H), Es.
  destruct s; try reflexivity. destruct (Nat.eqb_spec k u) as [->|Hk]; [|now rewrite (Hfr k Hk)].
  rewrite Hr. cbn [andb]. destruct (reg (th w u)) eqn:Eru; [|reflexivity].
  pose proof (dist_step u h w w' HI Hh Hne (HF h _ Es u Hne Eru) H). lia.
Qed.

Lemma blocked_not_enabled : forall w h s k, pc (th w h) = Stw s -> blocked_on w h s k ->
  wstep cfg_fixed h w = None.
Proof.
  intros w h s k E [[p ->] [Hk [Hr [Hne [Hd Hp]]]]].
  unfold wstep. destruct (h <? nthreads w); [|reflexivity]. cbv zeta. rewrite E. unfold stw_step. cbv zeta.
  apply Nat.ltb_lt in Hk. rewrite Hk, Hr, Hd, Hp. apply Nat.eqb_neq in Hne. rewrite Hne. reflexivity.
Qed.

Section Live.
  Variable h : tid.
  Variable n : nat.

  Definition LInv (w : world) : Prop := Inv w /\ Flagged w /\ nthreads w = n.
  Definition Active (w : world) : Prop := is_stw (pc (th w h)) = true.
  Definition helpful (t : tid) (w : world) : Prop :=
    (t = h /\ exists w', wstep cfg_fixed h w = Some w') \/
    (t <> h /\ waits h w t = true /\ is_done (pc (th w t)) = false /\ published (pc (th w t)) = false).

  Lemma LInv_step : forall t w w', LInv w -> wstep cfg_fixed t w = Some w' -> LInv w'.
  Proof.
    intros t w w' (HI & HF & Hn) H. split; [|split].
    - eapply Inv_step; eauto.
    - eapply Flagged_step; eauto.
    - rewrite <- Hn. eapply nthreads_step; eauto.
  Qed.

  Lemma active_dec : forall w, Active w \/ ~ Active w.
  Proof. intros w. unfold Active. destruct (is_stw (pc (th w h))); auto. Qed.

  Lemma step_measure : forall t w w', LInv w -> Active w -> wstep cfg_fixed t w = Some w' -> Active w' ->
    (if Nat.eqb t h || waits h w t then M h w' < M h w else M h w' = M h w).
  Proof.
    intros t w w' (HI & HF & Hn) Ha H Ha'.
    destruct (Nat.eqb_spec t h) as [->|Hne]; simpl.
    - apply M_stopper_step; auto.
    - apply (M_other_step t h w w' HI HF Ha Hne H).
  Qed.

  Lemma non_increase : forall t w w', LInv w -> Active w -> wstep cfg_fixed t w = Some w' -> Active w' ->
    M h w' <= M h w.
  Proof.
    intros t w w' HL Ha H Ha'. pose proof (step_measure t w w' HL Ha H Ha') as Hm.
    destruct (Nat.eqb t h || waits h w t); lia.
  Qed.

  Lemma some_helpful : forall w, LInv w -> Active w -> exists t, t < n /\ helpful t w.
  Proof.
    intros w (HI & HF & Hn) Ha. destruct (is_stw_inv _ Ha) as [s Es].
    destruct (stopper_progress w h s HI Es) as [He | [k Hb]].
    - exists h. split; [|left; auto].
      rewrite <- Hn. apply in_range_of_pc. rewrite Es. discriminate.
    - exists k. rewrite <- Hn. destruct Hb as [[p ->] [Hk [Hr [Hne [Hd Hp]]]]]. split; [exact Hk|]. right.
      unfold waits. now rewrite Es, Nat.eqb_refl, Hr.
  Qed.

  Lemma waits_reg : forall w t, waits h w t = true -> reg (th w t) = true.
  Proof.
    intros w t. unfold waits. destruct (pc (th w h)); try discriminate. destruct s; try discriminate.
    intro E. now apply andb_true_iff in E.
  Qed.

  Lemma helpful_step : forall t w, LInv w -> Active w -> helpful t w ->
    exists w', wstep cfg_fixed t w = Some w' /\ (Active w' -> M h w' < M h w).
  Proof.
    intros t w HL Ha [[-> [w' He]] | (Hne & Hw & Hd & Hpub)].
    - exists w'. split; auto. intro Ha'. pose proof (step_measure h w w' HL Ha He Ha') as Hm.
      rewrite Nat.eqb_refl in Hm. exact Hm.
    - destruct (is_stw_inv _ Ha) as [s Es].
      assert (Hh : heap w = Some h) by (eapply stw_holds_heap; eauto; apply HL).
      destruct (unpublished_enabled w t h (proj1 HL) Hh Hne (waits_reg w t Hw) Hd Hpub) as [w' He].
      exists w'. split; auto. intro Ha'.
      pose proof (step_measure t w w' HL Ha He Ha') as Hm.
      rewrite Hw, orb_true_r in Hm. exact Hm.
  Qed.

  Lemma helpful_stable : forall t u w w', LInv w -> Active w -> helpful t w ->
    wstep cfg_fixed u w = Some w' -> Active w' -> M h w' = M h w -> helpful t w'.
  Proof.
    intros t u w w' HL Ha Hh H Ha' HM.
    pose proof (step_measure u w w' HL Ha H Ha') as Hm.
    destruct (Nat.eqb_spec u h) as [->|Hune]; simpl in Hm; [lia|].
    destruct (waits h w u) eqn:Ewu; [lia|].
    destruct (LInv_step u w w' HL H) as (HI' & _). destruct HL as (HI & HF & Hn). destruct (is_stw_inv _ Ha) as [s Es].
    destruct (M_other_step u h w w' HI HF Ha Hune H) as (Ehh & Hfr & Hr & _).
    assert (Es' : pc (th w' h) = Stw s) by now rewrite Ehh.
    destruct Hh as [[-> [w1 He]] | (Hne & Hw & Hd & Hpub)].
    - (* the stopper was enabled: were it now waiting for k, it waited for k before (k has not moved: it is not u) *)
      left. split; auto.
      destruct (stopper_progress w' h s HI' Es') as [He' | [k Hb]]; auto. exfalso.
      destruct Hb as [[p ->] [Hk [Hrk [Hne [Hd Hp]]]]].
      destruct (Nat.eq_dec k u) as [->|Hku].
      + unfold waits in Ewu. rewrite Es, Nat.eqb_refl, <- Hr, Hrk in Ewu. discriminate.
      + rewrite (Hfr k Hku) in *.
        assert (Hbw : blocked_on w h (SWait p k) k).
        { unfold blocked_on. rewrite <- (nthreads_step _ _ _ _ H). repeat split; eauto. }
        rewrite (blocked_not_enabled w h _ k Es Hbw) in He. discriminate.
    - right. assert (Htu : t <> u) by (intro; subst; congruence).
      unfold waits in *. rewrite Ehh, (Hfr t Htu). auto.
  Qed.

  Theorem stop_terminates_from : forall w f, LInv w -> fair n f ->
    exists k, ~ Active (Conc.run_stream world (wstep cfg_fixed) f k w).
  Proof.
    intros w f HL Hf.
    eapply (variant_terminates world (wstep cfg_fixed) LInv Active (M h) n helpful
              active_dec LInv_step non_increase some_helpful helpful_step helpful_stable (M h w)); auto.
  Qed.
End Live.

Lemma nth_map_prog : forall progs b t, prog (nth t (map (mk_thd b) progs) dflt) = nth t progs [].
Proof.
  induction progs as [|p r IH]; intros b [|t]; simpl; auto.
Qed.

Lemma no_spawn_init_all : forall progs, no_spawn_progs progs = true -> no_spawn (init_all progs).
Proof.
  intros progs H t. unfold th, init_all. cbn [ths]. rewrite nth_map_prog.
  unfold no_spawn_progs in H. rewrite forallb_forall in H.
  destruct (lt_dec t (length progs)) as [L|L].
  - specialize (H (nth t progs []) (nth_In _ _ L)). now apply negb_true_iff in H.
  - rewrite nth_overflow by lia. reflexivity.
Qed.

Lemma Flagged_init_all : forall progs, Flagged (init_all progs).
Proof.
  intros progs h s E. destruct (init_thd_pc _ (init_all_threads progs h)) as [A|[A|A]]; congruence.
Qed.

Lemma LInv_run : forall n sched w, LInv n w -> LInv n (run cfg_fixed sched w).
Proof.
  intros n sched w H. unfold run. apply (invariant_run world (wstep cfg_fixed) (LInv n)); auto.
  intros. eapply LInv_step; eauto.
Qed.

Lemma stop_terminates_run : forall n w0 sched h f, LInv n w0 ->
  let w := run cfg_fixed sched w0 in
  fair n f -> exists k, is_stw (pc (th (run_stream cfg_fixed f k w) h)) = false.
Proof.
  intros n w0 sched h f HL w Hf.
  destruct (stop_terminates_from h n w f (LInv_run n sched w0 HL) Hf) as [k Hk].
  exists k. unfold Active in Hk. unfold run_stream.
  destruct (is_stw (pc (th (Conc.run_stream world (wstep cfg_fixed) f k w) h))); auto. now elim Hk.
Qed.

Lemma LInv_init_all : forall progs, LInv (length progs) (init_all progs).
Proof.
  intros progs. split; [apply Inv_init_all|]. split; [apply Flagged_init_all|].
  unfold nthreads, init_all. cbn [ths]. apply map_length.
Qed.

Lemma LInv_init : forall progs, LInv (length progs) (init progs).
Proof.
  intros progs. destruct (Big_init progs) as (HI & HF & _). split; [exact HI|]. split; [exact HF|].
  destruct progs; unfold nthreads, init; cbn [ths]; simpl; auto. now rewrite map_length.
Qed.

Lemma rr3_fair : fair 3 rr3.
Proof.
  intros t k Ht. exists (3 * k + t). split; [lia|]. unfold rr3.
  rewrite Nat.add_comm, Nat.mul_comm, Nat.mod_add by lia. apply Nat.mod_small. exact Ht.
Qed.
