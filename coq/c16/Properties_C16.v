(* C16 — the property theorems (Pins_C16.v, compiled on every run, checks each statement again). *)
From Coq Require Import List Arith Bool.
From SV Require Import c15.Proofs_C15_Inv.
From SV Require Import c15.Conc c15.Model_C15 c16.Model_C16 c16.Proofs_C16 c16.Proofs_C16_Data c16.Proofs_C16_Live gen.Gen_C16.
Import ListNotations.

(* For every number of threads, every script and every schedule of the repaired handshake: if some
   thread is neither finished nor blocked by the script's own logic, some step is enabled. *)
Theorem C16_no_runtime_deadlock : forall progs sched,
  let w := run cfg_fixed sched (init progs) in
  (exists i, live (th w i) = true /\ script_blocked w i = false) ->
  exists t w', wstep cfg_fixed t w = Some w'.
Proof. intros progs sched w H. apply enabled_if_live; auto. apply Inv_run. apply Inv_init. Qed.

Theorem C16_no_runtime_deadlock_all_started : forall progs sched,
  let w := run cfg_fixed sched (init_all progs) in
  (exists i, live (th w i) = true /\ script_blocked w i = false) ->
  exists t w', wstep cfg_fixed t w = Some w'.
Proof. intros progs sched w H. apply enabled_if_live; auto. apply Inv_run. apply Inv_init_all. Qed.

(* The code as it was: two concurrent global updates deadlock (F18) ... *)
Theorem C16_deadlock_refuted_global_update :
  deadlocked cfg_old (run cfg_old f18_sched (init_all f18_progs)).
Proof.
  split.
  - intros [|[|t]]; vm_compute; reflexivity.
  - exists 0. vm_compute. auto.
Qed.

(* ... and so do a collection and a native-code box allocation, even with the guard kept (F23). *)
Theorem C16_deadlock_refuted_native_box :
  deadlocked cfg_guard_only (run cfg_guard_only f23_sched (init_all f23_progs)).
Proof.
  split.
  - intros [|[|t]]; vm_compute; reflexivity.
  - exists 0. vm_compute. auto.
Qed.

(* non-vacuity: under the repaired handshake the same two scripts run to completion *)
Example C16_repaired_f18_completes :
  all_done (run cfg_fixed (f18_sched ++ rounds 80) (init_all f18_progs)) = true.
Proof. vm_compute. reflexivity. Qed.
Example C16_repaired_f23_completes :
  all_done (run cfg_fixed (f23_sched ++ rounds 80) (init_all f23_progs)) = true.
Proof. vm_compute. reflexivity. Qed.

(* Channels (any lock discipline, any schedule): what has been received from a sender on a channel, followed
   by what is still queued from it, is exactly what it sent, in order — every value at most once, none lost. *)
Theorem C16_channel_fifo_per_sender : forall cfg progs sched c from,
  let s := sh (run cfg sched (init progs)) in
  sent_seq s c from = recv_seq s c from ++ queue_seq s c from.
Proof. intros. apply fifo_run. apply fifo_sh0. Qed.

(* Liveness.  Fairness: an infinite schedule f : nat -> tid in which every thread id below the thread count occurs
   infinitely often (Conc.fair); a scheduled thread that has no enabled step is skipped, so this is weak fairness of
   the system.  For every number of threads, every spawn-free script (a hypothesis the proof does not use, see
   C16_stop_terminates_spawning), every reachable world in which thread h is inside a stop-the-world section, and
   every fair schedule, the section ends.  Variant: 7 * (remaining protocol steps of the stopper) + (steps the
   registered thread under the stopper's index has left before it is parked or blocked published; at most 6). *)
Theorem C16_stop_terminates : forall progs sched h f,
  no_spawn_progs progs = true ->
  let w := run cfg_fixed sched (init_all progs) in
  is_stw (pc (th w h)) = true ->
  fair (length progs) f ->
  exists k, is_stw (pc (th (run_stream cfg_fixed f k w) h)) = false.
Proof. intros progs sched h f _ w _. exact (stop_terminates_run _ _ sched h f (LInv_init_all progs)). Qed.

Example C16_stop_terminates_nonvacuous :
  fair 3 rr3 /\ no_spawn_progs live_progs = true /\
  is_stw (pc (th (run cfg_fixed live_sched (init_all live_progs)) 0)) = true /\
  is_stw (pc (th (run_stream cfg_fixed rr3 60 (run cfg_fixed live_sched (init_all live_progs))) 0)) = false.
Proof. split; [exact rr3_fair | vm_compute; auto]. Qed.

(* With thread creation under the heap guard the set of registered threads cannot change during a section, and the
   same variant works for scripts that spawn: for every number of threads, EVERY script, every world reachable from
   the real initial world (only the main thread started) in which thread h is inside a stop-the-world section, and
   every fair schedule, the section ends. *)
Theorem C16_stop_terminates_spawning : forall progs sched h f,
  let w := run cfg_fixed sched (init progs) in
  is_stw (pc (th w h)) = true ->
  fair (length progs) f ->
  exists k, is_stw (pc (th (run_stream cfg_fixed f k w) h)) = false.
Proof. intros progs sched h f w _. exact (stop_terminates_run _ _ sched h f (LInv_init progs)). Qed.

Example C16_stop_terminates_spawning_nonvacuous :
  fair 3 rr3 /\
  (let w := run cfg_fixed spawning_sched (init spawning_progs) in
   pc (th w 0) = Stw SStopLock /\ reg (th w 1) = true /\ pc (th w 2) = NotStarted /\
   is_stw (pc (th (run_stream cfg_fixed rr3 75 w) 0)) = false /\
   (let w' := run_stream cfg_fixed rr3 120 w in pc (th w' 0) = Done /\ pc (th w' 1) = Done /\ pc (th w' 2) = Done)).
Proof. split; [exact rr3_fair | vm_compute; auto 10]. Qed.

(* Under cfg_pre_spawn_fix (spawn_locked = false, the tree before 56291059) a section need not end when a script
   spawns: a thread registered after stop_threads has passed is never flagged, and the stopper stays blocked for as
   long as that thread runs without entering a safepoint.  With spawn_locked no registration falls inside a section
   (C15_no_unregistered_runner_during_section). *)
Theorem C16_stop_delayed_by_late_registration :
  let w := run cfg_pre_spawn_fix late_sched (init late_progs) in
  pc (th w 2) = Stw (SWait 1 1) /\ reg (th w 1) = true /\ paused (th w 1) = false /\
  wstep cfg_pre_spawn_fix 2 w = None /\
  wstep cfg_pre_spawn_fix 2 (run cfg_pre_spawn_fix (repeat 1 20) w) = None /\ prog (th (run cfg_pre_spawn_fix (repeat 1 20) w) 1) <> [].
Proof. cbv zeta. repeat split; try (vm_compute; reflexivity). vm_compute. discriminate. Qed.

(* Join handles (any lock discipline, any number of threads and joins, any schedule): a thread's result is delivered
   at most once, only after that thread finished, only to a thread that took the handle; while a joiner waits nobody
   else waits for or has received the same result. *)
Theorem C16_join_once : forall cfg progs sched,
  let w := run cfg sched (init progs) in
  NoDup (map snd (deliv (sh w))) /\
  (forall joiner j, In (joiner, j) (deliv (sh w)) -> pc (th w j) = Done /\ In j (taken (sh w))) /\
  (forall u j, pc (th w u) = SpJoin -> head (th w u) = AJoin j ->
     ~ In j (map snd (deliv (sh w))) /\ forall u', pc (th w u') = SpJoin -> head (th w u') = AJoin j -> u' = u).
Proof.
  intros cfg progs sched w. assert (HJ : JInv w) by (apply JInv_run; apply JInv_init).
  destruct HJ as [Hnd Htk Hdn Hpd]. split; auto. split.
  - intros joiner j Hin. split; [exact (Hdn _ Hin) | exact (Htk _ Hin)].
  - intros u j E1 E2. destruct (Hpd u j (conj E1 E2)) as (_ & B & C). split; auto.
    intros u' E1' E2'. apply C. split; auto.
Qed.

(* once the joined thread has finished, the delivery step is enabled *)
Theorem C16_join_delivery_enabled : forall cfg w u j, u < nthreads w -> pc (th w u) = SpJoin -> head (th w u) = AJoin j ->
  pc (th w j) = Done -> exists w', wstep cfg u w = Some w' /\ deliv (sh w') = (u, j) :: deliv (sh w).
Proof.
  intros cfg w u j Hlt E1 E2 Hd. unfold wstep. apply Nat.ltb_lt in Hlt. rewrite Hlt. cbv zeta.
  rewrite E1, E2, Hd. simpl. eexists. split; reflexivity.
Qed.

(* generated facts (coq/gen/Gen_C16.v, regenerated from /repo on every run): the lock discipline the
   source has is the one the theorems above are about, and every heap-lock acquisition / blocking
   built-in reachable from a script thread is inside a safepoint *)
Theorem C16_source_config_is_fixed : gen_config = cfg_fixed.
Proof. exact gen_config_is_fixed. Qed.
Theorem C16_every_region_published : regions_ok = true.
Proof. exact regions_all_ok. Qed.
