(* Facts about lists that several properties need and Coq 8.16's List lacks (standard library imports only).
   upd_nth, eqb_list, nodup_by take type and test as section variables, hence outside the [fix]: that makes them
   convertible with the models' monomorphic copies; their lemmas apply to those by [exact] / [apply] ([rewrite] needs the type: [(A:=T)]). *)
Require Import List Arith Bool Lia.
Import ListNotations.

Lemma Forall2_length : forall A B (R : A -> B -> Prop) l1 l2, Forall2 R l1 l2 -> length l1 = length l2.
Proof. induction 1; simpl; auto. Qed.

Lemma Forall2_firstn : forall A B (R : A -> B -> Prop) k l1 l2, Forall2 R l1 l2 -> Forall2 R (firstn k l1) (firstn k l2).
Proof. induction k; intros; simpl; [constructor|]. destruct H; constructor; auto. Qed.

Lemma Forall2_skipn : forall A B (R : A -> B -> Prop) k l1 l2, Forall2 R l1 l2 -> Forall2 R (skipn k l1) (skipn k l2).
Proof. induction k; intros; simpl; auto. destruct H; auto. Qed.

Lemma Forall2_nth_error : forall A B (R : A -> B -> Prop) l1 l2, Forall2 R l1 l2 -> forall a,
  match nth_error l1 a, nth_error l2 a with
  | Some x, Some y => R x y
  | None, None => True
  | _, _ => False
  end.
Proof. induction 1; intros [|a]; simpl; auto. apply IHForall2. Qed.

Lemma Forall2_nth : forall A B (R : A -> B -> Prop) l1 l2 da db j,
  Forall2 R l1 l2 -> j < length l1 -> R (nth j l1 da) (nth j l2 db).
Proof.
  intros A B R l1 l2 da db j H; revert j; induction H; intros [|j] Hj; simpl in *; auto; try (inversion Hj; fail).
  apply IHForall2, Nat.succ_lt_mono, Hj.
Qed.

Lemma firstn_app_exact : forall A (a b : list A), firstn (length a) (a ++ b) = a.
Proof. induction a; simpl; intros; auto. f_equal; auto. Qed.

Lemma skipn_app_exact : forall A (a b : list A), skipn (length a) (a ++ b) = b.
Proof. induction a; simpl; intros; auto. Qed.

Lemma nth_error_skipn : forall A n (l : list A) j, nth_error (skipn n l) j = nth_error l (n + j).
Proof. induction n; destruct l; simpl; intros; auto. destruct j; auto. Qed.

Lemma NoDup_app_intro : forall A (l1 l2 : list A),
  NoDup l1 -> NoDup l2 -> (forall x, In x l1 -> In x l2 -> False) -> NoDup (l1 ++ l2).
Proof.
  intros A l1 l2 N1 N2 D. induction N1 as [|x l H N IH]; simpl; [exact N2|].
  constructor.
  - rewrite in_app_iff. intros [K|K]; [contradiction | apply (D x); [left; reflexivity | exact K]].
  - apply IH. intros y Hy. apply D. right. exact Hy.
Qed.

Lemma NoDup_app_inv : forall A (l1 l2 : list A), NoDup (l1 ++ l2) ->
  NoDup l1 /\ NoDup l2 /\ forall x, In x l1 -> In x l2 -> False.
Proof.
  induction l1 as [|a l1 IH]; cbn; intros l2 H; [split; [constructor|split; [exact H|intros x []]]|].
  inversion H; subst. destruct (IH l2 H3) as [N1 [N2 D]]. split; [|split; [exact N2|]].
  - constructor; [intro; apply H2; apply in_or_app; auto|exact N1].
  - intros x [->|H1] Hx; [apply H2; apply in_or_app; auto|eauto].
Qed.

Lemma fold_left_inv : forall A B (P : A -> Prop) (f : A -> B -> A),
  (forall a b, P a -> P (f a b)) -> forall l a, P a -> P (fold_left f l a).
Proof. intros A B P f H. induction l as [|b l IH]; intros a Ha; simpl; [exact Ha | apply IH, H, Ha]. Qed.

Lemma filter_incl_mono : forall A (p : A -> bool) l m, incl l m -> incl (filter p l) (filter p m).
Proof. intros A p l m Hi x Hx. apply filter_In in Hx as [Hx Hf]. apply filter_In. split; [apply Hi; exact Hx | exact Hf]. Qed.

Lemma incl_flat_map : forall A B (f : A -> list B) l1 l2, incl l1 l2 -> incl (flat_map f l1) (flat_map f l2).
Proof.
  intros A B f l1 l2 H y Hy. apply in_flat_map in Hy as [x [Hx Hy]]. apply in_flat_map. exists x. split; [apply H, Hx | exact Hy].
Qed.

Lemma option_map_Some : forall A B (f : A -> B) o r, option_map f o = Some r -> exists a, o = Some a /\ r = f a.
Proof. intros A B f [a|] r H; [|discriminate]. injection H as <-. exists a. split; reflexivity. Qed.

(* Boolean membership where a model writes it [existsb (eqb x) l] for its own [eqb] (Bytecode.memb and CoreS.memb_s are
   fixpoints of their own, not instances). *)

Section Mem.
  Context {A : Type} (eqb : A -> A -> bool) (eqb_eq : forall x y, eqb x y = true <-> x = y).

  Lemma existsb_eqb_In : forall x l, existsb (eqb x) l = true <-> In x l.
  Proof.
    intros x l. rewrite existsb_exists. split.
    - intros (y & Hy & E). apply eqb_eq in E. subst. exact Hy.
    - intros H. exists x. split; [exact H|apply eqb_eq; reflexivity].
  Qed.

  Lemma existsb_eqb_notIn : forall x l, existsb (eqb x) l = false <-> ~ In x l.
  Proof. intros x l. rewrite <- existsb_eqb_In. destruct (existsb (eqb x) l); split; congruence. Qed.

  (* the duplicate-freeness test the models write over their own membership test *)
  Fixpoint nodup_by (l : list A) : bool :=
    match l with [] => true | x :: r => negb (existsb (eqb x) r) && nodup_by r end.

  Lemma nodup_by_NoDup : forall l, nodup_by l = true -> NoDup l.
  Proof.
    induction l as [|x r IH]; simpl; intros H; constructor; apply andb_prop in H as [H1 H2]; auto.
    apply existsb_eqb_notIn, negb_true_iff, H1.
  Qed.
End Mem.

(* The models write this test once per element type (nats_eqb, zs_eqb, nat_list_eqb, text_eqb, sites_eqb). *)

Section EqbList.
  Context {A : Type} (eqb : A -> A -> bool) (eqb_eq : forall x y, eqb x y = true <-> x = y).

  Fixpoint eqb_list (l r : list A) : bool :=
    match l, r with
    | [], [] => true
    | x :: l', y :: r' => eqb x y && eqb_list l' r'
    | _, _ => false
    end.

  Lemma eqb_list_eq : forall l r, eqb_list l r = true <-> l = r.
  Proof.
    induction l as [|x l IH]; intros [|y r]; simpl; split; intros H; try discriminate; try reflexivity.
    - apply andb_true_iff in H as [H1 H2]. apply eqb_eq in H1. apply IH in H2. subst. reflexivity.
    - inversion H; subst. apply andb_true_iff. split; [apply eqb_eq|apply IH]; reflexivity.
  Qed.
End EqbList.

(* Convertible with supdate, bupdate, lupdate, mupdate and Model_C04.set_nth; not with the polymorphic copies
   (Bytecode.set_nth and its like take the type inside the fixpoint). *)

Section SetNth.
  Variable A : Type.

  Fixpoint upd_nth (n : nat) (v : A) (l : list A) : list A :=
    match l, n with
    | [], _ => []
    | _ :: r, O => v :: r
    | x :: r, S n' => x :: upd_nth n' v r
    end.

  Lemma upd_nth_length : forall i v l, length (upd_nth i v l) = length l.
  Proof. induction i; destruct l; simpl; auto. Qed.

  Lemma upd_nth_same : forall i v l, i < length l -> nth_error (upd_nth i v l) i = Some v.
  Proof. induction i; destruct l; simpl; intros H; auto; try (inversion H; fail). apply IHi, Nat.succ_lt_mono, H. Qed.

  Lemma upd_nth_other : forall i j v l, i <> j -> nth_error (upd_nth i v l) j = nth_error l j.
  Proof. induction i; destruct l, j; simpl; intros; auto; try congruence. Qed.
End SetNth.
Arguments upd_nth {A}.
Arguments upd_nth_length {A}.
Arguments upd_nth_same {A}.
Arguments upd_nth_other {A}.

Lemma Forall2_upd_nth : forall A B (R : A -> B -> Prop) l1 l2, Forall2 R l1 l2 ->
  forall a v w, R v w -> Forall2 R (upd_nth a v l1) (upd_nth a w l2).
Proof. induction 1; intros [|a] v w Hv; simpl; constructor; auto. Qed.

Lemma filter_len_cons : forall {A} (f : A -> bool) x l,
  length (filter f (x :: l)) = (if f x then 1 else 0) + length (filter f l).
Proof. intros. cbn. destruct (f x); reflexivity. Qed.

Lemma filter_nonempty : forall {A} (f : A -> bool) l, 1 <= length (filter f l) <-> exists x, In x l /\ f x = true.
Proof.
  intros A f l. split.
  - destruct (filter f l) as [|x r] eqn:F; [cbn; lia|]. intros _. exists x. apply filter_In. rewrite F. left; reflexivity.
  - intros [x Hx]. apply filter_In in Hx. destruct (filter f l); [contradiction|cbn; lia].
Qed.

Lemma filter_len_le : forall {A} (f : A -> bool) l, length (filter f l) <= length l.
Proof. induction l as [|x l IH]; cbn; auto. destruct (f x); cbn; lia. Qed.

Lemma filter_length_split : forall {A} (p : A -> bool) l,
  length (filter p l) + length (filter (fun x => negb (p x)) l) = length l.
Proof. intros A p l. induction l as [|x r IH]; simpl; [reflexivity|]. destruct (p x); simpl; lia. Qed.

Lemma sum_drop : forall {X} (f f' : X -> nat) l x k, (forall y, f' y <= f y) -> In x l -> f' x + k <= f x ->
  list_sum (map f' l) + k <= list_sum (map f l).
Proof.
  intros X f f' l x k Hle Hin Hx. induction l as [|a l IH]; [destruct Hin|]. simpl. pose proof (Hle a).
  destruct Hin as [->|Hin]; [|specialize (IH Hin); lia].
  enough (list_sum (map f' l) <= list_sum (map f l)) by lia.
  clear IH. induction l as [|b l IH]; simpl; [lia | specialize (Hle b); lia].
Qed.

Lemma option_map_some : forall {A B} (f : A -> B) x, (exists a, x = Some a) -> exists b, option_map f x = Some b.
Proof. intros A B f x [a ->]. exists (f a). reflexivity. Qed.
