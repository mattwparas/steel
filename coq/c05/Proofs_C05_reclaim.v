From Coq Require Import List ZArith Bool Lia Arith.
From SV Require Import c05.Model_C05 c05.Proofs_C05 c05.Proofs_C05_inv c05.Proofs_C05_step c05.Proofs_C05_step2.
Import ListNotations.
Open Scope Z_scope.

Theorem run_Inv12 sched s : Inv s /\ Inv2 s -> Inv (run fixed_cfg sched s) /\ Inv2 (run fixed_cfg sched s).
Proof.
  apply (run_preserves (fun s => Inv s /\ Inv2 s)). intros t s0 s' [I J] Hs. destruct (step_keeps t s0 s' I Hs) as [I' K]. auto.
Qed.

Lemma sumf_all_zero f : forall l, (forall u x, nth_error l u = Some x -> f x = O) -> sumf f l = O.
Proof.
  induction l as [|a r IH]; intros Hall; simpl; auto.
  rewrite (Hall O a eq_refl). rewrite IH; auto. intros u x Hx. apply (Hall (S u) x Hx).
Qed.

Definition quiescent (s : st) : Prop :=
  forall u x, nth_error (thrs s) u = Some x -> pcv x = Idle \/ pcv x = Dead.

(* Reclamation: when no reference is left, no thread is inside an operation and nothing is left in a
   merge queue (i.e. the owner has run its merge after the last enqueue — the hypothesis under which
   the source, quoting the BRC paper, promises reclamation), the value has been destroyed. *)
Theorem reclaim_inv s : Inv s -> Inv2 s -> quiescent s -> sumh (thrs s) = O -> qs s = [] -> freed s = true.
Proof.
  intros I J Q H0 Q0. destruct (freed s) eqn:F; auto. exfalso.
  assert (T0 : sumf tok (thrs s) = O).
  { apply sumf_all_zero. intros u x Hx. unfold tok. destruct (Q u x Hx) as [E|E]; rewrite E; reflexivity. }
  assert (P0 : sumf pf (thrs s) = O).
  { apply sumf_all_zero. intros u x Hx. unfold pf. destruct (Q u x Hx) as [E|E]; rewrite E; reflexivity. }
  pose proof (i_qtok s I F) as QT. rewrite Q0, T0 in QT. simpl in QT.
  destruct (queued (shared s)) eqn:Qd; [discriminate|].
  pose proof (i_pend s I) as PE. rewrite F, P0 in PE.
  pose proof (live_count s I F) as C. rewrite H0 in C.
  unfold dead_word in PE. rewrite Qd in PE.
  destruct (merged (shared s)) eqn:M.
  - rewrite <- C in PE. simpl in PE. discriminate.
  - destruct (owner s) as [o|] eqn:O.
    + destruct (i_bpos s I o O) as [B|[x [Hx U]]].
      * pose proof (j_negq s J F ltac:(simpl in C; lia)). congruence.
      * unfold is_unown in U. destruct (Q o x Hx) as [E|E]; rewrite E in U; discriminate.
    + assert (sumf fd (thrs s) = 0%nat).
      { apply sumf_all_zero. intros u x Hx. unfold fd. destruct (Q u x Hx) as [E|E]; rewrite E; reflexivity. }
      pose proof (j_unown s J F) as U. unfold unowned in U. rewrite O, M in U. specialize (U eq_refl). lia.
Qed.

Theorem reclaim cr regs progs sched : (cr < List.length progs)%nat ->
  let s := run fixed_cfg sched (init cr regs progs) in
  quiescent s -> sumh (thrs s) = O -> qs s = [] -> freed s = true /\ destr s = 1%nat.
Proof.
  intros Hc s Q H0 Q0.
  destruct (run_Inv12 sched _ (conj (init_Inv cr regs progs Hc) (init_Inv2 cr regs progs))) as [I J].
  assert (F : freed s = true) by (apply reclaim_inv; auto).
  split; auto. pose proof (i_once s I) as O1. fold s in O1. rewrite F in O1. exact O1.
Qed.
