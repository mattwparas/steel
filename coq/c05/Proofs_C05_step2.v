From Coq Require Import List ZArith Bool Lia Arith.
From SV Require Import c05.Model_C05 c05.Proofs_C05 c05.Proofs_C05_inv c05.Proofs_C05_step.
Import ListNotations.
Open Scope Z_scope.

Definition preserves (p : pc) : Prop := forall t s s' x,
  Inv s -> nth_error (thrs s) t = Some x -> pcv x = p -> step fixed_cfg t s = Some s' -> keeps s s'.

(* what [step] does once the thread's record is known: that branch of its body, taken from the body
   itself.  Entering [step] through this constant, a proof unfolds the row it is about and never
   has the whole of [step] in a hypothesis *)
Definition thr_step (c : config) (t : tid) (s : st) (x : thr) : option st.
Proof.
  let b := eval cbv delta [step] beta in (step c t s) in
  match b with match _ with Some y => @?f y | None => _ end => exact (f x) end.
Defined.

Lemma step_at c t s x : nth_error (thrs s) t = Some x -> step c t s = thr_step c t s x.
Proof. intros Hx. unfold step. rewrite Hx. reflexivity. Qed.

(* Thread t is at program counter p: open its record (h pr lg ma), so that whatever is said about
   it computes, and Hs becomes the step it takes (the match on p, for the lemmas that treat several
   program counters at once).  Once p is known, T is the thread's clause of tinv and F says that the
   box is allocated (when the program counter is not a quiet one). *)
Ltac open_thr Hx Hp Hs :=
  let p := fresh "p" in
  match type of Hx with _ = Some ?x => destruct x as [h p pr lg ma] end;
  cbn [pcv] in Hp; subst p; rewrite (step_at _ _ _ _ Hx) in Hs.
Ltac clause I Hx Hs T F :=
  cbn [thr_step pcv fixed_cfg c_unq_cas c_fd_unown_first c_fd_guard c_sd_guard c_uwo_guard c_uwn_guard c_mrg_two c_enq_none] in Hs;
  pose proof (i_tinv _ I _ _ Hx) as T; cbn [tinv pcv held] in T;
  try pose proof (not_freed _ _ _ I Hx eq_refl) as F.
Ltac at_pc I Hx Hp Hs T F := open_thr Hx Hp Hs; clause I Hx Hs T F.

(* the step only moves thread t, which is inside an operation *)
Ltac LOC I Hx F Hs :=
  injection Hs as <-; apply (keeps_busy _ _ _ _ I Hx F);
  [reflexivity|cbn [tinv pcv held set_pc set_pc_log]; (assumption || tauto)|cbn [enq_ok pcv set_pc set_pc_log]; auto].

(* the step only moves thread t, between quiet program counters *)
Ltac REST I Hx := apply (keeps_local _ _ _ _ I Hx); [reflexivity|reflexivity|exact Logic.I|exact id].

Ltac split_conds Hs := repeat match type of Hs with
  | context[match owner ?s with _ => _ end] => destruct (owner s) eqn:?
  | context[if ?b then _ else _] => destruct b eqn:?
  end.

(* the step changes the object: write the new state out field by field, for the shape lemmas *)
Ltac result Hs F :=
  injection Hs as <-; rewrite ?acc_nf by exact F; unfold go, go_log, on_thr, w_thrs; simp_st.

Lemma is_owner_true s t : is_owner s t = true -> owner s = Some t.
Proof. unfold is_owner. destruct (owner s); try discriminate. intros E. apply Nat.eqb_eq in E. congruence. Qed.

Lemma step_Inv_local p :
  match p with
  | IncRdOwner | IncLoad | DecRdOwner | DecLoad | DecFastLoad | EnqLoad | MrgLoad _ _
  | UnqRdOwner | UnqOwnRdBiased | UnwRdOwner | UnwNoneLoad | UnwOwnRdBiased
  | CntLoad | CntRdOwner | CntRdBiased | UmRdOwner | UmOwnRdBiased => True
  | _ => False
  end -> preserves p.
Proof.
  intros Hsel t s s' x I Hx Hp Hs. open_thr Hx Hp Hs.
  destruct p; try contradiction; clause I Hx Hs T F.
  - (* IncRdOwner *) destruct (is_owner s t) eqn:O; [apply is_owner_true in O|]; LOC I Hx F Hs.
  - (* IncLoad *) LOC I Hx F Hs.
  - (* DecRdOwner *) destruct (is_owner s t) eqn:O; [apply is_owner_true in O|]; LOC I Hx F Hs.
  - (* DecFastLoad *) LOC I Hx F Hs.
  - (* DecLoad *) LOC I Hx F Hs.
  - (* EnqLoad *) LOC I Hx F Hs.
  - (* UnqRdOwner *) destruct (owner s) as [o|] eqn:O; [destruct (Nat.eqb_spec o t) as [->|]|]; LOC I Hx F Hs.
  - (* UnqOwnRdBiased *) destruct (Z.eqb_spec (biased s) 1); LOC I Hx F Hs.
  - (* UnwRdOwner *) destruct (owner s) as [o|] eqn:O; [destruct (Nat.eqb_spec o t) as [->|]|]; LOC I Hx F Hs.
  - (* UnwNoneLoad *) cbn [andb] in Hs.
    destruct (merged (shared s)) eqn:M, (queued (shared s)) eqn:Q; LOC I Hx F Hs.
  - (* UnwOwnRdBiased *) destruct (Z.eqb_spec (biased s) 1); LOC I Hx F Hs.
  - (* MrgLoad *) LOC I Hx F Hs.
  - (* CntLoad *) destruct (cnt (shared s) =? 0); LOC I Hx F Hs.
  - (* CntRdOwner *) destruct (owner s) as [o|] eqn:O; [destruct (Nat.eqb_spec o t) as [->|]|]; LOC I Hx F Hs.
  - (* CntRdBiased *) LOC I Hx F Hs.
  - (* UmRdOwner *) destruct (owner s) as [o|] eqn:O; [destruct (Nat.eqb_spec o t) as [->|]|]; LOC I Hx F Hs.
  - (* UmOwnRdBiased *) destruct (Z.eqb_spec (biased s) 1); LOC I Hx F Hs.
Qed.

Lemma live_count s : Inv s -> freed s = false ->
  Z.of_nat (sumh (thrs s)) = if merged (shared s) then cnt (shared s) else biased s + cnt (shared s).
Proof. intros I F. pose proof (i_count s I F) as C. rewrite sumh_sumf. fold (H s). destruct (merged (shared s)); lia. Qed.

Lemma cnt_nonneg s : Inv s -> freed s = false -> (merged (shared s) = true \/ owner s = None) -> 0 <= cnt (shared s).
Proof.
  intros I F Hm. pose proof (live_count s I F) as C. destruct (merged (shared s)) eqn:M; [lia|].
  destruct Hm as [Hm|Hm]; [discriminate|]. pose proof (i_onb s I Hm M). lia.
Qed.

Lemma dead_word_false w : (merged w = true -> queued w = false -> cnt w <> 0) -> dead_word w = false.
Proof.
  unfold dead_word. destruct (merged w), (queued w), (Z.eqb_spec (cnt w) 0); auto. intros E. destruct (E eq_refl eq_refl e).
Qed.

Lemma holder_cnt s t x : Inv s -> nth_error (thrs s) t = Some x -> freed s = false ->
  merged (shared s) = true -> Z.of_nat (held x) <= cnt (shared s).
Proof.
  intros I Hx F M. pose proof (live_count s I F) as C. rewrite M, sumh_sumf in C.
  pose proof (sumf_ge held _ _ _ Hx). lia.
Qed.

Lemma token_queued s t x : Inv s -> nth_error (thrs s) t = Some x -> freed s = false ->
  (1 <= tok x)%nat -> queued (shared s) = true.
Proof.
  intros I Hx F Tk. pose proof (i_qtok s I F) as Q. pose proof (sumf_ge tok _ _ _ Hx).
  destruct (queued (shared s)); [reflexivity|lia].
Qed.

Lemma owner_biased s t x : Inv s -> nth_error (thrs s) t = Some x -> owner s = Some t ->
  is_unown x = false -> 1 <= biased s.
Proof. intros I Hx O U. destruct (i_bpos s I t O) as [B|[y [Hy Uy]]]; [exact B|congruence]. Qed.

(* clone and drop, with the enqueue a drop may end in: the steps that write the object *)
Lemma step_Inv_clone_drop p :
  match p with IncFast | IncCas _ | DecFast | DecFastUnown | DecFastCas _ | DecFastFin _ | DecCas _ | DecFin _ _
  | EnqRdOwner | EnqPush _ | EnqCas _ | EnqFin _ => True | _ => False end -> preserves p.
Proof.
  intros Hsel t s s' x I Hx Hp Hs. open_thr Hx Hp Hs.
  destruct p; try contradiction; clause I Hx Hs T F.
  - (* IncFast *) destruct T as [T O].
    pose proof (owner_biased s t _ I Hx O eq_refl) as B.
    result Hs F.
    apply (keeps_biased s t _ _ (biased s + 1) I Hx F O); try reflexivity; try exact id.
    + cbn [held set_pc add_held]. lia.
    + left. lia.
  - (* IncCas *) destruct (word_eqb_spec old (shared s)) as [->|_]; [|LOC I Hx F Hs].
    result Hs F.
    pose proof (holder_cnt s t _ I Hx F) as C. cbn [held] in C.
    apply (keeps_shared _ _ _ _ _ _ _ I Hx F); try reflexivity; try discriminate; auto.
    + cbn [cnt with_cnt held set_pc add_held]. lia.
    + rewrite !dead_word_false; [reflexivity|cbn [cnt merged with_cnt]|]; intros M _; specialize (C M); lia.
    + cbn [cnt queued with_cnt]. intros N _ L. apply N. lia.
  - (* DecFast *) destruct T as [T O].
    pose proof (owner_biased s t _ I Hx O eq_refl) as B.
    result Hs F.
    destruct (Z.ltb_spec 0 (biased s - 1)) as [L|L];
      apply (keeps_biased s t _ _ (biased s - 1) I Hx F O); try reflexivity; try exact id; cbn [held set_pc sub_held]; try lia.
    + right. reflexivity.
    + split; [exact O|cbn [mk biased]; lia].
  - (* DecFastUnown *) destruct T as [O B].
    pose proof (not_merged_owner s t _ I Hx O eq_refl) as M.
    assert (Cr : t = creator s) by (destruct (i_ownerc s I); congruence).
    result Hs F.
    apply (keeps_gen _ _ _ _ _ _ _ _ _ I Hx F); try reflexivity; rewrite ?M; try discriminate; auto.
    cbn [tinv pcv set_pc mk owner biased shared creator]. auto.
  - (* DecFastCas *) destruct T as [O [B [M Cr]]].
    destruct (word_eqb_spec old (shared s)) as [->|_]; [|LOC I Hx F Hs].
    result Hs F.
    apply (keeps_gen _ _ _ _ _ _ _ _ _ I Hx F); try reflexivity; try discriminate; auto;
      try (intros; congruence).
    + rewrite M, B. reflexivity.
    + unfold dead_word. rewrite M. cbn [andb pf pcv set_pc merged cnt queued with_merged]. lia.
  - (* DecFastFin *) cbn [negb orb] in Hs.
    destruct ((cnt new =? 0) && negb (queued new)) eqn:E; injection Hs as <-.
    + apply (free_pending s t _ _ I Hx); try reflexivity. cbn [pf pcv]. rewrite E. reflexivity.
    + apply (keeps_local s t _ _ I Hx); [unfold books; cbn [pf pcv]; rewrite E; reflexivity|reflexivity|exact Logic.I|exact id].
  - (* DecCas *) destruct (word_eqb_spec old (shared s)) as [->|_]; [|LOC I Hx F Hs].
    result Hs F.
    pose proof (holder_cnt s t _ I Hx F) as C. cbn [held] in C.
    set (k := cnt (shared s) - 1).
    set (new := {| cnt := k; merged := merged (shared s); queued := if k <? 0 then true else queued (shared s) |}).
    apply (keeps_shared _ _ _ _ _ _ _ I Hx F);
      try reflexivity; try discriminate; auto; cbn [held tok pf pcv set_pc sub_held cnt merged queued new tinv].
    + lia.
    + destruct (k <? 0), (queued (shared s)); cbn [Bool.eqb negb]; lia.
    + rewrite (dead_word_false (shared s)) by (intros M _; specialize (C M); lia). unfold dead_word. subst new. cbn [merged cnt queued].
      destruct (k <? 0), (queued (shared s)); cbn [Bool.eqb negb]; rewrite ?andb_false_r, ?andb_true_r; lia.
    + intros M. destruct (Z.ltb_spec k 0); [specialize (C M); lia|exact id].
    + intros _ _ N. destruct (Z.ltb_spec k 0); [reflexivity|lia].
  - (* DecFin *) cbn [negb orb] in Hs.
    destruct (negb (Bool.eqb (queued old) (queued new))) eqn:E1.
    + injection Hs as <-.
      assert (F : freed s = false) by (apply (not_freed s t _ I Hx); cbn [quiet tok pcv]; rewrite E1; reflexivity).
      apply (keeps_local s t _ _ I Hx); [unfold books; cbn [tok pf pcv]; rewrite E1; reflexivity|congruence|exact Logic.I|exact id].
    + destruct (merged new && (cnt new =? 0) && negb (queued new)) eqn:E2; injection Hs as <-.
      * apply (free_pending s t _ _ I Hx); try reflexivity. cbn [pf pcv]. rewrite E1, E2. reflexivity.
      * apply (keeps_local s t _ _ I Hx); [unfold books; cbn [tok pf pcv]; rewrite E1, E2; reflexivity|reflexivity|exact Logic.I|exact id].
  - (* EnqRdOwner *) destruct (owner s) as [o|] eqn:O; [|LOC I Hx F Hs].
    replace o with (creator s) in * by (destruct (i_ownerc s I); congruence). LOC I Hx F Hs.
  - (* EnqPush *) subst key.
    destruct (if is_reg s (creator s) then holds_lock s (creator s) QReg else holds_lock s (creator s) QUnreg);
      [injection Hs as <-; exact (keeps_refl s I)|result Hs F].
    apply (keeps_shared _ _ _ _ _ _ _ I Hx F); try reflexivity; try discriminate; auto.
    + cbn [List.length tok pcv set_pc]. lia.
    + intros e [<-|Hin]; auto.
  - (* EnqCas *) destruct (word_eqb_spec old (shared s)) as [->|_]; [|LOC I Hx F Hs].
    result Hs F.
    pose proof (token_queued s t _ I Hx F (le_n 1)) as Q.
    apply (keeps_shared _ _ _ _ _ _ _ I Hx F); try reflexivity; try discriminate; auto.
    + rewrite Q. cbn [tok pcv set_pc queued with_unqueued]. lia.
    + unfold dead_word. rewrite Q. cbn [pf pcv set_pc merged cnt queued with_unqueued negb]. rewrite !andb_true_r, andb_false_r. lia.
    + intros _ J N. pose proof (cnt_nonneg s I F (or_intror (j_enq s J t _ Hx))). cbn [cnt with_unqueued] in N. lia.
  - (* EnqFin *) destruct (merged new && (cnt new =? 0)) eqn:E; injection Hs as <-.
    + apply (free_pending s t _ _ I Hx); try reflexivity. cbn [pf pcv]. rewrite E. reflexivity.
    + apply (keeps_local s t _ _ I Hx); [unfold books; cbn [pf pcv]; rewrite E; reflexivity|reflexivity|exact Logic.I|exact id].
Qed.

Lemma excl_grant s t x g : Inv s -> nth_error (thrs s) t = Some x -> freed s = false ->
  sumh (thrs s) = 1%nat -> books (g x) = books x -> tinv s t (g x) -> (enq_ok s x -> enq_ok s (g x)) ->
  keeps s (excl_check (acc (on_thr t g s))).
Proof.
  intros I Hx F S1 Hb Ht He. rewrite acc_nf by exact F. rewrite excl_ok.
  - apply (keeps_local s t x g I Hx Hb); [congruence|exact Ht|exact He].
  - simp_st. rewrite !sumh_sumf in *. rewrite (sumf_upd_same held _ _ _ _ Hx (books_held _ _ Hb)). exact S1.
Qed.

Lemma step_NoneLoad p : p = UnqNoneLoad \/ p = UmNoneLoad -> preserves p.
Proof.
  intros [->| ->] t s s' x I Hx Hp Hs; at_pc I Hx Hp Hs T F; destruct T as [T O];
    (destruct (Z.eqb_spec (cnt (shared s)) 1) as [E|E]; [|LOC I Hx F Hs]);
    injection Hs as <-; apply (excl_grant s t _ _ I Hx F); try reflexivity; try exact id;
    apply Nat2Z.inj; rewrite (live_count s I F), E;
    (destruct (merged (shared s)) eqn:M; [|rewrite (i_onb s I O M)]); reflexivity.
Qed.

Lemma step_NoneCas p old : p = UnqNoneCas old \/ p = UmNoneCas old -> preserves p.
Proof.
  intros [->| ->] t s s' x I Hx Hp Hs; pose proof (i_tinv s I t x Hx) as T; unfold tinv in T; rewrite Hp in T; contradiction.
Qed.

Lemma step_OwnLoad p : p = UnqOwnLoad \/ p = UmOwnLoad -> preserves p.
Proof.
  intros [->| ->] t s s' x I Hx Hp Hs; at_pc I Hx Hp Hs T F; destruct T as [T [O B]];
    (destruct (Z.eqb_spec (cnt (shared s)) 0) as [E|E]; [|LOC I Hx F Hs]);
    injection Hs as <-; apply (excl_grant s t _ _ I Hx F); try reflexivity; try exact id;
    apply Nat2Z.inj; rewrite (live_count s I F), E, B, (not_merged_owner s t _ I Hx O eq_refl); reflexivity.
Qed.

(* the holder of the only reference takes the value out: the box is freed and its count is given up *)
Lemma unwrap_free s t x w : Inv s -> nth_error (thrs s) t = Some x -> freed s = false ->
  sumh (thrs s) = 1%nat -> (1 <= held x)%nat -> books x = (held x, O, O, O, (false, false, false)) ->
  queued (shared s) = false -> (merged (shared s) = true -> cnt (shared s) <> 0) ->
  (merged (shared s) = true \/ owner s = Some t) ->
  merged w = merged (shared s) -> queued w = queued (shared s) ->
  keeps s (on_thr t sub_held (do_free (excl_check (acc (on_thr t (set_pc_log Idle RUnwOk) (w_shared w s)))))).
Proof.
  intros I Hx F S1 Hh Hb Q C Hm Mw Qw. injection Hb as Ht Hp Hfd Hf Hpo Hu. apply keeps_freed; [|reflexivity].
  rewrite acc_nf by exact F.
  rewrite excl_ok by (simp_st; rewrite !sumh_sumf in *; rewrite (sumf_upd_same held _ _ _ _ Hx); [exact S1|reflexivity]).
  change (Inv (mkf s w (upd t sub_held (upd t (set_pc_log Idle RUnwOk) (thrs s))))). rewrite upd_upd.
  pose proof (sumf_ge held _ _ _ Hx) as GH. pose proof (i_qtok s I F) as QT. pose proof (i_pend s I) as PE.
  rewrite sumh_sumf in S1. rewrite Q in QT. rewrite F, dead_word_false in PE by (intros M _; exact (C M)).
  apply (inv_free s t x _ w I Hx F); unfold H; cbn [held sub_held set_pc_log]; auto; try lia.
  exact Logic.I.
Qed.

Lemma step_UnwNoneCas old : preserves (UnwNoneCas old).
Proof.
  intros t s s' x I Hx Hp Hs. at_pc I Hx Hp Hs T F. destruct T as [T [Mo Qo]].
  destruct (word_eqb_spec (with_cnt 1 old) (shared s)) as [E|_]; [|LOC I Hx F Hs].
  injection Hs as <-.
  assert (Ms : merged (shared s) = true) by (rewrite <- E; exact Mo).
  assert (Cs : cnt (shared s) = 1) by (rewrite <- E; reflexivity).
  apply (unwrap_free s t _ _ I Hx F); rewrite <- ?E; auto; try reflexivity.
  - apply Nat2Z.inj. rewrite (live_count s I F), Ms, Cs. reflexivity.
  - discriminate.
Qed.

Lemma step_UnwOwnLoad : preserves UnwOwnLoad.
Proof.
  intros t s s' x I Hx Hp Hs. at_pc I Hx Hp Hs T F. destruct T as [T [O B]].
  cbn [andb] in Hs. destruct (Z.eqb_spec (cnt (shared s)) 0) as [E|E]; cbn [negb orb] in Hs; [|LOC I Hx F Hs].
  destruct (queued (shared s)) eqn:Q; [LOC I Hx F Hs|]. injection Hs as <-.
  pose proof (not_merged_owner s t _ I Hx O eq_refl) as M.
  refine (unwrap_free s t _ (shared s) I Hx F _ T eq_refl Q _ (or_intror O) eq_refl eq_refl).
  - apply Nat2Z.inj. rewrite (live_count s I F), M, B, E. reflexivity.
  - rewrite M. discriminate.
Qed.

Lemma mrgpost_tok s u y : tinv s u y -> is_mrgpost y = true -> (1 <= tok y)%nat.
Proof. unfold tinv, is_mrgpost, tok. destruct (pcv y); try discriminate; intros [T _] _; exact T. Qed.

Lemma premerge_biased s t x : Inv s -> nth_error (thrs s) t = Some x -> freed s = false ->
  (1 <= tok x)%nat -> is_mrgpost x = false -> merged (shared s) = true -> biased s = 0.
Proof.
  intros I Hx F Tk NP M. pose proof (i_qtok s I F) as Q. pose proof (sumf_ge tok _ _ _ Hx) as G.
  (* by i_mb: t's token makes the word queued, and a thread past the first CAS of a merge would hold a second token *)
  destruct (i_mb s I M) as [B|[B|[u [y [Hy Py]]]]]; auto.
  - rewrite B in Q. lia.
  - destruct (Nat.eq_dec u t) as [->|Hne]; [congruence|].
    pose proof (sumf_ge2 tok _ _ _ _ _ Hne Hy Hx) as G2.
    pose proof (mrgpost_tok s u y (i_tinv s I u y Hy) Py). destruct (queued (shared s)); lia.
Qed.

Lemma step_Inv_merge p :
  match p with MrgCas _ _ _ | MrgFin _ _ _ | MrgCas2 _ _ _ | MrgFin2 _ _ _ => True | _ => False end -> preserves p.
Proof.
  intros Hsel t s s' x I Hx Hp Hs. open_thr Hx Hp Hs.
  destruct p; try contradiction; clause I Hx Hs T F.
  - (* MrgCas *) destruct T as [Tn Cr].
    destruct (word_eqb_spec old (shared s)) as [->|_]; [|LOC I Hx F Hs].
    result Hs F.
    pose proof (premerge_biased s t _ I Hx F Tn eq_refl) as B0. pose proof (token_queued s t _ I Hx F Tn) as Q.
    set (new := with_merged (with_cnt (cnt (shared s) + biased s) (shared s))).
    apply (keeps_gen _ _ _ _ _ _ _ _ _ I Hx F);
      try reflexivity; try discriminate; auto.
    + cbn [new merged cnt with_merged with_cnt held set_pc]. destruct (merged (shared s)); [rewrite B0 by reflexivity|]; lia.
    + unfold dead_word. cbn [new queued with_merged with_cnt]. rewrite Q, !andb_false_r. reflexivity.
    + intros _ o Ho. replace o with t by (destruct (i_ownerc s I); congruence).
      apply (ex_thr_here is_mrgfin _ _ _ _ Hx). reflexivity.
    + cbn [tinv pcv set_pc mk shared]. auto.
    + intros o Ho. destruct (i_bpos s I o Ho) as [B|U]; [left; exact B|right].
      apply (ex_thr_upd is_unown _ _ _ _ _ Hx); [discriminate|exact U].
    + intros _. right; right. exists t. apply (ex_thr_here is_mrgpost _ _ _ _ Hx). reflexivity.
  - (* MrgFin *) destruct T as [Tn [Cr M]].
    result Hs F.
    apply (keeps_gen _ _ _ _ _ _ _ _ _ I Hx F);
      try reflexivity; try discriminate; auto.
    + congruence.
    + cbn [tinv pcv set_pc mk shared]. auto.
    + intros _. right; right. exists t. apply (ex_thr_here is_mrgpost _ _ _ _ Hx). reflexivity.
    + congruence.
  - (* MrgCas2 *) destruct T as [Tn [Cr Msh]].
    destruct (word_eqb_spec old (shared s)) as [->|_]; [|LOC I Hx F Hs].
    result Hs F.
    pose proof (token_queued s t _ I Hx F Tn) as Q.
    apply (keeps_shared _ _ _ _ _ _ _ I Hx F); try reflexivity; try discriminate; auto.
    + rewrite Q. cbn [tok pcv set_pc queued with_unqueued]. lia.
    + unfold dead_word. cbn [pf pcv set_pc merged cnt queued with_unqueued]. rewrite Q, Msh. cbn [negb andb]. rewrite andb_true_r, andb_false_r. lia.
    + cbn [tinv pcv set_pc merged queued with_unqueued]. auto.
    + intros _ _ N. pose proof (cnt_nonneg s I F (or_introl Msh)). cbn [cnt with_unqueued] in N. lia.
  - (* MrgFin2 *) destruct T as [Tn [Cr [Mn Qn]]].
    destruct (cnt new =? 0) eqn:E; injection Hs as <-.
    + assert (PFx : pf {| held := h; pcv := MrgFin2 ph n new; prog := pr; log := lg; macc := ma |} = 1%nat)
        by (cbn [pf pcv]; rewrite E; reflexivity).
      destruct (pending_facts _ _ _ I Hx PFx) as [_ [_ [_ [_ ST]]]]. pose proof (sumf_ge tok _ _ _ Hx) as G.
      cbn [tok pcv] in G. destruct n as [|[|m]]; [lia| |lia]. unfold mrg_next.
      destruct ph; apply (free_pending s t _ _ I Hx PFx); auto; intros; exact Logic.I.
    + unfold mrg_next. destruct n as [|[|m]]; [lia| |].
      * destruct ph; (apply (keeps_local s t _ _ I Hx); [unfold books; cbn [pf pcv]; rewrite E; reflexivity|reflexivity|exact Logic.I|exact id]).
      * assert (F : freed s = false) by (apply (not_freed s t _ I Hx); reflexivity).
        apply (keeps_local s t _ _ I Hx); [unfold books; cbn [pf pcv]; rewrite E; reflexivity|congruence| |exact id].
        cbn [tinv pcv set_pc]. split; [lia|exact Cr].
Qed.

(* Inv does not constrain the set of registered threads *)
Lemma inv_qs_reg s q r : Inv s -> (forall e, In e q -> In e (qs s)) -> List.length q = List.length (qs s) ->
  Inv (w_reg r (w_qs q s)).
Proof.
  intros I Hin Hl. constructor; simp_st; try apply I.
  - rewrite Hl. apply I.
  - intros F. destruct (i_alive s I F) as [A [B C]]. repeat split; auto. rewrite B in Hl. destruct q; auto; discriminate.
  - intros e He. exact (i_keys s I e (Hin e He)).
Qed.

Lemma keeps_qs_reg s q r : Inv s -> (forall e, In e q -> In e (qs s)) -> List.length q = List.length (qs s) ->
  keeps s (w_reg r (w_qs q s)).
Proof. intros I Hin Hl. split; [exact (inv_qs_reg s q r I Hin Hl)|intros [A B C]; constructor; assumption]. Qed.

Lemma step_RegStep : preserves RegStep.
Proof.
  intros t s s' x I Hx Hp Hs. at_pc I Hx Hp Hs T F. injection Hs as <-.
  destruct (is_reg s t).
  - REST I Hx.
  - pose proof (keeps_qs_reg s (qs s) (t :: registered s) I (fun e He => He) eq_refl) as K.
    apply (keeps_trans _ _ _ K). REST (proj1 K) Hx.
Qed.

(* what the first step of a merge phase does: it takes the n entries of thread t out of one queue map
   (leaving q), on exit also unregisters the thread (leaving r), and adds n to the merge count *)
Lemma mrgbegin_cases c t s s' x ph : nth_error (thrs s) t = Some x -> pcv x = MrgBegin ph ->
  step c t s = Some s' ->
  exists q r n, (forall e, In e q -> In e (qs s)) /\ (List.length q + n = List.length (qs s))%nat /\
    (n <> O -> exists m, In (m, Some t) (qs s)) /\
    let s3 := on_thr t (fun y => set_macc (macc y + n) y) (w_reg r (w_qs q s)) in
    s' = match n with O => mrg_next t ph O (set_macc (macc x + n) x) s3 | S _ => go t (MrgLoad ph n) s3 end.
Proof.
  intros Hx Hp Hs. open_thr Hx Hp Hs. cbn [thr_step pcv] in Hs. unfold tid in *.
  set (m := match ph with PUnreg => QUnreg | _ => QReg end) in *.
  set (r := fun l : list nat => match ph with PFin => filter (fun r => negb (Nat.eqb r t)) l | _ => l end).
  destruct (match ph with PUnreg => true | _ => is_reg s t end).
  - exists (remove_ent (m, Some t) (qs s)), (r (registered s)), (count_ent (m, Some t) (qs s)).
    split; [intros e; apply remove_ent_In|]. split; [apply count_remove|]. split.
    + intros N. apply (count_pos_key m). apply Nat.neq_0_lt_0. exact N.
    + destruct (count_ent (m, Some t) (qs s)); injection Hs as <-; destruct ph; reflexivity.
  - exists (qs s), (r (registered s)), O. split; [auto|]. split; [lia|]. split; [intros []; reflexivity|].
    injection Hs as <-. destruct ph; reflexivity.
Qed.

Lemma step_MrgBegin ph : preserves (MrgBegin ph).
Proof.
  intros t s s' x I Hx Hp Hs. destruct (mrgbegin_cases _ t s s' x ph Hx Hp Hs) as [q [r [n [Hin [Hl [Hk ->]]]]]].
  destruct x as [h p pr lg ma]; cbn [pcv] in Hp; subst p.
  destruct n as [|n'].
  - rewrite Nat.add_0_r in Hl. pose proof (keeps_qs_reg s q r I Hin Hl) as K.
    pose proof (keeps_local _ t _ (fun y => set_macc (macc y + 0) y) (proj1 K) Hx eq_refl
                  (fun _ => eq_refl) Logic.I id) as K3.
    apply (keeps_trans _ _ _ (keeps_trans _ _ _ K K3)).
    unfold mrg_next. destruct ph; REST (proj1 K3) (nth_upd_same _ t (fun y => set_macc (macc y + 0) y) _ Hx).
  - assert (F : freed s = false).
    { destruct (freed s) eqn:F; auto. destruct (i_alive s I F) as [_ [B _]]. rewrite B in Hl. simpl in Hl. lia. }
    assert (Cr : t = creator s).
    { destruct (Hk (Nat.neq_succ_0 n')) as [m Hm]. pose proof (i_keys s I _ Hm) as K. simpl in K. congruence. }
    unfold go, on_thr, w_thrs. simp_st. rewrite upd_upd.
    apply (keeps_shared _ _ _ _ _ _ _ I Hx F); try reflexivity; try discriminate; auto.
    + cbn [tok pcv set_pc set_macc]. lia.
    + cbn [tinv pcv set_pc]. split; [lia|exact Cr].
Qed.

Lemma tinv_add_held s u y : tinv s u y -> tinv s u (add_held y).
Proof.
  unfold tinv. cbn [pcv held add_held].
  destruct (pcv y); try exact id; try exact (le_S _ _); intros [T R]; exact (conj (le_S _ _ T) R).
Qed.

(* moving one reference from thread t (idle) to thread k *)
Lemma keeps_send s t k x y g :
  Inv s -> nth_error (thrs s) t = Some x -> nth_error (thrs s) k = Some y -> k <> t ->
  (1 <= held x)%nat -> pcv x = Idle -> pcv (g x) = Idle -> held (g x) = pred (held x) ->
  keeps s (on_thr k add_held (on_thr t g s)).
Proof.
  intros I Hx Hy Hne Hh Hp Hg Hhg.
  pose proof (held_not_freed s t x I Hx Hh) as F.
  assert (Hy' : nth_error (upd t g (thrs s)) k = Some y) by (rewrite nth_upd_other by congruence; exact Hy).
  split.
  2: { intros J. apply (inv2_local _ _ y); [|exact Hy'|reflexivity|exact id].
       apply (inv2_local _ _ _ _ J Hx); unfold fd, enq_ok; rewrite Hg, Hp; auto. }
  change (Inv (w_thrs (upd k add_held (upd t g (thrs s))) s)). apply inv_thrs.
  - exact I.
  - pose proof (sumf_upd held _ _ g _ Hx). pose proof (sumf_upd held _ _ add_held _ Hy').
    cbn [held add_held] in *. lia.
  - rewrite (sumf_upd_same tok _ _ add_held _ Hy' eq_refl). apply (sumf_upd_same tok _ _ _ _ Hx).
    unfold tok. rewrite Hg, Hp. reflexivity.
  - rewrite (sumf_upd_same pf _ _ add_held _ Hy' eq_refl). apply (sumf_upd_same pf _ _ _ _ Hx).
    unfold pf. rewrite Hg, Hp. reflexivity.
  - intros u z Hz. split; [|congruence].
    destruct (nth_upd_at _ _ _ _ _ _ Hy' Hz) as [[-> ->]|[_ Hz']].
    + apply tinv_add_held. exact (i_tinv s I k y Hy).
    + destruct (nth_upd_at _ _ _ _ _ _ Hx Hz') as [[-> ->]|[_ Hz'']]; [|exact (i_tinv s I u z Hz'')].
      unfold tinv. rewrite Hg. exact Logic.I.
  - intros u z0 Hz0. destruct (Nat.eq_dec u k) as [->|Hnk].
    + exists (add_held y). split; [apply nth_upd_same; exact Hy'|]. replace z0 with y by congruence. reflexivity.
    + rewrite nth_upd_other by congruence. destruct (Nat.eq_dec u t) as [->|Hnt].
      * exists (g x). split; [apply nth_upd_same; exact Hx|]. replace z0 with x by congruence.
        unfold marks, is_mrgfin, is_mrgpost, is_unown. rewrite Hg, Hp. reflexivity.
      * exists z0. split; [rewrite nth_upd_other by congruence; exact Hz0|reflexivity].
Qed.

Lemma is_dead_false s k : is_dead s k = false -> exists y, nth_error (thrs s) k = Some y.
Proof. unfold is_dead. destruct (nth_error (thrs s) k); [eauto|discriminate]. Qed.

Lemma step_Idle : preserves Idle.
Proof.
  intros t s s' x I Hx Hp Hs. at_pc I Hx Hp Hs T F. unfold start_op in Hs. cbn [prog held] in Hs.
  destruct pr as [|op rest]; [discriminate|].
  (* an operation on the value is refused when the thread holds no reference, and reads the box
     otherwise; for a thread that holds one the box is allocated *)
  destruct (Nat.eqb_spec h 0) as [E|E]; cbn [orb] in Hs.
  - destruct op; try destruct (Nat.leb k h); injection Hs as <-; try exact (keeps_refl s I); REST I Hx.
  - assert (F : freed s = false) by (apply (held_not_freed s t _ I Hx); cbn [held]; lia).
    destruct op;
      try (injection Hs as <-; apply (keeps_busy s t _ _ I Hx F); [reflexivity| |exact id];
           cbn [tinv pcv held set_pc set_pc_log set_prog]; lia).
    + (* Send *) destruct (Nat.eqb_spec k t) as [E2|E2]; cbn [orb] in Hs; [|destruct (is_dead s k) eqn:E3];
        injection Hs as <-; try (REST I Hx).
      destruct (is_dead_false s k E3) as [y Hy]. eapply keeps_send; eauto; try reflexivity. cbn [held]. lia.
    + (* Merge *) injection Hs as <-. REST I Hx.
    + (* Register *) injection Hs as <-. REST I Hx.
    + (* Await *) destruct (Nat.leb k h); injection Hs as <-; [REST I Hx|exact (keeps_refl s I)].
Qed.

Lemma step_thr c t s s' : step c t s = Some s' -> exists x, nth_error (thrs s) t = Some x /\ pcv x <> Dead.
Proof.
  unfold step. destruct (nth_error (thrs s) t) as [x|]; [|discriminate].
  intros E. exists x. split; [reflexivity|]. intros D. rewrite D in E. discriminate.
Qed.

Lemma step_keeps t s s' : Inv s -> step fixed_cfg t s = Some s' -> keeps s s'.
Proof.
  intros I Hs. destruct (step_thr _ t s s' Hs) as [x [Hx ND]].
  assert (P : preserves (pcv x)); [|exact (P t s s' x I Hx eq_refl Hs)].
  destruct (pcv x); try (apply step_Inv_local; exact Logic.I); try (apply step_Inv_clone_drop; exact Logic.I);
    try (apply step_Inv_merge; exact Logic.I).
  - apply step_Idle.
  - destruct (ND eq_refl).
  - apply step_NoneLoad; auto.
  - apply (step_NoneCas _ old); auto.
  - apply step_OwnLoad; auto.
  - apply step_UnwNoneCas.
  - apply step_UnwOwnLoad.
  - apply step_MrgBegin.
  - apply step_RegStep.
  - apply step_NoneLoad; auto.
  - apply (step_NoneCas _ old); auto.
  - apply step_OwnLoad; auto.
Qed.

Theorem step_Inv t s s' : Inv s -> step fixed_cfg t s = Some s' -> Inv s'.
Proof. intros I Hs. exact (proj1 (step_keeps t s s' I Hs)). Qed.

Lemma run_preserves (P : st -> Prop) c : (forall t s s', P s -> step c t s = Some s' -> P s') ->
  forall sched s, P s -> P (run c sched s).
Proof.
  intros HP. induction sched as [|t r IH]; intros s Ps; simpl; auto.
  destruct (step c t s) as [s'|] eqn:E; eauto.
Qed.

Theorem run_Inv sched s : Inv s -> Inv (run fixed_cfg sched s).
Proof. apply run_preserves. exact step_Inv. Qed.

Theorem reachable_Inv cr regs progs sched : (cr < List.length progs)%nat ->
  Inv (run fixed_cfg sched (init cr regs progs)).
Proof. intros Hc. apply run_Inv. apply init_Inv. exact Hc. Qed.

Lemma destroyed_once cr regs progs sched : (cr < List.length progs)%nat ->
  let s := run fixed_cfg sched (init cr regs progs) in
  (destr s <= 1)%nat /\ (destr s = 1%nat <-> freed s = true) /\
  (freed s = true -> sumh (thrs s) = O /\ qs s = []).
Proof.
  intros Hc s. destruct (Inv_sound s (reachable_Inv cr regs progs sched Hc)) as [_ [_ [A [B C]]]]. auto.
Qed.

(* a step that moves thread t, keeping its references, reads the box and perhaps runs the
   exclusivity monitor, leaves the object as it was *)
Lemma moves_only s t x s' : nth_error (thrs s) t = Some x ->
  (exists g, (s' = acc (on_thr t g s) \/ s' = excl_check (acc (on_thr t g s))) /\ held (g x) = held x) ->
  owner s' = owner s /\ biased s' = biased s /\ shared s' = shared s /\ freed s' = freed s /\
  destr s' = destr s /\ qs s' = qs s /\ sumh (thrs s') = sumh (thrs s).
Proof.
  intros Hx [g [[-> | ->] Hg]]; simp_st; rewrite !sumh_sumf, (sumf_upd_same held _ _ _ _ Hx Hg); repeat split.
Qed.

Lemma exclusive_sound cr regs progs sched : (cr < List.length progs)%nat ->
  let s := run fixed_cfg sched (init cr regs progs) in
  exclbad s = O /\
  (forall t x s', nth_error (thrs s) t = Some x ->
     match pcv x with UnqRdOwner | UnqNoneLoad | UnqOwnRdBiased | UnqOwnLoad
                  | UmRdOwner | UmNoneLoad | UmOwnRdBiased | UmOwnLoad => True | _ => False end ->
     step fixed_cfg t s = Some s' ->
     owner s' = owner s /\ biased s' = biased s /\ shared s' = shared s /\ freed s' = freed s /\
     destr s' = destr s /\ qs s' = qs s /\ sumh (thrs s') = sumh (thrs s)).
Proof.
  intros Hc s. split; [apply (i_excl _ (reachable_Inv cr regs progs sched Hc))|].
  (* get_mut / has_unique_ref never writes the count word, never deallocates: in whatever state *)
  intros t x s' Hx Hsel Hs. apply (moves_only s t x s' Hx). unfold step in Hs. rewrite Hx in Hs.
  destruct (pcv x); try contradiction; split_conds Hs; injection Hs as <-;
    eexists; (split; [(left + right); reflexivity|reflexivity]).
Qed.
