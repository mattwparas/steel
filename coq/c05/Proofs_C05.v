From Coq Require Import List ZArith Bool Lia.
From SV Require Import c05.Model_C05.
Import ListNotations.
Open Scope Z_scope.

Lemma word_eqb_eq a b : word_eqb a b = true -> a = b.
Proof.
  destruct a, b; unfold word_eqb; simpl. intros H.
  apply andb_true_iff in H as [H H3]. apply andb_true_iff in H as [H1 H2].
  apply Z.eqb_eq in H1. apply Bool.eqb_prop in H2, H3. subst. reflexivity.
Qed.

Lemma word_eqb_refl a : word_eqb a a = true.
Proof. destruct a; unfold word_eqb; cbn. rewrite Z.eqb_refl, !Bool.eqb_reflx. reflexivity. Qed.

Lemma word_eqb_spec a b : reflect (a = b) (word_eqb a b).
Proof.
  destruct (word_eqb a b) eqn:E; constructor; [exact (word_eqb_eq a b E)|].
  intros ->. rewrite word_eqb_refl in E. discriminate.
Qed.

Lemma testbit_div (a n : Z) : 0 <= n -> Z.testbit a n = Z.odd (a / 2 ^ n).
Proof. intros Hn. rewrite Z.testbit_odd, Z.shiftr_div_pow2 by lia. reflexivity. Qed.

(* pack / unpack round trip, for any VALUE_BITS >= 1 with QUEUED at bit VALUE_BITS and MERGED at
   bit VALUE_BITS + 1 (the layout of lib.rs: FLAG_QUEUED, FLAG_MERGED) *)
Lemma pack_roundtrip_gen (vb : Z) (w : word) : 1 <= vb -> in_range vb w ->
  unpack vb (vb + 1) vb (pack vb (vb + 1) vb w) = w.
Proof.
  intros Hvb [Hlo Hhi]. destruct w as [c m q]. unfold pack, unpack, in_range in *; simpl in Hlo, Hhi |- *.
  assert (HP : 2 ^ vb = 2 * 2 ^ (vb - 1)) by (rewrite <- Z.pow_succ_r by lia; f_equal; lia).
  assert (HP2 : 2 ^ (vb + 1) = 2 * 2 ^ vb) by (rewrite <- Z.pow_succ_r by lia; f_equal).
  assert (Hpos : 0 < 2 ^ (vb - 1)) by (apply Z.pow_pos_nonneg; lia).
  set (P := 2 ^ vb) in *. set (h := 2 ^ (vb - 1)) in *.
  pose proof (Z.mod_pos_bound c P ltac:(lia)) as Hr.
  set (r := c mod P) in *.
  set (mz := if m then 1 else 0). set (qz := if q then 1 else 0).
  assert (Hbits : r + (if m then 2 ^ (vb + 1) else 0) + (if q then P else 0) = r + (2 * mz + qz) * P)
    by (rewrite HP2; subst mz qz; destruct m, q; lia).
  rewrite Hbits.
  assert (Hraw : (r + (2 * mz + qz) * P) mod P = r) by (rewrite Z.mod_add by lia; apply Z.mod_small; lia).
  rewrite Hraw.
  f_equal.
  - (* counter *)
    rewrite testbit_div by lia. fold h.
    destruct (Z_lt_le_dec c 0) as [Hneg|Hnn].
    + assert (r = c + P) by (subst r; symmetry; apply Z.mod_unique with (q := -1); lia).
      assert (r / h = 1) by (symmetry; apply Z.div_unique with (r := r - h); lia).
      replace (r / h) with 1 by assumption. cbn. lia.
    + assert (r = c) by (subst r; apply Z.mod_small; lia).
      assert (r / h = 0) by (apply Z.div_small; lia).
      replace (r / h) with 0 by (symmetry; assumption). cbn. lia.
  - (* merged: bit vb + 1 *)
    rewrite testbit_div by lia. rewrite HP2.
    assert ((r + (2 * mz + qz) * P) / (2 * P) = mz).
    { symmetry. apply Z.div_unique with (r := r + qz * P); subst qz; clear - Hr; destruct q; lia. }
    replace ((r + (2 * mz + qz) * P) / (2 * P)) with mz by (symmetry; assumption).
    subst mz; destruct m; reflexivity.
  - (* queued: bit vb *)
    rewrite testbit_div by lia. fold P.
    rewrite Z.div_add by lia. rewrite (Z.div_small r P) by lia.
    subst mz qz; destruct m, q; reflexivity.
Qed.
