(* C05 — how Inv (and with it Inv2) survives a micro-step, by the shape of the step: thread t's record
   goes from x to g x, and the object stays as it is (shape A), changes while the box stays allocated
   (B) or is deallocated (C). *)
From Coq Require Import List ZArith Bool Lia Arith.
From SV Require Import c05.Model_C05 c05.Proofs_C05 c05.Proofs_C05_inv.
Import ListNotations.
Open Scope Z_scope.

Ltac simp_st := cbn [creator owner biased shared freed destr qs registered uaf exclbad thrs
   acc go go_log on_thr w_thrs w_owner w_biased w_shared w_qs w_reg do_free excl_check].

Lemma not_freed s t x : Inv s -> nth_error (thrs s) t = Some x -> quiet x = false -> freed s = false.
Proof.
  intros I Hx Hq. destruct (freed s) eqn:F; auto.
  destruct (i_alive s I F) as [_ [_ A]]. rewrite (A _ _ Hx) in Hq. discriminate.
Qed.

Lemma held_not_freed s t x : Inv s -> nth_error (thrs s) t = Some x -> (1 <= held x)%nat -> freed s = false.
Proof.
  intros I Hx Hh. destruct (freed s) eqn:F; auto.
  destruct (i_alive s I F) as [A _]. unfold H in A. pose proof (sumf_ge held _ _ _ Hx). lia.
Qed.

Lemma acc_nf s : freed s = false -> acc s = s.
Proof. destruct s; simpl; intros ->; reflexivity. Qed.
Lemma excl_ok s : sumh (thrs s) = 1%nat -> excl_check s = s.
Proof. destruct s; unfold excl_check; simpl; intros ->; reflexivity. Qed.

Lemma inv_acc s : Inv s -> freed s = false -> Inv (acc s).
Proof. intros I F. rewrite acc_nf; assumption. Qed.

(* Inv reads the list of threads through the three sums, the clause of each thread (with quiet, once
   the box is freed) and the marks of the threads, position by position *)
Definition marks (x : thr) := (is_mrgfin x, is_mrgpost x, is_unown x).

Lemma inv_thrs s l :
  Inv s ->
  sumf held l = sumf held (thrs s) -> sumf tok l = sumf tok (thrs s) -> sumf pf l = sumf pf (thrs s) ->
  (forall u z, nth_error l u = Some z -> tinv s u z /\ (freed s = true -> quiet z = true)) ->
  (forall u z0, nth_error (thrs s) u = Some z0 -> exists z, nth_error l u = Some z /\ marks z = marks z0) ->
  Inv (w_thrs l s).
Proof.
  intros I Hh Ht Hp Hl Hm.
  assert (EX : forall P : thr -> bool, (forall z z0, marks z = marks z0 -> P z = P z0) ->
            forall o, (exists y, nth_error (thrs s) o = Some y /\ P y = true) ->
            exists y, nth_error l o = Some y /\ P y = true).
  { intros P HP o [y [Hy Py]]. destruct (Hm o y Hy) as [z [Hz E]]. exists z. split; [exact Hz|].
    rewrite (HP z y E). exact Py. }
  constructor; unfold H; cbn [w_thrs creator owner biased shared freed destr qs registered uaf exclbad thrs];
    rewrite ?Hh, ?Ht, ?Hp; try apply I.
  - intros F. destruct (i_alive s I F) as [A [B _]]. repeat split; auto. intros u z Hz. exact (proj2 (Hl u z Hz) F).
  - intros M o Ho. apply (EX is_mrgfin); [intros z z0 E; injection E; auto|exact (i_merged s I M o Ho)].
  - intros u z Hz. exact (proj1 (Hl u z Hz)).
  - intros o Ho. destruct (i_bpos s I o Ho) as [B|E]; [left; exact B|right].
    apply (EX is_unown); [intros z z0 E'; injection E'; auto|exact E].
  - intros M. destruct (i_mb s I M) as [B|[B|[u E]]]; auto. right; right. exists u.
    apply (EX is_mrgpost); [intros z z0 E'; injection E'; auto|exact E].
Qed.

(* a thread's share of the three sums, of fd and of the marks *)
Definition books (x : thr) := (held x, tok x, pf x, fd x, marks x).

Lemma books_held x y : books y = books x -> held y = held x.
Proof. intros E. injection E. auto. Qed.

(* once the box is freed every thread is quiet, and Inv2 says nothing more than Inv *)
Lemma inv2_of_freed s : Inv s -> freed s = true -> Inv2 s.
Proof.
  intros I F. constructor; try (rewrite F; discriminate).
  intros u x Hx. pose proof (proj2 (proj2 (i_alive s I F)) u x Hx) as Q. unfold quiet in Q. unfold enq_ok.
  destruct (pcv x); try exact Logic.I; discriminate.
Qed.

(* Both invariants across one step.  Inv is kept on its own; Inv2 is kept given Inv (it adds the count fd,
   the clause enq_ok and a condition on the new word). *)
Definition keeps (s s' : st) : Prop := Inv s' /\ (Inv2 s -> Inv2 s').

Lemma keeps_refl s : Inv s -> keeps s s.
Proof. intros I. split; auto. Qed.
Lemma keeps_trans s s1 s2 : keeps s s1 -> keeps s1 s2 -> keeps s s2.
Proof. intros [_ A] [I B]. split; auto. Qed.
Lemma keeps_freed s s' : Inv s' -> freed s' = true -> keeps s s'.
Proof. intros I F. split; [exact I|intros _; exact (inv2_of_freed s' I F)]. Qed.

Lemma inv2_local s t x g :
  Inv2 s -> nth_error (thrs s) t = Some x -> fd (g x) = fd x -> (enq_ok s x -> enq_ok s (g x)) -> Inv2 (on_thr t g s).
Proof.
  intros [A B C] Hx Hf He. constructor; unfold unowned in *; simp_st.
  - exact A.
  - rewrite (sumf_upd_same fd _ _ _ _ Hx Hf). exact B.
  - intros u y Hy. destruct (nth_upd_at _ _ _ _ _ _ Hx Hy) as [[_ ->]|[_ Hy']]; [exact (He (C t x Hx))|exact (C u y Hy')].
Qed.

(* Shape A: only the program counter / log / program of thread t changes *)
Lemma keeps_local s t x g :
  Inv s -> nth_error (thrs s) t = Some x -> books (g x) = books x ->
  (freed s = true -> quiet (g x) = true) -> tinv s t (g x) -> (enq_ok s x -> enq_ok s (g x)) ->
  keeps s (on_thr t g s).
Proof.
  intros I Hx Hb Hq Hti He. injection Hb as Hh Ht Hp Hf M1 M2 M3.
  split; [|intros J; exact (inv2_local s t x g J Hx Hf He)].
  apply inv_thrs; try (apply (sumf_upd_same _ _ _ _ _ Hx); assumption); [exact I| |].
  - intros u z Hz. destruct (nth_upd_at _ _ _ _ _ _ Hx Hz) as [[-> ->]|[_ Hz']]; [auto|].
    split; [exact (i_tinv s I u z Hz')|]. intros F. exact (proj2 (proj2 (i_alive s I F)) u z Hz').
  - intros u z0 Hz0. destruct (Nat.eq_dec u t) as [->|Hne].
    + exists (g x). split; [apply nth_upd_same; exact Hx|unfold marks; congruence].
    + exists z0. split; [rewrite nth_upd_other by congruence; exact Hz0|reflexivity].
Qed.

(* the same when the step also reads the box, which must then be allocated *)
Lemma keeps_busy s t x g :
  Inv s -> nth_error (thrs s) t = Some x -> freed s = false -> books (g x) = books x ->
  tinv s t (g x) -> (enq_ok s x -> enq_ok s (g x)) -> keeps s (acc (on_thr t g s)).
Proof.
  intros I Hx F Hb Hti He. rewrite acc_nf by exact F. apply (keeps_local s t x); auto. congruence.
Qed.

Lemma tinv_ext s s' u y :
  owner s' = owner s -> biased s' = biased s -> merged (shared s') = merged (shared s) ->
  creator s' = creator s -> tinv s u y -> tinv s' u y.
Proof. intros Ho Hb Hm Hc. unfold tinv. rewrite Ho, Hb, Hm, Hc. exact id. Qed.

(* a clause that is not the creator's reads only [owner s = None] of the object: it reads owner and
   biased next to [owner s = Some u] or [u = creator s], the merged flag next to [u = creator s] *)
Lemma tinv_other s s' u y :
  u <> creator s -> owner s = None \/ owner s = Some (creator s) -> creator s' = creator s ->
  (owner s = None -> owner s' = None) -> tinv s u y -> tinv s' u y.
Proof.
  intros Hne Ho Hcr Hon. assert (NO : owner s <> Some u) by (destruct Ho; congruence).
  unfold tinv. rewrite Hcr. destruct (pcv y); try exact id.
  all: try (intros [T O]; split; [exact T|exact (Hon O)]).
  all: intros T; exfalso; decompose [and] T; congruence.
Qed.

Definition mk (s : st) (o : option tid) (b : Z) (w : word) (q : list (qmap * option tid)) (r : list tid)
  (l : list thr) : st :=
  {| creator := creator s; owner := o; biased := b; shared := w; freed := freed s; destr := destr s;
     qs := q; registered := r; uaf := uaf s; exclbad := exclbad s; thrs := l |}.

(* Shape B: thread t moves and the object / queue change, the box stays allocated.  The three sums
   are asked for as the difference the step makes; the clauses that only concern the new state are
   asked for as they stand. *)
Lemma keeps_gen s t x g o b w q r : let s' := mk s o b w q r (upd t g (thrs s)) in
  Inv s -> nth_error (thrs s) t = Some x -> freed s = false ->
  (if merged w then cnt w else b + cnt w) + Z.of_nat (held x) =
    (if merged (shared s) then cnt (shared s) else biased s + cnt (shared s)) + Z.of_nat (held (g x)) ->
  (List.length q + (if queued (shared s) then 1 else 0) + tok (g x) =
     List.length (qs s) + (if queued w then 1 else 0) + tok x)%nat ->
  ((if dead_word (shared s) then 1 else 0) + pf (g x) = (if dead_word w then 1 else 0) + pf x)%nat ->
  (merged w = true -> forall o', o = Some o' ->
     exists y, nth_error (thrs s') o' = Some y /\ is_mrgfin y = true) ->
  (o = None \/ o = owner s) ->
  (o = None -> merged w = false -> b = 0) ->
  (forall e, In e q -> In e (qs s) \/ snd e = Some (creator s)) ->
  tinv s' t (g x) ->
  (t = creator s \/ o = owner s /\ b = biased s /\ merged w = merged (shared s)) ->
  (forall o', o = Some o' -> 1 <= b \/ exists y, nth_error (thrs s') o' = Some y /\ is_unown y = true) ->
  (merged w = true -> b = 0 \/ queued w = false \/
     exists u y, nth_error (thrs s') u = Some y /\ is_mrgpost y = true) ->
  ((cnt (shared s) < 0 -> queued (shared s) = true) -> Inv2 s -> cnt w < 0 -> queued w = true) ->
  (o = None -> merged w = false -> unowned s = true /\ (fd x <= fd (g x))%nat \/ fd (g x) = 1%nat) ->
  (enq_ok s x -> enq_ok s' (g x)) ->
  keeps s s'.
Proof.
  intros s' I Hx F Hc Hq Hp Hm Ho Honb Hk Ht Hoth Hbp Hmb Hn Hu He.
  assert (Hon : owner s = None -> o = None) by (destruct Ho as [-> | ->]; auto).
  split; [|intros J; constructor; cbn [s' mk creator owner biased shared freed destr qs registered uaf exclbad thrs]].
  2: { intros _. exact (Hn (j_negq s J F) J). }
  2: { intros _ U. pose proof (sumf_upd fd _ _ g _ Hx) as SF. pose proof (sumf_ge fd _ _ _ Hx) as GF.
       unfold unowned in U. cbn [mk owner shared] in U. destruct o; [discriminate|]. apply negb_true_iff in U.
       destruct (Hu eq_refl U) as [[U0 L]|L]; [pose proof (j_unown s J F U0)|]; lia. }
  2: { intros u y Hy. destruct (nth_upd_at _ _ _ _ _ _ Hx Hy) as [[_ ->]|[_ Hy']]; [exact (He (j_enq s J t x Hx))|].
       pose proof (j_enq s J u y Hy') as E. unfold enq_ok in *. cbn [owner]. destruct (pcv y); auto. }
  pose proof (sumf_upd held _ _ g _ Hx) as SH. pose proof (sumf_upd tok _ _ g _ Hx) as ST.
  pose proof (sumf_upd pf _ _ g _ Hx) as SP.
  pose proof (sumf_ge held _ _ _ Hx) as GH. pose proof (sumf_ge tok _ _ _ Hx) as GT.
  pose proof (sumf_ge pf _ _ _ Hx) as GP.
  pose proof (i_count s I F) as C. pose proof (i_qtok s I F) as Q. pose proof (i_pend s I) as P.
  rewrite F in P. unfold H in C.
  constructor; try assumption; unfold H; cbn [s' mk creator owner biased shared freed destr qs registered uaf exclbad thrs].
  - clear - Hc C SH GH. destruct (merged w), (merged (shared s)); lia.
  - clear - Hq Q ST GT. lia.
  - rewrite F. clear - Hp P SP GP. lia.
  - rewrite F. discriminate.
  - exact (i_once s I).
  - destruct Ho as [-> | ->]; [left; reflexivity|exact (i_ownerc s I)].
  - intros e Hin. destruct (Hk e Hin) as [A|A]; [exact (i_keys s I e A)|exact A].
  - intros u y Hy. destruct (nth_upd_at _ _ _ _ _ _ Hx Hy) as [[-> ->]|[Hne Hy']]; [exact Ht|].
    pose proof (i_tinv s I u y Hy') as T. pose proof (i_ownerc s I) as Oc.
    destruct Hoth as [Cr|[-> [-> M]]]; [apply (tinv_other s); auto; congruence|apply (tinv_ext s); auto].
  - exact (i_uaf s I).
  - exact (i_excl s I).
Qed.

(* Shape B when only the word changes, keeping its merged flag (the CAS of increment, slow
   decrement, enqueue and the second CAS of merge) or only the queue does *)
Lemma keeps_shared s t x g w q r :
  Inv s -> nth_error (thrs s) t = Some x -> freed s = false ->
  merged w = merged (shared s) ->
  cnt w + Z.of_nat (held x) = cnt (shared s) + Z.of_nat (held (g x)) ->
  (List.length q + (if queued (shared s) then 1 else 0) + tok (g x) =
     List.length (qs s) + (if queued w then 1 else 0) + tok x)%nat ->
  ((if dead_word (shared s) then 1 else 0) + pf (g x) = (if dead_word w then 1 else 0) + pf x)%nat ->
  (forall e, In e q -> In e (qs s) \/ snd e = Some (creator s)) ->
  (is_mrgfin x = true -> is_mrgfin (g x) = true) ->
  (is_unown x = true -> is_unown (g x) = true) ->
  (merged w = true -> queued (shared s) = false -> queued w = false) ->
  (is_mrgpost x = true -> queued w = false \/ is_mrgpost (g x) = true) ->
  tinv s t (g x) ->
  ((cnt (shared s) < 0 -> queued (shared s) = true) -> Inv2 s -> cnt w < 0 -> queued w = true) ->
  fd x = O -> (enq_ok s x -> enq_ok s (g x)) ->
  keeps s (mk s (owner s) (biased s) w q r (upd t g (thrs s))).
Proof.
  intros I Hx F Mw Hc Hq Hp Hk G1 G2 Q3 G3 Ht Hn Hf He.
  apply keeps_gen with (x := x); auto.
  - rewrite Mw. clear - Hc. destruct (merged (shared s)); lia.
  - rewrite Mw. intros M o Ho. exact (ex_thr_upd is_mrgfin _ _ _ x _ Hx G1 (i_merged s I M o Ho)).
  - rewrite Mw. exact (i_onb s I).
  - apply (tinv_ext s); auto.
  - intros o Ho. destruct (i_bpos s I o Ho) as [B|U]; [left; exact B|right].
    exact (ex_thr_upd is_unown _ _ _ x _ Hx G2 U).
  - intros M. specialize (Q3 M). rewrite Mw in M. destruct (i_mb s I M) as [B|[B|[u [y [Hy Py]]]]]; auto.
    destruct (Nat.eq_dec u t) as [->|Hne].
    + replace y with x in Py by congruence. destruct (G3 Py) as [Q|G]; auto.
      right; right. exists t. exact (ex_thr_here is_mrgpost _ _ _ _ Hx G).
    + right; right. exists u, y. split; [|exact Py]. cbn [mk thrs]. rewrite nth_upd_other by congruence. exact Hy.
  - unfold unowned. rewrite Mw, Hf. intros -> ->. left. split; [reflexivity|apply Nat.le_0_l].
Qed.

Lemma not_merged_owner s t x : Inv s -> nth_error (thrs s) t = Some x -> owner s = Some t ->
  is_mrgfin x = false -> merged (shared s) = false.
Proof.
  intros I Hx O M. destruct (merged (shared s)) eqn:E; auto.
  destruct (i_merged s I E t O) as [y [Hy My]]. congruence.
Qed.

(* Shape B when the owner t writes the biased counter (fast increment and decrement) *)
Lemma keeps_biased s t x g b : let s' := mk s (owner s) b (shared s) (qs s) (registered s) (upd t g (thrs s)) in
  Inv s -> nth_error (thrs s) t = Some x -> freed s = false -> owner s = Some t -> is_mrgfin x = false ->
  b + Z.of_nat (held x) = biased s + Z.of_nat (held (g x)) -> tok (g x) = tok x -> pf (g x) = pf x ->
  1 <= b \/ is_unown (g x) = true -> tinv s' t (g x) -> (enq_ok s x -> enq_ok s' (g x)) -> keeps s s'.
Proof.
  intros s' I Hx F O Hm Hc Ht Hp Hb Hti He. pose proof (not_merged_owner s t x I Hx O Hm) as M.
  apply keeps_gen with (x := x); auto; rewrite ?M; try discriminate; try lia.
  - rewrite O. discriminate.
  - left. destruct (i_ownerc s I); congruence.
  - intros o Ho. destruct Hb as [Hb|Hb]; [left; exact Hb|right]. replace o with t by congruence.
    exact (ex_thr_here is_unown _ _ _ _ Hx Hb).
  - rewrite O. discriminate.
Qed.

Definition mkf (s : st) (w : word) (l : list thr) : st :=
  {| creator := creator s; owner := owner s; biased := biased s; shared := w; freed := true; destr := S (destr s);
     qs := qs s; registered := registered s; uaf := uaf s; exclbad := exclbad s; thrs := l |}.

Lemma others_quiet s t u y :
  Inv s -> u <> t -> nth_error (thrs s) u = Some y ->
  held y = 0%nat -> tok y = 0%nat -> pf y = 0%nat ->
  (merged (shared s) = true \/ owner s = Some t) -> quiet y = true.
Proof.
  intros I Hne Hy Hh Ht Hp Hm.
  pose proof (i_tinv s I u y Hy) as T.
  assert (M : merged (shared s) = true -> owner s = Some u -> is_mrgfin y = true).
  { intros M O. destruct (i_merged s I M u O) as [z [Hz Mz]]. congruence. }
  unfold tinv, quiet, tok, pf, is_mrgfin in *.
  destruct (pcv y); try reflexivity;
    try (rewrite ?Ht, Hp; reflexivity); (* quiet once it holds no token and has nothing pending *)
    try discriminate Ht;                (* inside enqueue it holds a token *)
    try (exfalso; clear - T Hh Ht; lia). (* it holds a reference, or the n >= 1 tokens of a merge *)
  (* the fast decrement from its last write on: the word is not merged, and only u can be the owner *)
  all: destruct Hm as [Hm|Hm]; [specialize (M Hm)|]; intuition congruence.
Qed.

(* Shape C: thread t holds the last reference, or has decided to deallocate, and frees the box *)
Lemma inv_free s t x g w :
  Inv s -> nth_error (thrs s) t = Some x -> freed s = false ->
  H s = held x -> held (g x) = 0%nat ->
  (List.length (qs s) + sumf tok (thrs s) = tok x)%nat ->
  sumf pf (thrs s) = pf x -> pf (g x) = 0%nat -> quiet (g x) = true ->
  is_mrgfin x = false -> is_mrgpost x = false -> is_unown x = false ->
  (merged (shared s) = true \/ owner s = Some t) ->
  merged w = merged (shared s) -> queued w = queued (shared s) ->
  tinv (mkf s w (upd t g (thrs s))) t (g x) ->
  Inv (mkf s w (upd t g (thrs s))).
Proof.
  intros I Hx F HH Hg HT HP Hpg Hq Hnm Hnp Hnu Hm Hw Hwq Ht.
  pose proof (sumf_upd held _ _ g _ Hx) as SH. pose proof (sumf_upd tok _ _ g _ Hx) as ST.
  pose proof (sumf_upd pf _ _ g _ Hx) as SP.
  pose proof (sumf_ge tok _ _ _ Hx) as GT.
  assert (EX : forall (P : thr -> bool) o, P x = false -> (exists y, nth_error (thrs s) o = Some y /\ P y = true) ->
            exists y, nth_error (upd t g (thrs s)) o = Some y /\ P y = true).
  { intros P o Px. apply ex_thr_upd with (x := x); [exact Hx|congruence]. }
  constructor; unfold mkf, H in *; cbn [creator owner biased shared freed destr qs registered uaf exclbad thrs].
  - discriminate.
  - discriminate.
  - lia.
  - intros _. split; [lia|]. split.
    + destruct (qs s); auto. simpl in HT. lia.
    + intros u y Hy. destruct (nth_upd_at _ _ _ _ _ _ Hx Hy) as [[_ ->]|[Hne Hy']]; [exact Hq|].
      pose proof (sumf_ge2 held _ _ _ _ _ Hne Hy' Hx) as G2H. pose proof (sumf_ge2 tok _ _ _ _ _ Hne Hy' Hx) as G2T.
      pose proof (sumf_ge2 pf _ _ _ _ _ Hne Hy' Hx) as G2P.
      eapply others_quiet with (t := t); eauto; clear - HH HT HP G2H G2T G2P; lia.
  - rewrite (i_once s I), F. reflexivity.
  - rewrite Hw. intros M o Ho. exact (EX is_mrgfin o Hnm (i_merged s I M o Ho)).
  - exact (i_ownerc s I).
  - rewrite Hw. exact (i_onb s I).
  - exact (i_keys s I).
  - intros u y Hy. destruct (nth_upd_at _ _ _ _ _ _ Hx Hy) as [[-> ->]|[_ Hy']]; [exact Ht|].
    eapply tinv_ext; [..|exact (i_tinv s I u y Hy')]; auto.
  - exact (i_uaf s I).
  - exact (i_excl s I).
  - intros o Ho. destruct (i_bpos s I o Ho) as [B|U]; [left; exact B|right; exact (EX is_unown o Hnu U)].
  - rewrite Hw, Hwq. intros M. destruct (i_mb s I M) as [B|[B|[u U]]]; auto. right; right. exists u.
    exact (EX is_mrgpost u Hnp U).
Qed.

Lemma pending_facts s t x : Inv s -> nth_error (thrs s) t = Some x -> pf x = 1%nat ->
  freed s = false /\ dead_word (shared s) = true /\ sumf pf (thrs s) = 1%nat /\
  H s = O /\ (List.length (qs s) + sumf tok (thrs s) = 0)%nat.
Proof.
  intros I Hx P. pose proof (sumf_ge pf _ _ _ Hx) as G. pose proof (i_pend s I) as Pe.
  destruct (freed s) eqn:F; [lia|]. destruct (dead_word (shared s)) eqn:D; [|lia].
  pose proof (i_count s I F) as C. pose proof (i_qtok s I F) as Q. unfold dead_word in D.
  apply andb_true_iff in D as [D D3]. apply andb_true_iff in D as [D1 D2].
  apply negb_true_iff in D3. apply Z.eqb_eq in D2. rewrite D1 in C. rewrite D3 in Q.
  repeat split; auto. lia.
Qed.

Lemma dead_merged w : dead_word w = true -> merged w = true.
Proof. unfold dead_word. intros D. apply andb_true_iff in D as [D _]. apply andb_true_iff in D as [D _]. auto. Qed.

Lemma pf_one_marks x : pf x = 1%nat -> is_mrgfin x = false /\ is_mrgpost x = false /\ is_unown x = false.
Proof. unfold pf, is_mrgfin, is_mrgpost, is_unown. destruct (pcv x); intros; try discriminate; auto. Qed.

Lemma free_pending s t x g :
  Inv s -> nth_error (thrs s) t = Some x -> pf x = 1%nat ->
  held (g x) = held x -> pf (g x) = 0%nat -> quiet (g x) = true ->
  (forall s', tinv s' t (g x)) ->
  keeps s (do_free (acc (on_thr t g s))).
Proof.
  intros I Hx P Hh Hp Hq Hti. apply keeps_freed; [|reflexivity].
  destruct (pending_facts _ _ _ I Hx P) as [F [D [SP [HH ST]]]].
  destruct (pf_one_marks x P) as [M1 [M2 M3]].
  pose proof (sumf_ge held _ _ _ Hx) as GH. pose proof (sumf_ge tok _ _ _ Hx) as GT.
  rewrite acc_nf by exact F. unfold H in HH.
  apply (inv_free s t x g (shared s)); auto; unfold H; try lia.
  left. apply dead_merged. exact D.
Qed.

Lemma Inv_sound s : Inv s ->
  uaf s = O /\ exclbad s = O /\ (destr s <= 1)%nat /\ (destr s = 1%nat <-> freed s = true) /\
  (freed s = true -> sumh (thrs s) = O /\ qs s = []).
Proof.
  intros I. pose proof (i_once s I) as O1. pose proof (i_alive s I) as A.
  split; [apply (i_uaf s I)|]. split; [apply (i_excl s I)|].
  split; [destruct (freed s); lia|]. split; [destruct (freed s); split; intros; (congruence || lia)|].
  intros F. destruct (A F) as [A1 [A2 _]]. split; [rewrite sumh_sumf; exact A1|exact A2].
Qed.
