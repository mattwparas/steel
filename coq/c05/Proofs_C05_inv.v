From Coq Require Import List ZArith Bool Lia Arith.
From SV Require Import lib.ListFacts c05.Model_C05 c05.Proofs_C05.
Import ListNotations.
Open Scope Z_scope.

Definition sumf (f : thr -> nat) (l : list thr) : nat := fold_right (fun x a => (f x + a)%nat) O l.

Lemma sumh_sumf l : sumh l = sumf held l.
Proof. induction l; simpl; auto. Qed.

Lemma sumf_upd f : forall l t g x, nth_error l t = Some x ->
  (sumf f (upd t g l) + f x = sumf f l + f (g x))%nat.
Proof.
  induction l as [|y r IH]; intros [|t] g x H; simpl in *; try discriminate.
  - inversion H; subst. lia.
  - specialize (IH _ g _ H). lia.
Qed.

Lemma sumf_ge f : forall l t x, nth_error l t = Some x -> (f x <= sumf f l)%nat.
Proof.
  induction l as [|y r IH]; intros [|t] x H; simpl in *; try discriminate.
  - inversion H; subst. lia.
  - specialize (IH _ _ H). lia.
Qed.

Lemma sumf_ge2 f : forall l t u x y, t <> u -> nth_error l t = Some x -> nth_error l u = Some y ->
  (f x + f y <= sumf f l)%nat.
Proof.
  induction l as [|z r IH]; intros [|t] [|u] x y Hne Hx Hy; simpl in *; try discriminate; try congruence.
  - inversion Hx; subst. pose proof (sumf_ge f _ _ _ Hy). lia.
  - inversion Hy; subst. pose proof (sumf_ge f _ _ _ Hx). lia.
  - assert (t <> u) by congruence. specialize (IH _ _ _ _ H Hx Hy). lia.
Qed.

Lemma sumf_zero f : forall l, sumf f l = O -> forall t x, nth_error l t = Some x -> f x = O.
Proof. intros l H t x Hx. pose proof (sumf_ge f _ _ _ Hx). lia. Qed.

Lemma nth_upd_same : forall l t g x, nth_error l t = Some x -> nth_error (upd t g l) t = Some (g x).
Proof.
  induction l as [|y r IH]; intros [|t] g x H; simpl in *; try discriminate.
  - inversion H; subst; reflexivity.
  - eauto.
Qed.
Lemma nth_upd_other : forall l t u g, t <> u -> nth_error (upd t g l) u = nth_error l u.
Proof. induction l as [|y r IH]; intros [|t] [|u] g H; simpl; auto; try congruence. Qed.

Lemma nth_upd_inv : forall l t g u y, nth_error (upd t g l) u = Some y ->
  (u = t /\ exists x, nth_error l t = Some x /\ y = g x) \/ (u <> t /\ nth_error l u = Some y).
Proof.
  intros l t g u y H. destruct (Nat.eq_dec u t) as [->|Hne].
  - left. split; auto. destruct (nth_error l t) as [x|] eqn:E.
    + rewrite (nth_upd_same _ _ _ _ E) in H. inversion H. eauto.
    + exfalso. revert t H E. induction l as [|z r IH]; intros [|t] H E; simpl in *; try discriminate. eauto.
  - right. split; auto. rewrite nth_upd_other in H by congruence. exact H.
Qed.

Lemma nth_upd_at l t g x u y : nth_error l t = Some x -> nth_error (upd t g l) u = Some y ->
  (u = t /\ y = g x) \/ (u <> t /\ nth_error l u = Some y).
Proof.
  intros Hx Hy. apply nth_upd_inv in Hy as [[-> [x' [Hx' ->]]]|Hy]; auto.
  left. split; congruence.
Qed.

Lemma upd_length : forall l t g, List.length (upd t g l) = List.length l.
Proof. induction l as [|y r IH]; intros [|t] g; simpl; auto. Qed.

Lemma upd_upd : forall l t f g, upd t f (upd t g l) = upd t (fun y => f (g y)) l.
Proof. induction l as [|a r IH]; intros [|t] f g; simpl; auto. rewrite IH. reflexivity. Qed.

Lemma sumf_upd_same f l t g x : nth_error l t = Some x -> f (g x) = f x -> sumf f (upd t g l) = sumf f l.
Proof. intros Hx E. pose proof (sumf_upd f _ _ g _ Hx). lia. Qed.

Lemma ex_thr_upd (P : thr -> bool) l t g x o :
  nth_error l t = Some x -> (P x = true -> P (g x) = true) ->
  (exists y, nth_error l o = Some y /\ P y = true) ->
  exists y, nth_error (upd t g l) o = Some y /\ P y = true.
Proof.
  intros Hx Hg [y [Hy Py]]. destruct (Nat.eq_dec o t) as [->|Hne].
  - exists (g x). split; [apply nth_upd_same; exact Hx|]. apply Hg. congruence.
  - exists y. split; [|exact Py]. rewrite nth_upd_other by congruence. exact Hy.
Qed.

Lemma ex_thr_here (P : thr -> bool) l t g x :
  nth_error l t = Some x -> P (g x) = true -> exists y, nth_error (upd t g l) t = Some y /\ P y = true.
Proof. intros Hx Pg. exists (g x). split; [apply nth_upd_same; exact Hx|exact Pg]. Qed.

Lemma count_remove e q : (List.length (remove_ent e q) + count_ent e q = List.length q)%nat.
Proof. unfold remove_ent, count_ent. rewrite Nat.add_comm. apply filter_length_split. Qed.

Lemma key_eqb_eq a b : key_eqb a b = true -> a = b.
Proof. destruct a, b; simpl; try discriminate; auto. intros H. apply Nat.eqb_eq in H. congruence. Qed.

Lemma count_pos_key m k q : (0 < count_ent (m, k) q)%nat -> exists m', In (m', k) q.
Proof.
  unfold count_ent. induction q as [|a r IH]; simpl; [lia|].
  destruct (ent_eqb (m, k) a) eqn:E.
  - intros _. unfold ent_eqb in E. apply andb_true_iff in E as [_ E]. simpl in E.
    apply key_eqb_eq in E. destruct a as [m' k']. simpl in E. subst. eauto.
  - intros H. destruct (IH H) as [m' Hin]. eauto.
Qed.

Lemma remove_ent_In e q x : In x (remove_ent e q) -> In x q.
Proof. exact (incl_filter _ q x). Qed.

Definition H (s : st) : nat := sumf held (thrs s).

(* queue tokens: who is responsible for the `queued` flag *)
Definition tok (x : thr) : nat :=
  match pcv x with
  | DecFin old new => if negb (Bool.eqb (queued old) (queued new)) then 1 else 0
  | EnqRdOwner | EnqPush _ | EnqLoad | EnqCas _ => 1
  | MrgLoad _ n | MrgCas _ n _ | MrgFin _ n _ | MrgCas2 _ n _ => n
  | MrgFin2 _ n _ => pred n
  | _ => 0
  end%nat.

(* pending deallocation: the thread has decided to deallocate *)
Definition dead_word (w : word) : bool := merged w && (cnt w =? 0) && negb (queued w).
Definition pf (x : thr) : nat :=
  match pcv x with
  | DecFastFin new => if (cnt new =? 0) && negb (queued new) then 1%nat else O
  | DecFin old new => if negb (Bool.eqb (queued old) (queued new)) then O
                      else if merged new && (cnt new =? 0) && negb (queued new) then 1%nat else O
  | EnqFin new => if merged new && (cnt new =? 0) then 1%nat else O
  | MrgFin2 _ _ new => if cnt new =? 0 then 1%nat else O
  | _ => O
  end.

(* program counters whose next step does not touch the box (from Idle: when the thread holds no reference) *)
Definition quiet (x : thr) : bool :=
  match pcv x with
  | Idle | Dead | MrgBegin _ | RegStep => true
  | DecFastFin _ | DecFin _ _ | EnqFin _ => Nat.eqb (tok x) 0 && Nat.eqb (pf x) 0
  | MrgFin2 _ n _ => Nat.eqb (tok x) 0 && Nat.eqb (pf x) 0
  | _ => false
  end.

Definition tinv (s : st) (u : tid) (x : thr) : Prop :=
  match pcv x with
  | IncRdOwner | IncLoad | IncCas _ | DecRdOwner | DecLoad | DecCas _
  | UnqRdOwner | UnwRdOwner | CntLoad | CntRdOwner | UmRdOwner => (1 <= held x)%nat
  | UnqNoneLoad | UnwNoneLoad | UmNoneLoad => (1 <= held x)%nat /\ owner s = None
  | UnqNoneCas _ | UmNoneCas _ => False
  | UnwNoneCas old => (1 <= held x)%nat /\ merged old = true /\ queued old = false
  | IncFast | DecFast | UnqOwnRdBiased | UnwOwnRdBiased | CntRdBiased | UmOwnRdBiased => (1 <= held x)%nat /\ owner s = Some u
  | UnqOwnLoad | UnwOwnLoad | UmOwnLoad => (1 <= held x)%nat /\ owner s = Some u /\ biased s = 1
  | DecFastUnown => owner s = Some u /\ biased s = 0
  | DecFastLoad | DecFastCas _ => owner s = None /\ biased s = 0 /\ merged (shared s) = false /\ u = creator s
  | DecFastFin w => merged w = true
  | EnqPush key => key = Some (creator s)
  | MrgLoad _ n | MrgCas _ n _ => (1 <= n)%nat /\ u = creator s
  | MrgFin _ n w => (1 <= n)%nat /\ u = creator s /\ merged (shared s) = true
  | MrgCas2 _ n w => (1 <= n)%nat /\ u = creator s /\ merged (shared s) = true
  | MrgFin2 _ n w => (1 <= n)%nat /\ u = creator s /\ merged w = true /\ queued w = false
  | _ => True
  end.

Definition is_mrgfin (x : thr) : bool := match pcv x with MrgFin _ _ _ => true | _ => false end.
Definition is_mrgpost (x : thr) : bool := match pcv x with MrgFin _ _ _ | MrgCas2 _ _ _ => true | _ => false end.
Definition is_unown (x : thr) : bool := match pcv x with DecFastUnown => true | _ => false end.

(* i_merged: a merged word still has an owner only while that owner's merge stands at MrgFin.
   i_bpos: an owner's biased counter is below 1 only while it stands at DecFastUnown.
   i_mb: merged, queued and biased <> 0 together only between the two CASes of a merge. *)
Record Inv (s : st) : Prop := {
  i_count : freed s = false ->
            if merged (shared s) then cnt (shared s) = Z.of_nat (H s)
            else biased s + cnt (shared s) = Z.of_nat (H s);
  i_qtok : freed s = false ->
           (List.length (qs s) + sumf tok (thrs s) = if queued (shared s) then 1 else 0)%nat;
  i_pend : sumf pf (thrs s) = if freed s then O else if dead_word (shared s) then 1%nat else O;
  i_alive : freed s = true ->
            H s = O /\ qs s = [] /\ forall u x, nth_error (thrs s) u = Some x -> quiet x = true;
  i_once : destr s = if freed s then 1%nat else O;
  i_merged : merged (shared s) = true -> forall o, owner s = Some o ->
             exists x, nth_error (thrs s) o = Some x /\ is_mrgfin x = true;
  i_ownerc : owner s = None \/ owner s = Some (creator s);
  i_onb : owner s = None -> merged (shared s) = false -> biased s = 0;
  i_keys : forall e, In e (qs s) -> snd e = Some (creator s);
  i_tinv : forall u x, nth_error (thrs s) u = Some x -> tinv s u x;
  i_uaf : uaf s = O;
  i_excl : exclbad s = O;
  i_bpos : forall o, owner s = Some o ->
           1 <= biased s \/ exists x, nth_error (thrs s) o = Some x /\ is_unown x = true;
  i_mb : merged (shared s) = true ->
         biased s = 0 \/ queued (shared s) = false \/
         exists u y, nth_error (thrs s) u = Some y /\ is_mrgpost y = true
}.

Lemma sumf_map_mk f progs : (forall p, f (mk_thr p) = O) -> sumf f (map mk_thr progs) = O.
Proof. intros Hf. induction progs; simpl; auto. rewrite Hf, IHprogs. reflexivity. Qed.

Lemma nth_map_mk progs u x : nth_error (map mk_thr progs) u = Some x -> exists p, x = mk_thr p.
Proof.
  revert u. induction progs as [|p r IH]; intros [|u] Hx; simpl in *; try discriminate.
  - inversion Hx. eauto.
  - eauto.
Qed.

Lemma init_Inv cr regs progs : (cr < List.length progs)%nat -> Inv (init cr regs progs).
Proof.
  intros Hcr.
  assert (exists p, nth_error (map mk_thr progs) cr = Some (mk_thr p)) as [p Hp].
  { destruct (nth_error progs cr) as [p|] eqn:E.
    - exists p. rewrite nth_error_map, E. reflexivity.
    - apply nth_error_None in E. lia. }
  assert (Hall : forall f g, (forall p, f (mk_thr p) = O) -> (forall x, f (g x) = f x) ->
                 sumf f (upd cr g (map mk_thr progs)) = O).
  { intros f g Hf Hg. pose proof (sumf_upd f _ _ g _ Hp) as E. rewrite (sumf_map_mk f progs Hf), Hf, Hg, Hf in E. lia. }
  constructor; unfold init, H; simpl.
  - intros _. pose proof (sumf_upd held _ _ add_held _ Hp) as E.
    rewrite (sumf_map_mk held progs) in E by reflexivity. simpl in E. lia.
  - intros _. rewrite Hall; auto.
  - rewrite Hall; auto.
  - discriminate.
  - reflexivity.
  - discriminate.
  - auto.
  - discriminate.
  - intros e [].
  - intros u x Hx. apply nth_upd_inv in Hx as [[-> [y [Hy ->]]]|[Hne Hx]].
    + rewrite Hp in Hy. inversion Hy; subst. exact I.
    + apply nth_map_mk in Hx as [q ->]. exact I.
  - reflexivity.
  - reflexivity.
  - intros; left; lia.
  - discriminate.
Qed.

(* What reclamation needs beyond Inv.  While the value is owned by nobody and not yet merged, a thread
   (its creator) is between the two writes of the fast decrement; a negative count is always
   flagged; a thread clears the flag from inside enqueue only when there is no owner. *)
Definition fd (x : thr) : nat := match pcv x with DecFastLoad | DecFastCas _ => 1%nat | _ => O end.
Definition unowned (s : st) : bool := match owner s with None => negb (merged (shared s)) | Some _ => false end.
Definition enq_ok (s : st) (x : thr) : Prop :=
  match pcv x with EnqLoad | EnqCas _ => owner s = None | _ => True end.

Record Inv2 (s : st) : Prop := {
  j_negq : freed s = false -> cnt (shared s) < 0 -> queued (shared s) = true;
  j_unown : freed s = false -> unowned s = true -> (1 <= sumf fd (thrs s))%nat;
  j_enq : forall u x, nth_error (thrs s) u = Some x -> enq_ok s x
}.

Lemma init_Inv2 cr regs progs : Inv2 (init cr regs progs).
Proof.
  constructor; unfold init; simpl.
  - intros _ Hc. lia.
  - discriminate.
  - intros u x Hx. apply nth_upd_inv in Hx as [[-> [y [Hy ->]]]|[Hne Hx]].
    + apply nth_map_mk in Hy as [p ->]. exact I.
    + apply nth_map_mk in Hx as [p ->]. exact I.
Qed.
