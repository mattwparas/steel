(* C05 — the property theorems (Pins_C05.v, compiled on every run, checks each statement again).

   The model has ONE shared value and ANY number of threads; a schedule is a `list tid`; every
   theorem below quantifies over all creators, registrations, per-thread operation lists and
   schedules.  [uaf] counts accesses to the box after its deallocation, [exclbad] counts grants of
   exclusive access (get_mut = Some, try_unwrap = Ok) made while the number of live references was
   not one (C05_exclusive_monitor_spec), [destr] counts destructor runs.  Memory model: sequential
   consistency. *)
From Coq Require Import List ZArith Bool Lia.
From SV Require Import c05.Model_C05 c05.Proofs_C05 c05.Proofs_C05_inv c05.Proofs_C05_step c05.Proofs_C05_step2 c05.Proofs_C05_reclaim c05.Proofs_C05_gen gen.Gen_C05.
Import ListNotations.

Theorem C05_pack_roundtrip : forall w, in_range VALUE_BITS w ->
  unpack VALUE_BITS MERGED_BIT QUEUED_BIT (pack VALUE_BITS MERGED_BIT QUEUED_BIT w) = w.
Proof.
  intros w Hw.
  change MERGED_BIT with (VALUE_BITS + 1)%Z. change QUEUED_BIT with VALUE_BITS.
  apply pack_roundtrip_gen; [vm_compute; discriminate | exact Hw].
Qed.

Theorem C05_assert_range : ASSERT_RANGE_BITS = (VALUE_BITS - 1)%Z.
Proof. reflexivity. Qed.

(* the tree being checked is the repaired variant of the model: repo_cfg unfolds to fixed_cfg, for
   which the theorems about runs are proved *)
Theorem C05_repo_cfg_fixed : repo_cfg = fixed_cfg.
Proof. reflexivity. Qed.

Theorem C05_init_Inv : forall cr regs progs, (cr < List.length progs)%nat -> Inv (init cr regs progs).
Proof. exact init_Inv. Qed.

Theorem C05_Inv_sound : forall s, Inv s ->
  uaf s = O /\ exclbad s = O /\ (destr s <= 1)%nat /\ (destr s = 1%nat <-> freed s = true) /\
  (freed s = true -> sumh (thrs s) = O /\ qs s = []).
Proof. exact Inv_sound. Qed.

Theorem C05_step_preserves_Inv : forall t s s', Inv s -> step fixed_cfg t s = Some s' -> Inv s'.
Proof. exact step_Inv. Qed.

Theorem C05_schedule_preserves_Inv : forall cr regs progs sched, (cr < List.length progs)%nat ->
  Inv (run fixed_cfg sched (init cr regs progs)).
Proof. exact reachable_Inv. Qed.

(* no access to the value after it was destroyed, under every schedule *)
Theorem C05_no_use_after_free : forall cr regs progs sched, (cr < List.length progs)%nat ->
  uaf (run repo_cfg sched (init cr regs progs)) = O.
Proof. intros cr regs progs sched Hc. exact (i_uaf _ (reachable_Inv cr regs progs sched Hc)). Qed.

(* destroyed at most once, and only when no reference is left and nothing queued points to it *)
Theorem C05_destroyed_once : forall cr regs progs sched, (cr < List.length progs)%nat ->
  let s := run repo_cfg sched (init cr regs progs) in
  (destr s <= 1)%nat /\ (destr s = 1%nat <-> freed s = true) /\
  (freed s = true -> sumh (thrs s) = O /\ qs s = []).
Proof. exact destroyed_once. Qed.

(* exclusive access is granted only to the holder of the only reference, and asking for it changes
   no count *)
Theorem C05_exclusive_sound : forall cr regs progs sched, (cr < List.length progs)%nat ->
  let s := run repo_cfg sched (init cr regs progs) in
  exclbad s = O /\
  (forall t x s', nth_error (thrs s) t = Some x ->
     match pcv x with UnqRdOwner | UnqNoneLoad | UnqOwnRdBiased | UnqOwnLoad
                  | UmRdOwner | UmNoneLoad | UmOwnRdBiased | UmOwnLoad => True | _ => False end ->
     step repo_cfg t s = Some s' ->
     owner s' = owner s /\ biased s' = biased s /\ shared s' = shared s /\ freed s' = freed s /\
     destr s' = destr s /\ qs s' = qs s /\ sumh (thrs s') = sumh (thrs s)).
Proof. exact exclusive_sound. Qed.

(* reclamation, under the hypothesis that nothing is left in a merge queue (the owner has merged after
   the last enqueue; an owner that ended without merging is the limitation documented in lib.rs):
   once no reference is left and no thread is inside an operation, the value has been destroyed,
   exactly once *)
Theorem C05_reclaim : forall cr regs progs sched, (cr < List.length progs)%nat ->
  let s := run repo_cfg sched (init cr regs progs) in
  quiescent s -> sumh (thrs s) = O -> qs s = [] -> freed s = true /\ destr s = 1%nat.
Proof. exact reclaim. Qed.

Theorem C05_exclusive_monitor_spec : forall s, exclbad (excl_check s) = exclbad s <-> sumh (thrs s) = 1%nat.
Proof.
  intros s. unfold excl_check; simpl. destruct (Nat.eqb_spec (sumh (thrs s)) 1); [tauto|]. split; [lia|tauto].
Qed.

Theorem C05_has_unique_ref_refuted :
  let s := run original_cfg f1_sched (init 0%nat [0; 1]%nat f1_progs) in
  freed s = true /\ (0 < sumh (thrs s))%nat /\ (0 < uaf s)%nat.
Proof. vm_compute. repeat split; apply Nat.lt_0_succ || constructor. Qed.

Theorem C05_freed_while_queued_refuted :
  let s := run f1_fixed_cfg f17_sched (init 0%nat [0; 1]%nat f17_progs) in
  (0 < uaf s)%nat /\ destr s = 2%nat.
Proof. vm_compute. split; [apply Nat.lt_0_succ | reflexivity]. Qed.

Theorem C05_witnesses_repaired :
  (let s := run fixed_cfg f1_sched (init 0%nat [0; 1]%nat f1_progs) in
   freed s = false /\ sumh (thrs s) = 1%nat /\ uaf s = 0%nat) /\
  (let s := run fixed_cfg f17_sched (init 0%nat [0; 1]%nat f17_progs) in
   uaf s = 0%nat /\ destr s = 1%nat /\ freed s = true /\ sumh (thrs s) = 0%nat).
Proof. split; vm_compute; repeat split. Qed.
