From Coq Require Import List Arith Lia Bool.
Import ListNotations.
From SV Require Import c17.Model_C17.

Lemma unwind_spec : forall fs,
  match unwind fs with Some fs' => handlers fs' < handlers fs /\ fs' <> [] | None => handlers fs = 0 end.
Proof.
  induction fs as [|f r IH]; cbn [unwind]; [reflexivity|]. unfold handlers in *. cbn [filter].
  destruct (handler f); [split; [cbn; lia | discriminate] | exact IH].
Qed.

Lemma unwind_some : forall fs, 0 < handlers fs -> exists fs', unwind fs = Some fs'.
Proof. intros fs H. pose proof (unwind_spec fs) as U. destruct (unwind fs); [eauto | lia]. Qed.

(* with the flag set every dispatch consumes one unit of the built-in in progress or one installed handler *)
Lemma latency : forall p m s, busy s + handlers (frames s) < m -> frames s <> [] ->
  vrun p true m s = ErrInterrupted.
Proof.
  induction m as [|m IH]; intros [fs [|b]] Hm Hne; cbn [busy frames] in *; try lia.
  - destruct fs as [|f r]; [congruence|]. cbn [vrun vstep busy frames].
    pose proof (unwind_spec (f :: r)) as U. destruct (unwind (f :: r)) as [fs'|]; [|reflexivity].
    apply IH; cbn [busy frames]; [lia | tauto].
  - apply IH; cbn [busy frames]; [lia | exact Hne].
Qed.

Lemma vrun_add : forall p flag a b s,
  vrun p flag (a + b) s = match vrun p flag a s with Running s' => vrun p flag b s' | r => r end.
Proof.
  induction a as [|a IH]; intros b s; cbn [Nat.add vrun]; [reflexivity|].
  destruct (vstep p flag s); [apply IH|reflexivity..].
Qed.

Lemma vrun_cycle : forall p flag k s, vrun p flag k s = Running s ->
  forall m, vrun p flag (m * k) s = Running s.
Proof. intros p flag k s H. induction m as [|m IH]; [reflexivity|]. cbn [Nat.mul]. rewrite vrun_add, H. exact IH. Qed.

Lemma vrun_prefix : forall p flag a b s s', vrun p flag (a + b) s = Running s' ->
  exists s'', vrun p flag a s = Running s''.
Proof.
  intros p flag a b s s' H. rewrite vrun_add in H.
  destruct (vrun p flag a s) as [s''| | |]; [exists s''; reflexivity|discriminate..].
Qed.

Lemma lasso_runs_forever : forall p flag a k s0 s,
  vrun p flag a s0 = Running s -> vrun p flag (S k) s = Running s ->
  forall n, exists s', vrun p flag n s0 = Running s'.
Proof.
  intros p flag a k s0 s Ha Hk n. apply (vrun_prefix p flag n (a + n * k) s0 s).
  replace (n + (a + n * k)) with (a + n * S k) by lia.
  rewrite vrun_add, Ha. apply vrun_cycle, Hk.
Qed.
