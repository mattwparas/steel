(* C17 — the property theorems (Pins_C17.v checks each statement). *)
From Coq Require Import List Arith Lia Bool.
Import ListNotations.
From SV Require Import c17.Model_C17 c17.Proofs_C17 gen.Gen_C17.

(* For every program and every state of a running evaluation (any nesting of bytecode calls, callbacks
   from built-ins and handler frames): once the interrupt flag is set, the evaluation returns
   Err Interrupted after the remaining work of the built-in in progress (its non-polling region), one
   dispatch per installed handler frame (each catches the error once and its handler polls again), and
   one more dispatch — and stays there. *)
Theorem C17_interrupt_latency : forall p s k, frames s <> [] ->
  vrun p true (busy s + handlers (frames s) + 1 + k) s = ErrInterrupted.
Proof. intros p s k Hne. apply latency; [lia | exact Hne]. Qed.

(* the non-polling region is bounded by the longest built-in of the program *)
Theorem C17_region_bounded : forall p s s' W,
  (forall c i w, nth i (nth c p []) IRet = IPrim w -> w <= W) ->
  busy s <= W -> vstep p false s = Running s' -> busy s' <= W.
Proof.
  intros p [fs b] s' W HW Hb H. unfold vstep in H. cbn [busy frames] in *.
  destruct b as [|b]; [|injection H as <-; cbn [busy]; lia].
  destruct fs as [|f r]; [discriminate|].
  destruct (fetch p f) eqn:E; injection H as <-; cbn [busy]; try apply Nat.le_0_l.
  exact (HW _ _ _ E).
Qed.

(* resume, as far as the model's [after] carries it (Engine::run resets the thread's frames and stack when an
   evaluation returns): the engine left by Err Interrupted is the idle one, and a probe's frame pushed on it is the
   start state of that probe.  Both equations hold by unfolding [after]; the reset itself is taken from the
   model. *)
Theorem C17_resume_usable : forall p probe n,
  after ErrInterrupted = idle /\
  vrun p false n {| frames := [mk probe None false] ++ frames (after ErrInterrupted); busy := busy (after ErrInterrupted) |}
  = vrun p false n (start probe).
Proof. intros. split; reflexivity. Qed.

(* non-vacuity: without the flag each of the five example loops is still Running after 1000 dispatches *)
Example C17_loops_run_forever :
  (exists s, vrun p_self_loop false 1000 (start 0) = Running s) /\
  (exists s, vrun p_mutual false 1000 (start 0) = Running s) /\
  (exists s, vrun p_callback_loop false 1000 (start 0) = Running s) /\
  (exists s, vrun p_handler_loop false 1000 (start 0) = Running s) /\
  (exists s, vrun p_nested false 1000 (start 0) = Running s).
Proof.
  generalize 1000. intro n. repeat split.
  - exact (lasso_runs_forever p_self_loop false 0 1 (start 0) _ eq_refl eq_refl n).
  - exact (lasso_runs_forever p_mutual false 0 1 (start 0) _ eq_refl eq_refl n).
  - exact (lasso_runs_forever p_callback_loop false 1 1 (start 0) _ eq_refl eq_refl n).
  - exact (lasso_runs_forever p_handler_loop false 1 4 (start 0) _ eq_refl eq_refl n).
  - exact (lasso_runs_forever p_nested false 3 6 (start 0) _ eq_refl eq_refl n).
Qed.

(* ... and p_nested, 40 dispatches in with two handler frames installed, returns Err Interrupted within the bound
   of C17_interrupt_latency once the flag is set *)
Example C17_loops_interrupted :
  (exists s, vrun p_nested false 40 (start 0) = Running s /\ handlers (frames s) = 2 /\
             vrun p_nested true (busy s + 2 + 1) s = ErrInterrupted).
Proof. eexists. vm_compute. repeat split; reflexivity. Qed.

(* generated facts: the poll is at the head of the dispatch loop, raises on Interrupted, and the
   safepoint exit loops break on Interrupted *)
Theorem C17_source_polls : poll_facts = true.
Proof. exact poll_facts_ok. Qed.
